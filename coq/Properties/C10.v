(* C10 — sufficiency verdicts are exactly the published criteria.
   The lemmas about the model are in Proofs/SufficiencyProofs.v; the model is Model/Sufficiency.v ([criteria]: the criteria
   classes; [dataclass]: the way the six data classes call them).  What the source fixes declaratively is regenerated
   on every run (Generated/SufficiencyGen.v): the check sequences, the span limits, the constructor flags, the off-cycle
   target, the rows that carry data and the added usage column enter through [code_params] (Model/SufficiencyRun.v);
   the two binary64 coverage constants enter through the table theorems of Part B; the rounding of the day sums and the
   min_count of the billing totals are stated there as they stand.  The statements also use the example frames and
   [offcycle_dq] defined at the head of Proofs/SufficiencyProofs.v and [ex_days] of Proofs/BillingRowsProofs.v.

   The declarative side ([violates_baseline], [violates_reporting], Model/Sufficiency.v) is the statement's list:
   span outside 329-365 days; under 90 % of the span in whole days with valid usage / valid temperature / both (each
   timestamp's period up to the next timestamp); a month of the year under 90 % temperature (hourly: usage, irradiance)
   coverage; negative usage of a non-electric baseline; no data at all.

   Part A: theorems about the model for every parameter record (they never depend on the regenerated file).
   Part B (end of the file): the regenerated parameters are the statement's, hence the full statement C10_statement
   holds for the code as it is now - with no guard besides the representation invariant [frame_wf] (a frame without a
   usage column carries no usage value). *)
From Coq Require Import ZArith QArith List Bool Lia.
From V Require Import Model.Sufficiency Model.BillingRows Model.SufficiencyRun Generated.SufficiencyGen
  Proofs.SufficiencyProofs Proofs.BillingRowsProofs.
Import ListNotations.
Open Scope Z_scope.

(* ---- the full statement, for the parameters the code has now ---- *)
Definition C10_statement : Prop :=
  forall f w el cx fr, frame_wf fr ->
    exists dq ws, dataclass code_params f w el cx fr = Accepted dq ws /\ NoDup dq /\
      forall n, In n dq <-> match w with Baseline => violates_baseline f el fr n | Reporting => violates_reporting f fr n end.

(* ======================================================= Part A ======================================================= *)

(* ---- when the data classes accept a frame, and when they raise ---- *)
Theorem C10_accepts_wellformed : forall p f w el cx fr,
  is_reporting_flag p f w = true \/ f_has_obs fr = true \/ (w = Baseline /\ p_baseline_adds_usage p f = true) ->
  exists dq ws, dataclass p f w el cx fr = Accepted dq ws.
Proof.
  intros p f w el cx fr H. apply criteria_accepts. rewrite handed_has_obs.
  destruct H as [H|[H|[-> H]]]; [left; exact H|right; rewrite H; reflexivity|right; rewrite H; apply orb_true_r].
Qed.
Print Assumptions C10_accepts_wellformed.

Theorem C10_raises_exactly : forall p f w el cx fr e,
  dataclass p f w el cx fr = Raised e <->
  e = AttributeError /\ is_reporting_flag p f w = false /\ f_has_obs fr = false /\ (w = Reporting \/ p_baseline_adds_usage p f = false).
Proof.
  intros p f w el cx fr e. unfold dataclass. rewrite criteria_raises, handed_has_obs, orb_false_iff.
  destruct w; intuition discriminate.
Qed.
Print Assumptions C10_raises_exactly.

(* ---- baseline: soundness and completeness of the reported set, for every parameter record with the published
   thresholds and sets of checks (any order of the checks) ---- *)
Theorem C10_baseline_dq_exact : forall p f el cx fr,
  params_ok p = true -> p_offcycle_dq p = false -> frame_wf fr ->
  f_has_obs fr = true \/ p_baseline_adds_usage p f = true ->
  exists dq ws, dataclass p f Baseline el cx fr = Accepted dq ws /\ NoDup dq /\
    forall n, In n dq <-> violates_baseline f el fr n.
Proof.
  intros p f el cx fr Hok Hoff Hwf Hobs. apply accepted_dq_exact.
  - apply C10_accepts_wellformed. tauto.
  - apply nodup_dq_of_criteria.
  - intro n. rewrite (dataclass_baseline_membership p f el cx fr n Hok Hwf Hobs), (offcycle_dq_off p f cx Hoff).
    intuition discriminate.
Qed.
Print Assumptions C10_baseline_dq_exact.

Example C10_baseline_witness :
  dataclass published Daily Baseline false cx0 (mkframe true false (ex_full 340)) = Accepted [] [].
Proof. vm_compute. reflexivity. Qed.

(* on / one day past the 90 % threshold *)
Example C10_baseline_threshold_witness :
  dq_of (dataclass published Daily Baseline false cx0 (mkframe true false (ex_temp_gap 340 100 34 (Some (5 # 1)%Q))))
  = [TooManyDaysMissingData; TooManyDaysMissingTemperature] /\
  dq_of (dataclass published Daily Baseline false cx0 (mkframe true false (ex_temp_gap 340 100 33 (Some (5 # 1)%Q))))
  = [] /\
  whole_days temp_valid90 (ex_temp_gap 340 100 33 (Some (5 # 1)%Q)) = 306.
Proof. split; [|split]; vm_compute; reflexivity. Qed.

(* at the four span limits *)
Example C10_span_limits_witness :
  map (fun n => dq_of (dataclass published Daily Baseline true cx0 (mkframe true false (ex_full n)))) [328; 329; 365; 366]%nat
  = [[IncorrectNumberOfTotalDays]; []; []; [IncorrectNumberOfTotalDays]].
Proof. vm_compute. reflexivity. Qed.

(* ---- reporting ---- *)
Theorem C10_reporting_dq_exact : forall p f el cx fr,
  params_ok p = true -> p_offcycle_dq p = false -> p_reporting_flag p f = true ->
  p_span_ignores_usage p = true \/ usage_irrelevant fr ->
  exists dq ws, dataclass p f Reporting el cx fr = Accepted dq ws /\ NoDup dq /\
    forall n, In n dq <-> violates_reporting f fr n.
Proof.
  intros p f el cx fr Hok Hoff Hflag Hus. rewrite dataclass_reporting. apply accepted_dq_exact.
  - apply criteria_accepts. left. exact Hflag.
  - apply nodup_dq_of_criteria.
  - intro n. rewrite (reporting_membership p f el cx fr n Hok Hflag Hus), (offcycle_dq_off p f cx Hoff).
    intuition discriminate.
Qed.
Print Assumptions C10_reporting_dq_exact.

Example C10_reporting_witness :
  dq_of (dataclass published Daily Reporting true cx0 (mkframe false false (ex_temp_gap 300 150 31 None)))
  = [TooManyDaysMissingData; TooManyDaysMissingTemperature; MissingMonthlyTemperature].
Proof. vm_compute. reflexivity. Qed.

(* four corners, evaluated: a baseline without any usage is reported as having no data; an off-cycle read only warns;
   temperature-only hourly reporting data is qualified; reporting data with usage on part of the days is judged against
   the whole span *)
Example C10_repaired_corners_witness :
  dataclass published Daily Baseline true cx0 (mkframe false false (ex_no_usage 340))
  = Accepted [NoData; TooManyDaysMissingData; TooManyDaysMissingMeter; TooManyDaysMissingTemperature] [] /\
  dataclass published Billing Baseline true cx_off (mkframe true false (ex_full 340)) = Accepted [] [OffcycleWarning] /\
  dataclass published Hourly Reporting true cx0 (mkframe true false (ex_no_usage 340)) = Accepted [] [] /\
  dq_of (dataclass published Daily Reporting true cx0 ex_rep_partial)
  = [TooManyDaysMissingData; TooManyDaysMissingTemperature; MissingMonthlyTemperature].
Proof. vm_compute. repeat split. Qed.

(* ---- the full statement for every parameter record that is the statement's ---- *)
Theorem C10_statement_for : forall p, params_exact p = true -> forall f w el cx fr, frame_wf fr ->
  exists dq ws, dataclass p f w el cx fr = Accepted dq ws /\ NoDup dq /\
    forall n, In n dq <-> match w with Baseline => violates_baseline f el fr n | Reporting => violates_reporting f fr n end.
Proof.
  intros p Hex f w el cx fr Hwf. destruct (params_exact_facts p Hex) as [Hok Hrep Hoff Hspan Hadd]. destruct w.
  - apply C10_baseline_dq_exact; try assumption. right. apply Hadd.
  - apply C10_reporting_dq_exact; try assumption; [apply Hrep|left; exact Hspan].
Qed.
Print Assumptions C10_statement_for.

Example C10_statement_for_witness : params_exact published = true /\
  frame_wf (mkframe true false (ex_full 340)) /\ frame_wf (mkframe false false (ex_no_usage 340)) /\ frame_wf ex_rep_partial.
Proof.
  split; [vm_compute; reflexivity|].
  split; [|split]; intro H; try discriminate H.
  intros r Hin. apply in_map_iff in Hin. destruct Hin as [i [<- _]]. reflexivity.
Qed.

(* ---- exactly at each threshold: binary64 comparisons against a constant that passes the table are the integer
   comparisons of the model, for every pair of counts up to 1000 (the table of the regenerated constants is Part B) ---- *)
Theorem C10_threshold_exact_for : forall thr_days thr_hours,
  threshold_table THRESHOLD_BOUND thr_days = true -> threshold_table THRESHOLD_BOUND thr_hours = true ->
  forall n d, 0 <= n <= 1000 -> 1 <= d <= 1000 ->
  frac_lt thr_days n d = (10 * n <? 9 * d) /\ frac_gt thr_hours n d = (9 * d <? 10 * n).
Proof.
  intros thr_days thr_hours H1 H2 n d Hn Hd.
  split; [exact (proj1 (threshold_exact thr_days H1 n d Hn Hd)) | exact (proj2 (threshold_exact thr_hours H2 n d Hn Hd))].
Qed.
Print Assumptions C10_threshold_exact_for.

(* ---- warnings never change the verdict ---- *)
Theorem C10_warnings_never_change_verdict : forall p f w el cx cx' fr,
  p_offcycle_dq p = false \/ x_offcycle cx = x_offcycle cx' ->
  dq_of (dataclass p f w el cx fr) = dq_of (dataclass p f w el cx' fr).
Proof.
  intros p f w el cx cx' fr H. unfold dataclass. rewrite !dq_of_criteria.
  (* the context enters the disqualifications through the off-cycle rule only *)
  assert (E : offcycle_dq p f cx = offcycle_dq p f cx').
  { destruct H as [H|H]; [rewrite !offcycle_dq_off by exact H; reflexivity|unfold offcycle_dq; rewrite H; reflexivity]. }
  rewrite E. reflexivity.
Qed.
Print Assumptions C10_warnings_never_change_verdict.

(* the magnitude of the usage values (extreme values) never changes the verdict: only presence and sign do *)
Theorem C10_usage_magnitude_never_changes_verdict : forall p f w el cx o g rows rows',
  Forall2 same_shape rows rows' ->
  dq_of (dataclass p f w el cx (mkframe o g rows)) = dq_of (dataclass p f w el cx (mkframe o g rows')).
Proof.
  intros p f w el cx o g rows rows' H. unfold dataclass.
  destruct (shape_handed_frame p f w o g rows rows' H) as [o' [l [l' [E [E' Hl]]]]]. rewrite E, E'.
  apply criteria_usage_magnitude_never_changes_verdict. exact Hl.
Qed.
Print Assumptions C10_usage_magnitude_never_changes_verdict.

Example C10_usage_magnitude_witness :
  Forall2 same_shape ex_negative (map (fun i => ex_row i (Some (if Nat.eqb i 7 then (-1 # 2) else (1 # 1))%Q) true) (seq 0 340)) /\
  dataclass published Daily Baseline false cx0 (mkframe true false ex_negative) = Accepted [NegativeMeterValues] [ExtremeValues] /\
  dataclass published Daily Baseline true cx0 (mkframe true false ex_negative) = Accepted [] [ExtremeValues].
Proof.
  split; [|split; vm_compute; reflexivity].
  unfold ex_negative. generalize (seq 0 340). intro l. induction l as [|i l IH]; [constructor|].
  cbn [map]. constructor; [|exact IH].
  unfold same_shape, ex_row. cbn [r_ts r_month r_temp r_cov r_ghi r_aux r_obs].
  repeat (split; [reflexivity|]).
  destruct (Nat.eqb i 7); [split; intros _; reflexivity|].
  destruct (Nat.eqb i 9); split; intro H; vm_compute in H; discriminate H.
Qed.

(* the four warnings are what the context and the extreme-value rule say, whatever the verdict *)
Theorem C10_warnings_spec : forall p f w el cx fr dq ws n,
  dataclass p f w el cx fr = Accepted dq ws ->
  (In n ws <->
   match n with
   | ExtremeValues => In CExtreme (sequence_of p f w) /\ is_reporting_flag p f w = false
                      /\ has_extreme (f_rows (handed_frame p f w fr)) = true
   | UtcIndex => x_utc cx = true
   | UnverifiableTemperature => is_hourly f = false /\ x_unverifiable cx = true
   | OffcycleWarning => is_billing f = true /\ x_offcycle cx = true /\ p_offcycle_dq p = false
   end).
Proof.
  intros p f w el cx fr dq ws n H. unfold dataclass in H. rewrite criteria_eq in H. cbv zeta in H.
  destruct (negb _ && negb _); [discriminate H|]. apply (f_equal warnings_of) in H. cbn [warnings_of] in H. subst ws.
  rewrite in_canon_w, !in_app_iff, in_run_sequence_w, !in_if_singleton, !andb_true_iff, !negb_true_iff.
  destruct n; intuition discriminate.
Qed.
Print Assumptions C10_warnings_spec.

(* ---- regression: a parameter record that differs from the statement's in one piece of the data classes' glue (added
   usage column, off-cycle target, reporting flag, rows that carry data) leaves the statement, and what it reports instead
   is characterised exactly ---- *)
Theorem C10_regression_added_usage_column : forall p f el cx g rows, p_baseline_adds_usage p f = false ->
  dataclass p f Baseline el cx (mkframe false g rows) = Raised AttributeError.
Proof. intros p f el cx g rows H. apply C10_raises_exactly. repeat split; try reflexivity. right. exact H. Qed.
Print Assumptions C10_regression_added_usage_column.

Theorem C10_regression_offcycle_warning : forall p el fr,
  params_ok p = true -> p_offcycle_dq p = true -> f_has_obs fr = true ->
  In OffcycleReads (dq_of (dataclass p Billing Baseline el cx_off fr)) /\
  ~ In OffcycleReads (dq_of (dataclass p Billing Baseline el cx0 fr)) /\
  ~ violates_baseline Billing el fr OffcycleReads.
Proof.
  intros p el fr Hok Hoff Hobs. rewrite !(dataclass_baseline_obs p Billing el _ fr Hobs). split; [|split].
  - apply (baseline_membership p Billing el cx_off fr OffcycleReads Hok Hobs). right. split; [reflexivity|].
    unfold offcycle_dq. rewrite Hoff. reflexivity.
  - intro H. apply (baseline_membership p Billing el cx0 fr OffcycleReads Hok Hobs) in H.
    destruct H as [H|[_ H]]; [exact H|discriminate H].
  - intro V. exact V.
Qed.
Print Assumptions C10_regression_offcycle_warning.

Theorem C10_regression_hourly_reporting_flag : forall p el cx fr n,
  params_ok p = true -> p_reporting_flag p Hourly = false -> f_has_obs fr = true ->
  (In n (dq_of (criteria p Hourly Reporting el cx fr)) <-> violates_reporting_as_baseline fr n).
Proof.
  intros p el cx fr n Hok Hflag Hobs.
  rewrite (criteria_membership p Hourly Reporting el cx fr n false (complete false fr) Hok Hflag (or_intror Hobs)
             (fun r _ => eq_refl)).
  unfold violates_reporting_as_baseline.
  destruct n; cbn [check_of]; rewrite ?in_canonical; cbn [check_holds published_counts c_total c_valid c_meter c_temp];
    rewrite <- ?span_none_iff; intuition discriminate.
Qed.
Print Assumptions C10_regression_hourly_reporting_flag.

Theorem C10_regression_hourly_reporting_no_data : forall p el cx n, (0 < n)%nat ->
  params_ok p = true -> p_reporting_flag p Hourly = false ->
  let fr := mkframe true false (ex_no_usage n) in
  In NoData (dq_of (dataclass p Hourly Reporting el cx fr)) /\ ~ violates_reporting Hourly fr NoData.
Proof.
  intros p el cx n Hn Hok Hflag. cbn zeta. rewrite dataclass_reporting. split.
  - apply (C10_regression_hourly_reporting_flag p el cx (mkframe true false (ex_no_usage n)) NoData Hok Hflag eq_refl).
    cbn [violates_reporting_as_baseline f_rows]. intros r Hin.
    apply in_map_iff in Hin. destruct Hin as [i [<- _]]. reflexivity.
  - intro V. cbn [violates_reporting f_rows] in V.
    assert (Hin : In (ex_row 0 None true) (ex_no_usage n)).
    { apply in_map_iff. exists 0%nat. split; [reflexivity|]. apply in_seq. lia. }
    specialize (V _ Hin). discriminate V.
Qed.
Print Assumptions C10_regression_hourly_reporting_no_data.

Theorem C10_regression_reporting_span : forall p f el cx fr n,
  params_ok p = true -> p_reporting_flag p f = true -> p_span_ignores_usage p = false ->
  (In n (dq_of (criteria p f Reporting el cx fr)) <->
   violates_reporting_span_over_usage f fr n \/ (n = OffcycleReads /\ offcycle_dq p f cx = true)).
Proof. exact reporting_membership_span_over_usage. Qed.
Print Assumptions C10_regression_reporting_span.

Theorem C10_regression_reporting_partial_usage : forall p f el cx, params_ok p = true -> p_reporting_flag p f = true ->
  p_span_ignores_usage p = false ->
  ~ In TooManyDaysMissingTemperature (dq_of (dataclass p f Reporting el cx ex_rep_partial)) /\
  violates_reporting f ex_rep_partial TooManyDaysMissingTemperature.
Proof.
  intros p f el cx Hok Hflag Hspan. destruct ex_rep_partial_facts as [Eusage [Eall Evalid]].
  apply (reporting_partial_usage p f el cx ex_rep_partial 100 300 Hok Hflag Hspan Eusage Eall); rewrite Evalid; lia.
Qed.
Print Assumptions C10_regression_reporting_partial_usage.

(* the hypotheses of the regression theorems are satisfiable: the statement's thresholds with the glue as it was *)
Example C10_regression_witness : params_ok as_coded = true /\ p_reporting_flag as_coded Hourly = false /\ p_offcycle_dq as_coded = true /\
  p_span_ignores_usage as_coded = false /\ p_baseline_adds_usage as_coded Daily = false /\
  dq_of (dataclass as_coded Hourly Reporting true cx0 (mkframe true false (ex_no_usage 340)))
  = [NoData; TooManyDaysMissingData; TooManyDaysMissingTemperature] /\
  dq_of (dataclass as_coded Daily Reporting true cx0 ex_rep_partial) = [MissingMonthlyTemperature] /\
  dq_of (dataclass as_coded Billing Baseline true cx_off (mkframe true false (ex_full 340))) = [OffcycleReads].
Proof. vm_compute. repeat split. Qed.

(* ---- daily / hourly rows handed to the billing classes (Model/BillingRows.v): one total per calendar month
   (sum with min_count = 1), spread over the month's days by elapsed time ---- *)
(* a day carries usage exactly when some day of its calendar month has a value: the published "days with valid usage"
   is decided per billing period, for every list of days *)
Theorem C10_billing_rows_present_iff : forall l r,
  (exists q, spread_day true l r = Some q) <-> exists r', In r' l /\ d_key r' = d_key r /\ has_val r' = true.
Proof. intros l r. rewrite spread_day_present. intuition discriminate. Qed.
Print Assumptions C10_billing_rows_present_iff.

Theorem C10_billing_rows_month_without_value : forall l r,
  (forall r', In r' l -> d_key r' = d_key r -> d_val r' = None) -> spread_day true l r = None.
Proof.
  intros l r H. destruct (spread_day true l r) as [q|] eqn:E; [|reflexivity].
  destruct (proj1 (C10_billing_rows_present_iff l r) (ex_intro _ q E)) as [r' [Hin [Hk Hv]]].
  unfold has_val in Hv. rewrite (H r' Hin Hk) in Hv. discriminate Hv.
Qed.
Print Assumptions C10_billing_rows_month_without_value.

Theorem C10_billing_rows_whole_month : forall l r1 r2, d_key r1 = d_key r2 ->
  ((exists q, spread_day true l r1 = Some q) <-> (exists q, spread_day true l r2 = Some q)).
Proof. intros l r1 r2 H. rewrite !C10_billing_rows_present_iff, H. reflexivity. Qed.
Print Assumptions C10_billing_rows_whole_month.

(* the shares of the days of a month add up to the month's total, which is the sum of the values supplied *)
Theorem C10_billing_rows_conserve : forall mc l k t, month_total mc k l = Some t -> 0 < month_len k l ->
  (qsum (map (fun r => share t r (month_len k l)) (filter (in_key k) l)) == t)%Q /\
  t = qsum (vals (filter (in_key k) l)).
Proof. intros mc l k t H Hp. split; [exact (spread_conserves l k t Hp)|exact (month_total_is_sum mc k l t H)]. Qed.
Print Assumptions C10_billing_rows_conserve.

(* regression: without min_count every day carries usage, so a month without any value is no longer missing *)
Theorem C10_regression_billing_rows_min_count : forall l r, exists q, spread_day false l r = Some q.
Proof. intros l r. apply spread_day_present. left. reflexivity. Qed.
Print Assumptions C10_regression_billing_rows_min_count.

Example C10_billing_rows_witness :
  map (fun o => match o with Some q => Some (Qred q) | None => None end) (spread true ex_days)
  = [Some (120 # 71)%Q; Some (115 # 71)%Q; Some (120 # 71)%Q; None; None; Some (25 # 14)%Q; Some (12 # 7)%Q] /\
  map (fun o => match o with Some _ => true | None => false end) (spread false ex_days)
  = [true; true; true; true; true; true; true].
Proof. split; vm_compute; reflexivity. Qed.

(* ---- the frames of the correspondence: the run-length expansion (civil month cached per local day) is the plain one ---- *)
Theorem C10_frame_expansion : forall t step n off obs tp cov g a,
  expand_seg (t, step, n, off, obs, tp, cov, g, a) = expand_seg_simple (Z.to_nat n) t step off obs tp cov g a.
Proof.
  intros. unfold expand_seg. apply expand_seg_aux_simple.
  - apply Z.mod_mul. lia.
  - rewrite Z.div_mul by lia. reflexivity.
Qed.
Print Assumptions C10_frame_expansion.

(* ======================================================= Part B =======================================================
   the regenerated parameters (checked inside the kernel against what the source says now) *)

(* MIN_BASELINE_LENGTH = ceil(0.9 * 365), evaluated in binary64 as python does *)
Theorem C10_code_min_length : code_min_len = 329 /\ gen_max_baseline_length = 365.
Proof. vm_compute. split; reflexivity. Qed.
Print Assumptions C10_code_min_length.

(* the valid-day sums are rounded before they are truncated (the binary64 sum of 1/24-day periods can be one ulp below a
   whole number; the summation itself is outside the exact-arithmetic model) *)
Theorem C10_code_day_sum_rounded : gen_day_sum_rounded = true.
Proof. vm_compute. reflexivity. Qed.
Print Assumptions C10_code_day_sum_rounded.

(* the binary64 constant of the code passes the table: 1000 x 1001 quotients.  What is evaluated is the cheaper
   [threshold_table_split] (Proofs/SufficiencyProofs.v), which implies the table; the cast is not checked at this line
   because [Qed] evaluates it once more in any case. *)
Theorem C10_daily_coverage_table : threshold_table THRESHOLD_BOUND gen_min_fraction_daily_coverage = true.
Proof. apply threshold_table_split_sound. vm_cast_no_check (eq_refl true). Qed.
Print Assumptions C10_daily_coverage_table.

(* the same binary64 number as the daily constant, so the same table *)
Theorem C10_hourly_coverage_table : threshold_table THRESHOLD_BOUND gen_min_fraction_hourly_temperature_coverage = true.
Proof. exact C10_daily_coverage_table. Qed.
Print Assumptions C10_hourly_coverage_table.

Theorem C10_threshold_exact : forall n d, 0 <= n <= 1000 -> 1 <= d <= 1000 ->
  frac_lt gen_min_fraction_daily_coverage n d = (10 * n <? 9 * d) /\
  frac_gt gen_min_fraction_hourly_temperature_coverage n d = (9 * d <? 10 * n).
Proof. exact (C10_threshold_exact_for _ _ C10_daily_coverage_table C10_hourly_coverage_table). Qed.
Print Assumptions C10_threshold_exact.

Theorem C10_under_is_float : forall n d, 0 <= n <= 1000 -> 1 <= d <= 1000 ->
  under code_params n (Some d) = frac_lt gen_min_fraction_daily_coverage n d.
Proof. exact (under_is_float code_params _ eq_refl eq_refl C10_daily_coverage_table). Qed.
Print Assumptions C10_under_is_float.

Example C10_threshold_witness :
  frac_lt gen_min_fraction_daily_coverage 306 340 = false /\ frac_lt gen_min_fraction_daily_coverage 305 340 = true /\
  frac_lt gen_min_fraction_daily_coverage 27 30 = false.
Proof. vm_compute. repeat split. Qed.

(* thresholds, span limits and the *sets* of checks of the six entry points are the statement's (any order) *)
Theorem C10_code_params_published : params_ok code_params = true.
Proof. vm_compute. reflexivity. Qed.
Print Assumptions C10_code_params_published.

(* ... and so is the glue of the six data classes: reporting data is declared as such (all three families), off-cycle
   reads go to the warnings, the rows that carry data ignore the usage column of reporting data, a baseline frame
   always reaches the criteria class with a usage column *)
Theorem C10_code_params_exact : params_exact code_params = true.
Proof. vm_compute. reflexivity. Qed.
Print Assumptions C10_code_params_exact.

(* ---- the full statement holds for the code as it is ---- *)
Theorem C10_statement_holds : C10_statement.
Proof. exact (C10_statement_for code_params C10_code_params_exact). Qed.
Print Assumptions C10_statement_holds.

(* every frame is accepted by the six data classes of the code as it is *)
Theorem C10_code_accepts_wellformed : forall f w el cx fr, exists dq ws, dataclass code_params f w el cx fr = Accepted dq ws.
Proof.
  intros f w el cx fr. apply C10_accepts_wellformed. destruct w.
  - right. right. split; [reflexivity|]. exact (ef_add _ (params_exact_facts _ C10_code_params_exact) f).
  - left. exact (ef_rep _ (params_exact_facts _ C10_code_params_exact) f).
Qed.
Print Assumptions C10_code_accepts_wellformed.

(* the context (UTC index, unverifiable temperature, off-cycle reads) never changes the verdict of the code as it is *)
Theorem C10_code_warnings_never_change_verdict : forall f w el cx cx' fr,
  dq_of (dataclass code_params f w el cx fr) = dq_of (dataclass code_params f w el cx' fr).
Proof.
  intros. apply C10_warnings_never_change_verdict. left.
  exact (ef_off _ (params_exact_facts _ C10_code_params_exact)).
Qed.
Print Assumptions C10_code_warnings_never_change_verdict.

(* the billing classes total the daily / hourly rows of a calendar month with min_count = 1 ... *)
Theorem C10_code_billing_month_min_count : gen_billing_month_min_count = true.
Proof. vm_compute. reflexivity. Qed.
Print Assumptions C10_code_billing_month_min_count.

(* ... hence, for the code as it is, a day of such data carries usage exactly when its calendar month has a value *)
Theorem C10_code_billing_rows_present_iff : forall l r,
  (exists q, spread_day gen_billing_month_min_count l r = Some q) <->
  exists r', In r' l /\ d_key r' = d_key r /\ has_val r' = true.
Proof. rewrite C10_code_billing_month_min_count. exact C10_billing_rows_present_iff. Qed.
Print Assumptions C10_code_billing_rows_present_iff.
