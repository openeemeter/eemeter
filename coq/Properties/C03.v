(* C03 — fitting is reproducible: same data and settings (and the same seed for the hourly model) give the same model,
   within a process, across processes, under any worker-thread count, whatever the library was used for before.

   PARTIAL, and the weakest use of the technique in this development.  What is PROVED here is the seed / global-state
   plumbing: (a) in the model Model/Repro.v, whose operations consult only what the code's control flow consults, the
   result of a seeded fit is a function of the operation and, for the CalTRACK hourly model, of the BLAS pool size of the
   process; (b) in the tables regenerated from the source on every
   run (Generated/ReproGen.v), every consumer of randomness receives a value derived from the settings seed, and the
   global generator is used only to pick a seed when none is given.  The numerical engines (NLopt, ElasticNet, k-means,
   PCA, wavelets, statsmodels/LAPACK, numba) are ONE uninterpreted function [fitf]; that they are deterministic under
   the runtime (BLAS summation order, thread scheduling, JIT caches) is NOT provable here: it is what the sampled
   behavioural tie of harness/c03.py (histories x schedules x thread counts x processes, SHA-256 of to_json() and of a
   fixed prediction) decides.
   Names: `_refuted` marks a counterexample to the statement at full strength (or to a weakening of it); every theorem after
   the refutations is a partial result, `_partial` is written only on the two that restate C03_statement under hypotheses. *)
From Coq Require Import ZArith List Bool String Permutation.
From V Require Import Model.Repro Model.ReproFlow Proofs.ReproProofs Proofs.ReproFlowProofs Generated.ReproGen.
Import ListNotations.
Open Scope Z_scope.

(* ------------------------------------------------------------------------------------------------------------
   The statement at full strength: any fit, from any two process states, after any two histories. *)
Definition C03_statement : Prop := forall o s1 s2 h1 h2, is_fit o = true ->
  out (run s1 (h1 ++ [o])) = out (run s2 (h2 ++ [o])).

(* As coded it fails in two ways, both replayed on the implementation by harness/c03.py.
   (1) The hourly model WITHOUT a seed (the default: settings.seed = None) takes its seed from numpy's global generator;
       the property text excludes this case ("the same seed for the hourly model"), the witness shows the hypothesis
       [seeded] below is needed. *)
Definition ex_cfg : hcfg := {| h_id := 0; h_recluster := 3; h_silhouette := false |}.
Theorem C03_unseeded_hourly_depends_on_rng_refuted :
  exists h1 h2 o, is_fit o = true /\
    out (run (init 1 1) (h1 ++ [o])) <> out (run (init 1 1) (h2 ++ [o])).
Proof.
  exists [RngSeed 1], [RngSeed 2], (FitHourly 1 ex_cfg None). split; [reflexivity|].
  vm_compute. discriminate.
Qed.
Print Assumptions C03_unseeded_hourly_depends_on_rng_refuted.

(* (2) The CalTRACK hourly model consults the size of the BLAS thread pool of the process (known finding C03-K1): *)
Theorem C03_caltrack_depends_on_thread_count_refuted :
  exists t1 t2 o, seeded o = true /\ out (run (init 1 t1) [o]) <> out (run (init 2 t2) [o]).
Proof. exists 1, 8, (FitCalTrack 1). split; [reflexivity|]. vm_compute. discriminate. Qed.
Print Assumptions C03_caltrack_depends_on_thread_count_refuted.

Theorem C03_statement_refuted : ~ C03_statement.
Proof.
  intros H. specialize (H (FitCalTrack 1) (init 1 1) (init 2 8) [] [] eq_refl). vm_compute in H. discriminate.
Qed.
Print Assumptions C03_statement_refuted.

(* ------------------------------------------------------------------------------------------------------------
   Partial: seeded fits. *)

(* daily, billing, seeded hourly: the same result after ANY two histories, from ANY two process states
   (different processes, different generator states, different pool sizes, warm or cold) *)
Theorem C03_fit_history_independent_partial : forall o s1 s2 h1 h2, seeded o = true -> thread_sensitive o = false ->
  out (run s1 (h1 ++ [o])) = out (run s2 (h2 ++ [o])).
Proof. exact history_independent. Qed.
Print Assumptions C03_fit_history_independent_partial.

(* CalTRACK hourly as well, between processes with the same pool size *)
Theorem C03_fit_history_independent_same_pool_partial : forall o s1 s2 h1 h2, seeded o = true ->
  ct_env s1 = ct_env s2 -> out (run s1 (h1 ++ [o])) = out (run s2 (h2 ++ [o])).
Proof. intros o s1 s2 h1 h2 Hs Ht. rewrite !out_seeded_fit by exact Hs. rewrite Ht. reflexivity. Qed.
Print Assumptions C03_fit_history_independent_same_pool_partial.

(* ... read through ANY fit function, i.e. whatever the numerical engines compute from what they are handed *)
Theorem C03_fit_history_independent_any_engine : forall (M : Type) fitf predf (none : M) o s1 s2 h1 h2,
  seeded o = true -> thread_sensitive o = false ->
  interp M fitf predf none (out (run s1 (h1 ++ [o]))) = interp M fitf predf none (out (run s2 (h2 ++ [o]))).
Proof. intros. f_equal. apply history_independent; assumption. Qed.
Print Assumptions C03_fit_history_independent_any_engine.

(* the order in which a batch of meters is fitted permutes the results and changes none *)
Theorem C03_batch_order_irrelevant : forall h1 h2 s1 s2, Permutation h1 h2 -> forallb seeded h1 = true ->
  ct_env s1 = ct_env s2 -> Permutation (snd (run s1 h1)) (snd (run s2 h2)).
Proof.
  intros h1 h2 s1 s2 P H Ht.
  assert (H2 : forallb seeded h2 = true).
  { rewrite forallb_forall in *. intros x Hx. apply H. eapply Permutation_in; [apply Permutation_sym; exact P|exact Hx]. }
  rewrite (batch_pure h1 s1 H), (batch_pure h2 s2 H2), Ht. apply Permutation_map. exact P.
Qed.
Print Assumptions C03_batch_order_irrelevant.

(* the prediction of a freshly fitted model, after any history of a process (from any state: predict_after_history) *)
Theorem C03_prediction_history_independent : forall o p t h, seeded o = true ->
  out (run (init p t) (h ++ [o; Predict (List.length h)])) = RPredict (pure_out (ct_env (init p t)) o).
Proof. intros o p t h. exact (predict_after_history o (init p t) h). Qed.
Print Assumptions C03_prediction_history_independent.

(* the seed reaches every consumer: the consumers of the fit are hourly_consumers c (SdLit z), whose random_state values are
   seed (ElasticNet, first in the list) and seed + i for the i-th k-means; nobody gets None *)
Theorem C03_seed_reaches_every_consumer : forall s d c z,
  exists cs, snd (step s (FitHourly d c (Some z))) = RFit Hourly d (h_id c) 0 cs /\
    List.length cs = S (h_recluster c) /\
    (forall x, In x cs -> exists i, 0 <= i < Z.max 1 (Z.of_nat (h_recluster c)) /\ consumer_rs x = Some (SdLit z, i)) /\
    map consumer_rs cs = Some (SdLit z, 0) :: map (fun k => Some (SdLit z, Z.of_nat k)) (seq 0 (h_recluster c)).
Proof.
  intros s d c z. exists (hourly_consumers c (SdLit z)). split; [reflexivity|].
  split; [apply hourly_consumers_length|]. split; [apply hourly_consumers_in|apply hourly_consumers_rs].
Qed.
Print Assumptions C03_seed_reaches_every_consumer.

(* an unseeded hourly fit is exactly the seeded fit with the value the generator yields in the current state
   (the correspondence of harness/c03.py checks this on the code with the table of draws it records: coq_draw_table) *)
Theorem C03_unseeded_is_seeded_with_the_draw : forall tbl s s' d c z, lookup_draw tbl (g_rng s) = Some z ->
  norm_res tbl (snd (step s (FitHourly d c None))) = norm_res tbl (snd (step s' (FitHourly d c (Some z)))).
Proof.
  intros tbl s s' d c z H. cbn [step with_result snd norm_res]. rewrite !norm_hourly_consumers.
  cbn [norm_sd]. rewrite H. reflexivity.
Qed.
Print Assumptions C03_unseeded_is_seeded_with_the_draw.

(* settings objects are state created at construction time.  A fit reads its own object ... *)
Theorem C03_fit_depends_only_on_its_own_settings_object : forall s1 s2 k d,
  nth_error (g_objs s1) k = nth_error (g_objs s2) k -> snd (step s1 (FitObj k d)) = snd (step s2 (FitObj k d)).
Proof. intros s1 s2 k d H. rewrite !step_fitobj, H. reflexivity. Qed.
Print Assumptions C03_fit_depends_only_on_its_own_settings_object.

(* ... and nothing done with OTHER models (construct, fit, to_json, from_json; seeded or not) writes to it *)
Theorem C03_other_models_leave_a_settings_object_alone : forall h s k ob,
  forallb (fun o => negb (touches o k)) h = true -> nth_error (g_objs s) k = Some ob ->
  nth_error (g_objs (fst (run s h))) k = Some ob.
Proof.
  intros h s k ob.
  apply (run_invariant_if (fun o => negb (touches o k)) (fun s => nth_error (g_objs s) k = Some ob)).
  intros s' o Ho. apply step_untouched_object. apply negb_true_iff. exact Ho.
Qed.
Print Assumptions C03_other_models_leave_a_settings_object_alone.

(* construct / anything with other models / fit gives what construct-and-fit-at-once gives.  For a seeded model the
   restriction to other models is not needed (the hypothesis is not used): this is C03_refit_equals_fresh_fit below, which
   rests on the object keeping its settings under EVERY operation (step_keeps_seeded_obj), not on the two theorems above *)
Theorem C03_construct_interleave_fit : forall s h c z d,
  forallb (fun o => negb (touches o (List.length (g_objs s)))) h = true ->
  out (run s (NewHourly c (Some z) :: h ++ [FitObj (List.length (g_objs s)) d])) =
  out (run s [FitHourly d c (Some z)]).
Proof. intros s h c z d _. rewrite refit_equals_fresh. reflexivity. Qed.
Print Assumptions C03_construct_interleave_fit.

(* RE-USING ONE MODEL OBJECT: the object's own prior state (what it was fitted on before, solver state, caches) is part
   of the state a fit may not read.  Construct a seeded hourly model, then ANYTHING -- fits of this very object on the
   same or on other data, to_json, from_json included -- then fit: the result of a fresh object fitted at once *)
Theorem C03_refit_equals_fresh_fit : forall s h c z d,
  out (run s (NewHourly c (Some z) :: h ++ [FitObj (List.length (g_objs s)) d])) = out (run s [FitHourly d c (Some z)]).
Proof. intros. rewrite refit_equals_fresh. reflexivity. Qed.
Print Assumptions C03_refit_equals_fresh_fit.

(* the same for DailyModel / BillingModel objects: fit(A) ... fit(B) on one object ends as a fresh fit(B) *)
Theorem C03_refit_daily_billing_equals_fresh_fit : forall s h cfg d,
  out (run s (NewDB Daily cfg :: h ++ [FitDB (List.length (g_dbs s)) d])) = out (run s [FitDaily d cfg]) /\
  out (run s (NewDB Billing cfg :: h ++ [FitDB (List.length (g_dbs s)) d])) = out (run s [FitBilling d cfg]).
Proof. intros. rewrite !refit_db_equals_fresh. split; reflexivity. Qed.
Print Assumptions C03_refit_daily_billing_equals_fresh_fit.

(* the JIT cache (g_jit) carries what populated it; a seeded fit does not depend on it: same result from a cold cache,
   from a cache populated by default fits, and from a cache populated by any developer profile, in this or an earlier
   process.  In the model no operation reads g_jit, so this is C03_fit_history_independent_partial at start states
   init_cache ..; the model may leave g_jit unread because of C03_fitting_writes_no_process_global_state below (numba
   freezes module-level values into the cached code; nobody on a fit path assigns one). *)
Theorem C03_fit_independent_of_jit_cache : forall o p1 p2 t1 t2 c1 c2 h1 h2, seeded o = true -> thread_sensitive o = false ->
  out (run (init_cache p1 t1 c1) (h1 ++ [o])) = out (run (init_cache p2 t2 c2) (h2 ++ [o])).
Proof. intros. apply history_independent; assumption. Qed.
Print Assumptions C03_fit_independent_of_jit_cache.

(* the hash salt of the interpreter is process state a fit may not read: same result under any two salts, every family.
   In the model no operation reads g_salt, so this is C03_fit_history_independent_same_pool_partial at start states
   init_full ..; the model may leave g_salt unread because of C03_no_hash_order_reaches_an_ordered_structure below *)
Theorem C03_fit_independent_of_hash_salt : forall o p1 p2 t c1 c2 k1 k2 h1 h2, seeded o = true ->
  out (run (init_full p1 t c1 k1) (h1 ++ [o])) = out (run (init_full p2 t c2 k2) (h2 ++ [o])).
Proof. intros. apply C03_fit_history_independent_same_pool_partial; [assumption|reflexivity]. Qed.
Print Assumptions C03_fit_independent_of_hash_salt.

(* global state: the operations of rng_clean (seeded fits, predictions, unrelated work that draws nothing) do not move numpy's
   global generator *)
Theorem C03_seeded_fit_keeps_global_rng : forall s o, rng_clean o = true -> g_rng (fst (step s o)) = g_rng s.
Proof.
  intros s o H. destruct o as [ | |d c [z|]| | | | |[|]| | | | | | ]; try discriminate H; reflexivity.
Qed.
Print Assumptions C03_seeded_fit_keeps_global_rng.

(* nothing ever writes the shared default list warnings=[] *)
Theorem C03_shared_default_never_written : forall h s, g_ct_default (fst (run s h)) = g_ct_default s.
Proof. exact (run_preserves _ g_ct_default step_ct_default). Qed.
Print Assumptions C03_shared_default_never_written.

(* ------------------------------------------------------------------------------------------------------------
   The same plumbing, as the SOURCE says it today (tables regenerated by harness/translate_repro.py on every run). *)
Open Scope string_scope.

(* every consumer of randomness constructed in the scanned files passes site_ok: it is reached by the seed, or gets a
   literal, or is dead code, or is the exempted PCA call.  The flows today:
   ElasticNet <- settings.elasticnet._seed <- settings._seed <- settings.seed;
   BisectingKMeans <- seed + i <- _cluster_time_series(seed) <- _cluster_temporal_features(seed) <-
   settings.temporal_cluster._seed <- settings._seed; check_random_state <- self.random_state of that estimator;
   silhouette_score <- the literal 0 *)
Theorem C03_seed_reaches_every_consumer_in_source :
  forallb (site_ok attr_assigns bindings) consumer_sites = true.
Proof. vm_compute. reflexivity. Qed.
Print Assumptions C03_seed_reaches_every_consumer_in_source.

(* what the check rejects: silhouette_score(.., sample_size=10_000) called without random_state, as scoring.py score_clusters
   did before /repo 6be031d0 -- a SEEDED hourly fit with score_metric="silhouette" then draws from numpy's global generator *)
Definition silhouette_before_6be031d0 : site :=
  {| s_file := "opendsm/common/clustering/scoring.py"; s_func := "score_clusters"; s_callee := "silhouette_score";
     s_kwargs := ["metric"; "sample_size"]; s_dead := false; s_src := SAbsent |}.
Theorem C03_unseeded_silhouette_site_is_rejected :
  site_ok attr_assigns bindings silhouette_before_6be031d0 = false /\ silhouette_site silhouette_before_6be031d0 = true.
Proof. vm_compute. split; reflexivity. Qed.
Print Assumptions C03_unseeded_silhouette_site_is_rejected.

(* the live, non-exempt construction sites of the source, the silhouette site set aside, are exactly these callees *)
Theorem C03_model_consumers_are_the_source_consumers :
  live_consumers (filter (fun s => negb (silhouette_site s)) consumer_sites) =
  ["ElasticNet"; "BisectingKMeans"; "check_random_state"].
Proof. vm_compute. reflexivity. Qed.
Print Assumptions C03_model_consumers_are_the_source_consumers.

(* the global generators (np.random.*, python's random) are used in one way only: to choose _seed when settings.seed is None *)
Theorem C03_global_rng_only_picks_the_seed :
  forallb rng_use_ok rng_uses = true /\ (0 < List.length rng_uses)%nat.
Proof. vm_compute. split; [reflexivity|repeat constructor]. Qed.
Print Assumptions C03_global_rng_only_picks_the_seed.

(* ... so the hourly model with default settings is NOT reproducible (documented: the default seed is None) *)
Theorem C03_default_hourly_settings_are_unseeded : hourly_seed_default_is_none = true.
Proof. vm_compute. reflexivity. Qed.
Print Assumptions C03_default_hourly_settings_are_unseeded.

(* no mutable default argument of the scanned files can carry state from one call to the next: each is a pydantic
   field default (copied per instance), or only read, or passed explicitly at every call site *)
Theorem C03_no_shared_mutable_default :
  forallb mdefault_ok mutable_defaults = true.
Proof. vm_compute. reflexivity. Qed.
Print Assumptions C03_no_shared_mutable_default.

(* no iteration order of a set reaches an ordered structure (feature lists, column orders, documents), except two
   allow-listed sites that are order-free for a reason written next to the allow-list (Model/ReproFlow.v osite_ok) *)
Theorem C03_no_hash_order_reaches_an_ordered_structure :
  forallb osite_ok order_sites = true.
Proof. vm_compute. reflexivity. Qed.
Print Assumptions C03_no_hash_order_reaches_an_ordered_structure.

(* what the check rejects: the columns of a dot product ordered by list(set(parameters.keys()).intersection(..)), as
   CalTRACKSegmentModel.predict did before /repo 15304f59 (known finding C03-K2): the same CalTRACK hourly fit in fresh
   processes with PYTHONHASHSEED 0 / 1 / 2 gave three different documents *)
Definition caltrack_predict_before_15304f59 : osite :=
  {| o_file := "opendsm/eemeter/models/hourly_caltrack/segmentation.py"; o_func := "CalTRACKSegmentModel.predict"; o_kind := "call";
     o_text := "list(set(parameters.keys()).intersection(set(design_matrix_granular.ke" |}.
Theorem C03_set_order_in_caltrack_predict_is_rejected :
  osite_ok caltrack_predict_before_15304f59 = false.
Proof. vm_compute. reflexivity. Qed.
Print Assumptions C03_set_order_in_caltrack_predict_is_rejected.

(* what the rule rejects: leftover feature columns appended in set order *)
Example C03_set_order_into_feature_list_is_rejected :
  osite_ok {| o_file := "opendsm/eemeter/models/hourly/model.py"; o_func := "HourlyModel._sort_features"; o_kind := "extend";
              o_text := "sorted_cols.extend(set(feat).difference(sorted_cols))" |} = false.
Proof. vm_compute. reflexivity. Qed.

(* fitting writes no process-global state: in the scanned files there is no `global` statement, no assignment or mutation
   through an imported name (another module's attribute, a class attribute, another module's container), no mutation of
   a module-level object from inside a function, no process-wide configuration call -- except five import-time
   statements that write the same constants in every process (allow-list in Model/ReproFlow.v gwrite_ok) *)
Theorem C03_fitting_writes_no_process_global_state :
  forallb gwrite_ok global_writes = true.
Proof. vm_compute. reflexivity. Qed.
Print Assumptions C03_fitting_writes_no_process_global_state.

(* what the rule rejects: a setting wired through a module global inside _fit (numba bakes it into the on-disk cache) *)
Example C03_global_write_in_fit_is_rejected :
  gwrite_ok {| w_file := "opendsm/eemeter/models/daily/model.py"; w_scope := "DailyModel._fit"; w_kind := GImported;
               w_target := "adaptive_loss.LOSS_ALPHA_MIN" |} = false.
Proof. vm_compute. reflexivity. Qed.

(* the seed is written onto the settings object's OWN nested objects: every nested settings default is built per
   instance (default_factory or copied), never one shared instance (NdShared is what the translator records when two
   constructed settings objects hold the same nested object).  Non-vacuity: there are nested defaults, and at least two
   `_seed` assignments go to a nested owner *)
Theorem C03_nested_settings_are_per_instance :
  (0 < List.length nested_defaults)%nat /\ (2 <= List.length (filter (fun a => negb (String.eqb (a_owner a) "")) attr_assigns))%nat /\
  forallb (seed_write_ok nested_defaults) attr_assigns = true.
Proof. vm_compute. split; [repeat constructor|split; [repeat constructor|reflexivity]]. Qed.
Print Assumptions C03_nested_settings_are_per_instance.

(* the start vector every optimiser is given (and mutates in place, optimize.py obj_fcn_dec) is made for that call *)
Theorem C03_optimiser_start_vectors_are_fresh :
  forallb x0_ok x0_sites = true /\ (0 < List.length x0_sites)%nat.
Proof. vm_compute. split; [reflexivity|repeat constructor]. Qed.
Print Assumptions C03_optimiser_start_vectors_are_fresh.

(* the default optimisers of the daily/billing model are deterministic NLopt algorithms *)
Theorem C03_default_optimisers_deterministic :
  forallb (fun p => algorithm_ok (snd p)) default_algorithms = true /\ (0 < List.length default_algorithms)%nat.
Proof. vm_compute. split; [reflexivity|repeat constructor]. Qed.
Print Assumptions C03_default_optimisers_deterministic.

(* ------------------------------------------------------------------------------------------------------------
   What the seed-flow check MEANS, for all tables (Proofs/ReproFlowProofs.v).  [flows assigns bindings given s l]: some
   data-flow path from the expression s -- through any chain of `_seed` attribute assignments and parameter bindings, of any
   length -- ends at a source of kind l (LField: the settings field `seed`; LDraw: the np.random draw; LConst: a literal;
   LBad: None / not passed / unreadable / never assigned / never called). *)

(* the fuel-bounded search is COMPLETE: if it reports no bad leaf, every path of the semantics ends at a leaf it lists *)
Theorem C03_seed_flow_search_is_complete : forall assigns bindings given fuel s,
  ~ In LBad (resolve assigns bindings fuel given s) ->
  forall l, flows assigns bindings given s l -> In l (resolve assigns bindings fuel given s).
Proof. exact resolve_complete. Qed.
Print Assumptions C03_seed_flow_search_is_complete.

(* ... and SOUND: every good leaf it lists is the end of a real path *)
Theorem C03_seed_flow_search_is_sound : forall assigns bindings given fuel s l,
  In l (resolve assigns bindings fuel given s) -> l <> LBad -> flows assigns bindings given s l.
Proof. exact resolve_sound. Qed.
Print Assumptions C03_seed_flow_search_is_sound.

(* so a site that passes the check receives, along EVERY path, the settings seed when one is given and the one documented
   draw when none is *)
Theorem C03_site_seeded_means_every_path : forall assigns bindings s, site_seeded assigns bindings s = true ->
  (forall l, flows assigns bindings true (s_src s) l -> l = LField) /\
  (forall l, flows assigns bindings false (s_src s) l -> l = LDraw).
Proof. exact site_seeded_means. Qed.
Print Assumptions C03_site_seeded_means_every_path.

(* in the source as it is today: every live consumer of randomness that is not handed a literal is reached, along every
   data-flow path of the regenerated tables, by the settings seed and by nothing else *)
Theorem C03_every_path_into_a_consumer_starts_at_the_seed : forall s, In s consumer_sites ->
  s_dead s = false -> exempt s = false -> site_constant attr_assigns bindings s = false ->
  (forall l, flows attr_assigns bindings true (s_src s) l -> l = LField) /\
  (forall l, flows attr_assigns bindings false (s_src s) l -> l = LDraw).
Proof.
  intros s Hin Hd He Hc. apply site_seeded_means. apply site_ok_seeded; try assumption.
  pose proof C03_seed_reaches_every_consumer_in_source as H. rewrite forallb_forall in H. apply H. exact Hin.
Qed.
Print Assumptions C03_every_path_into_a_consumer_starts_at_the_seed.

(* non-vacuity: such sites exist (ElasticNet, BisectingKMeans, check_random_state), and a real path: the k-means
   random_state  seed + i  <- _cluster_time_series(seed) <- _cluster_temporal_features(seed) <- temporal_cluster._seed
   <- settings._seed <- settings.seed *)
Example C03_nonvacuous_flow :
  (3 <= List.length (filter (fun s => negb (s_dead s) && negb (exempt s) && negb (site_constant attr_assigns bindings s))
                            consumer_sites))%nat /\
  flows attr_assigns bindings true (SPlusIdx (SParam "_cluster_time_series" "seed")) LField /\
  flows attr_assigns bindings false (SPlusIdx (SParam "_cluster_time_series" "seed")) LDraw /\
  flows attr_assigns bindings true SNone LBad.
Proof.
  split; [vm_compute; repeat constructor|].
  split; [apply (resolve_sound _ _ _ 12); [vm_compute; left; reflexivity|discriminate]|].
  split; [apply (resolve_sound _ _ _ 12); [vm_compute; left; reflexivity|discriminate]|constructor].
Qed.
Open Scope Z_scope.

(* ------------------------------------------------------------------------------------------------------------
   Non-vacuity. *)

(* the same seeded hourly fit: alone in a fresh single-threaded process, and in another process with 8 threads after a
   perturbed generator, other families, an unseeded hourly fit and a prediction *)
Example C03_nonvacuous_history :
  let o := FitHourly 7 ex_cfg (Some 42) in
  seeded o = true /\ thread_sensitive o = false /\
  out (run (init 1 1) [o]) =
  out (run (init 2 8) ([RngSeed 5; RngRandom 10; FitDaily 1 0; FitHourly 2 ex_cfg None; Predict 2; FitCalTrack 3; Unrelated true] ++ [o])) /\
  out (run (init 1 1) [o]) =
    RFit Hourly 7 0 0 [CElasticNet (Some (SdLit 42, 0)); CKMeans (Some (SdLit 42, 0)); CKMeans (Some (SdLit 42, 1));
                       CKMeans (Some (SdLit 42, 2))].
Proof.
  intros o. split; [reflexivity|]. split; [reflexivity|]. split; [|vm_compute; reflexivity].
  apply (C03_fit_history_independent_partial o _ _ [] _); reflexivity.
Qed.

(* the draw table is consulted: with the generator seeded with 5, whose first randint is (say) 99, the unseeded fit
   normalises to the fit seeded with 99 *)
Example C03_nonvacuous_draw :
  let tbl := [({| r_origin := 0; r_evs := [EvSeed 5] |}, 99)] in
  norm_res tbl (out (run (init 1 1) [RngSeed 5; FitHourly 1 ex_cfg None])) =
  norm_res tbl (out (run (init 2 1) [FitHourly 1 ex_cfg (Some 99)])).
Proof. vm_compute. reflexivity. Qed.

(* two models prepared first (seeds 1 and 3), a default model built and a fitted one reloaded in between, fitted afterwards *)
Example C03_nonvacuous_interleaving :
  let h := [NewHourly ex_cfg (Some 3); NewHourly ex_cfg None; FitObj 1 5; ToJson 1; FromJson 1; FitObj 2 5] in
  forallb (fun o => negb (touches o 0)) h = true /\
  out (run (init 1 1) (NewHourly ex_cfg (Some 1) :: h ++ [FitObj 0 5])) = out (run (init 2 1) [FitHourly 5 ex_cfg (Some 1)]) /\
  out (run (init 1 1) (NewHourly ex_cfg (Some 1) :: h ++ [FitObj 0 5])) <>
  out (run (init 1 1) (NewHourly ex_cfg (Some 1) :: [NewHourly ex_cfg (Some 3); FitObj 1 5])).
Proof. vm_compute. repeat split; try reflexivity. discriminate. Qed.

(* a cold cache is populated by the FIRST daily fit (here a developer profile, cfg 7); the default fit that follows, and the
   default fit of a later process that starts on that cache, return what a fit on a default-populated cache returns *)
Example C03_nonvacuous_jit_cache :
  g_jit (fst (run (init_cache 1 1 []) [FitDaily 1 7; FitDaily 2 0])) = [(Daily, 7)] /\
  out (run (init_cache 1 1 []) [FitDaily 1 7; FitDaily 2 0]) = out (run (init_cache 2 1 [(Daily, 7)]) [FitDaily 2 0]) /\
  out (run (init_cache 2 1 [(Daily, 7)]) [FitDaily 2 0]) = out (run (init_cache 3 1 [(Daily, 0)]) [FitDaily 2 0]).
Proof.
  split; [reflexivity|].
  split.
  - apply (C03_fit_independent_of_jit_cache (FitDaily 2 0) 1 2 1 1 [] [(Daily, 7)] [FitDaily 1 7] []); reflexivity.
  - apply (C03_fit_independent_of_jit_cache (FitDaily 2 0) 2 3 1 1 [(Daily, 7)] [(Daily, 0)] [] []); reflexivity.
Qed.

(* one hourly object fitted on data 5, serialised, fitted on data 6, then on 5 again; one daily object fitted on 1 then 2 *)
Example C03_nonvacuous_refit :
  out (run (init 1 1) (NewHourly ex_cfg (Some 9) :: [FitObj 0 5; ToJson 0; FitObj 0 6] ++ [FitObj 0 5])) =
    out (run (init 2 8) [FitHourly 5 ex_cfg (Some 9)]) /\
  out (run (init 1 1) (NewDB Daily 0 :: [FitDB 0 1] ++ [FitDB 0 2])) = out (run (init 2 1) [FitDaily 2 0]) /\
  db_last (nth 0 (g_dbs (fst (run (init 1 1) [NewDB Daily 0; FitDB 0 1]))) {| db_fam := Daily; db_cfg := 0; db_last := None |}) = Some 1.
Proof. vm_compute. repeat split; reflexivity. Qed.

Example C03_nonvacuous_batch :
  forallb seeded [FitDaily 1 0; FitBilling 2 0; FitHourly 3 ex_cfg (Some 1)] = true /\
  Permutation [FitDaily 1 0; FitBilling 2 0; FitHourly 3 ex_cfg (Some 1)] [FitHourly 3 ex_cfg (Some 1); FitDaily 1 0; FitBilling 2 0].
Proof. split; [reflexivity|]. apply Permutation_sym. apply (Permutation_cons_app [_; _] []). reflexivity. Qed.

Example C03_nonvacuous_source :
  (2 <= List.length consumer_sites)%nat /\ (3 <= List.length bindings)%nat /\ (4 <= List.length attr_assigns)%nat /\
  (1 <= List.length mutable_defaults)%nat.
Proof. vm_compute. repeat split; repeat constructor. Qed.
