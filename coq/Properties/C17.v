(* C17 — hourly data preparation keeps what was measured and flags what was filled.
   The model is Model/HourlyPrep.v; Proofs/HourlyPrepProofs.v has the lemmas, among them the one every theorem about the frame
   starts from: [prep_col_spec].

   Every theorem is universally quantified over the payload type [A], the zero test, the interpolation function
   [lin] and — the point of the property — over the autocorrelation imputer [est]: an ARBITRARY function.
   [prep_col ... rows c] is the prepared column c of the frame: a list of (stamp, value, interpolated_<c>).
   [supplied ... rows t c] is what the caller supplied at stamp t: the cell of the FIRST row carrying t, a zero
   electricity reading being missing. *)
From Coq Require Import ZArith List Bool Lia.
From V Require Import Model.HourlyPrep Proofs.HourlyPrepProofs.
From V Require Import Model.HourlyPrepTable Proofs.HourlyPrepTableProofs Generated.HourlyPrepGen Proofs.HourlyPrepGenProofs.
Import ListNotations.
Open Scope Z_scope.

Section Statements.
  Variable A : Type.
  Variable is_zero : A -> bool.
  Variable lin : A -> A -> Z -> Z -> A.
  Variable est : colname -> col A -> col A.

  Definition C17_for (elec : bool) (bnds : list Z) (e : edges) (rows : list (row A)) (c : colname) : Prop :=
    let out := prep_col is_zero lin est elec bnds e rows c in
    let sup := fun t => supplied is_zero elec rows t c in
    (* a gap-free hourly frame covering whole local days from the first to the last supplied day *)
    whole_days_for A bnds rows out /\
    (* every supplied value appears unchanged at its timestamp, and is not flagged *)
    (forall r a, In r rows -> sup (ts r) = Some a -> In (ts r, Some a, false) out) /\
    (* a value is flagged exactly when it had to be filled *)
    (forall t v f, In (t, v, f) out -> (f = true <-> sup t = None /\ v <> None)) /\
    (* nothing remains missing unless the whole column was empty *)
    ((exists r a, In r rows /\ sup (ts r) = Some a) -> forall t v f, In (t, v, f) out -> v <> None).
End Statements.

(* the full statement: any calendar (any time zone), any situation of the first / last stamp *)
Definition C17_statement : Prop :=
  forall A is_zero lin est elec bnds e (rows : list (row A)) c,
    rows <> [] -> ascending bnds -> (forall r, In r rows -> covers bnds (ts r)) ->
    C17_for A is_zero lin est elec bnds e rows c.

(* what holds for every input and every estimator *)

(* a row of the frame whose stamp carries a supplied value has exactly that value and is not flagged *)
Theorem C17_no_supplied_flagged : forall A is_zero lin est elec bnds e (rows : list (row A)) c t v f a,
  In (t, v, f) (prep_col is_zero lin est elec bnds e rows c) ->
  supplied is_zero elec rows t c = Some a -> v = Some a /\ f = false.
Proof.
  intros A is_zero lin est elec bnds e rows c t v f a H S.
  destruct (prep_col_row H) as [-> K]. split; [exact (K a S) | rewrite S; reflexivity].
Qed.
Print Assumptions C17_no_supplied_flagged.

Theorem C17_flags_exact : forall A is_zero lin est elec bnds e (rows : list (row A)) c t v f,
  In (t, v, f) (prep_col is_zero lin est elec bnds e rows c) ->
  (f = true <-> supplied is_zero elec rows t c = None /\ v <> None).
Proof.
  intros A is_zero lin est elec bnds e rows c t v f H.
  destruct (prep_col_row H) as [-> _].
  rewrite andb_true_iff, missing_true, present_true. reflexivity.
Qed.
Print Assumptions C17_flags_exact.

(* as soon as one supplied value made it into the frame, no cell of the column is missing *)
Theorem C17_complete_unless_empty : forall A is_zero lin est elec bnds e (rows : list (row A)) c,
  (exists t a v f, In (t, v, f) (prep_col is_zero lin est elec bnds e rows c) /\ supplied is_zero elec rows t c = Some a) ->
  forall t v f, In (t, v, f) (prep_col is_zero lin est elec bnds e rows c) -> v <> None.
Proof.
  intros A is_zero lin est elec bnds e rows c [t0 [a [v0 [f0 [I0 S]]]]] t v f H.
  destruct (prep_col_spec is_zero lin est elec bnds e rows c) as (lo & hi & _ & F).
  refine (frame_of_complete F _ t v f H).
  exists t0, a. split; [exact (proj1 (frame_of_row F I0)) | exact S].
Qed.
Print Assumptions C17_complete_unless_empty.

(* one row per absolute hour: the stamps are lo, lo+60, ..., without repetition *)
Theorem C17_gap_free : forall A is_zero lin est elec bnds e (rows : list (row A)) c,
  exists lo hi, frame_range bnds e rows = (lo, hi) /\
    stamps A (prep_col is_zero lin est elec bnds e rows c) = grid lo hi /\
    NoDup (grid lo hi) /\
    forall i a b, nth_error (grid lo hi) i = Some a -> nth_error (grid lo hi) (S i) = Some b -> b = a + STEP.
Proof.
  intros A is_zero lin est elec bnds e rows c.
  destruct (prep_col_spec is_zero lin est elec bnds e rows c) as (lo & hi & R & F).
  exists lo, hi. split; [exact R|]. split; [exact (frame_of_stamps F)|]. split; [apply grid_NoDup | apply grid_step].
Qed.
Print Assumptions C17_gap_free.

(* later rows with a stamp already seen are ignored: the first one wins *)
Theorem C17_first_duplicate_wins : forall A is_zero lin est elec bnds e (l1 : list (row A)) r l2 r' l3 c,
  ts r' = ts r ->
  prep_col is_zero lin est elec bnds e (l1 ++ r :: l2 ++ r' :: l3) c =
  prep_col is_zero lin est elec bnds e (l1 ++ r :: l2 ++ l3) c.
Proof.
  intros A is_zero lin est elec bnds e l1 r l2 r' l3 c E.
  apply prep_col_lookup_ext. intros t. apply lookup_later_duplicate. exact E.
Qed.
Print Assumptions C17_first_duplicate_wins.

(* a zero reading is missing for electricity and a value for gas *)
Theorem C17_zero_electric_is_missing : forall A (is_zero : A -> bool) (rows : list (row A)) t r z,
  lookup t rows = Some r -> r_obs r = Some z -> is_zero z = true ->
  supplied is_zero true rows t Obs = None /\ supplied is_zero false rows t Obs = Some z.
Proof.
  intros A is_zero rows t r z L O Z. unfold supplied. rewrite L. cbn [get zero_to_nan r_obs zero_cell].
  rewrite O. cbn [zero_cell]. rewrite Z. cbn. auto.
Qed.
Print Assumptions C17_zero_electric_is_missing.

Theorem C17_nonzero_usage_is_supplied : forall A (is_zero : A -> bool) elec (rows : list (row A)) t r z,
  lookup t rows = Some r -> r_obs r = Some z -> is_zero z = false -> supplied is_zero elec rows t Obs = Some z.
Proof.
  intros A is_zero elec rows t r z L O Z. unfold supplied. rewrite L. cbn [get zero_to_nan r_obs]. rewrite O. cbn [zero_cell].
  rewrite Z, andb_false_r. reflexivity.
Qed.
Print Assumptions C17_nonzero_usage_is_supplied.

(* so a zero electricity reading that the frame covers is reported as interpolated exactly when it got a value *)
Theorem C17_zero_electric_is_flagged : forall A is_zero lin est bnds e (rows : list (row A)) t r z v f,
  lookup t rows = Some r -> r_obs r = Some z -> is_zero z = true ->
  In (t, v, f) (prep_col is_zero lin est true bnds e rows Obs) -> (f = true <-> v <> None).
Proof.
  intros A is_zero lin est bnds e rows t r z v f L O Z I.
  destruct (C17_zero_electric_is_missing A is_zero rows t r z L O Z) as [S _].
  rewrite (C17_flags_exact A is_zero lin est true bnds e rows Obs t v f I), S. tauto.
Qed.
Print Assumptions C17_zero_electric_is_flagged.

(* _create_sufficiency_df (blank what is flagged) gives back exactly what was supplied, stamp by stamp *)
Theorem C17_sufficiency_sees_supplied : forall A is_zero lin est elec bnds e (rows : list (row A)) c,
  exists lo hi, frame_range bnds e rows = (lo, hi) /\
    sufficiency_col (prep_col is_zero lin est elec bnds e rows c) =
    map (fun t => (t, supplied is_zero elec rows t c)) (grid lo hi).
Proof.
  intros A is_zero lin est elec bnds e rows c.
  destruct (prep_col_spec is_zero lin est elec bnds e rows c) as (lo & hi & R & F).
  exists lo, hi. split; [exact R | exact (frame_of_sufficiency F)].
Qed.
Print Assumptions C17_sufficiency_sees_supplied.

(* whatever the imputer proposes, the interpolated column has the length of the input and every value of the input *)
Theorem C17_interpolation_keeps : forall A lin est c (x : col A),
  keeps A x (interp_col lin est c x) /\ length (interp_col lin est c x) = length x.
Proof. intros. split; [apply interp_col_keeps | apply interp_col_length]. Qed.
Print Assumptions C17_interpolation_keeps.

(* an empty column stays empty and is not flagged, provided the imputer proposes nothing for it
   (_interpolate_col returns an all-NaN column untouched; the harness checks that on every execution) *)
Theorem C17_empty_column_stays_empty : forall A lin est c (x : col A),
  all_missing A x -> all_missing A (est c x) ->
  interp_col lin est c x = x /\ flags x (interp_col lin est c x) = map (fun _ => false) x.
Proof.
  intros A lin est c x Hx He.
  assert (E : interp_col lin est c x = x).
  { unfold interp_col, autocorr_stage. destruct (_ <? _).
    - rewrite merge_fill_all_missing by assumption. apply fallbacks_all_missing. exact Hx.
    - apply fallbacks_all_missing. exact Hx. }
  rewrite E. split; [reflexivity | apply flags_all_missing; exact Hx].
Qed.
Print Assumptions C17_empty_column_stays_empty.

(* ffill followed by bfill alone complete a column that has a value (in [fallbacks] they follow the time method, which
   leaves them nothing to do: fallbacks_time_only) *)
Theorem C17_last_fallbacks_suffice : forall A (x : col A), has_value A x -> all_present A (bfill (ffill x)).
Proof.
  unfold ffill. intros A x. induction x as [|[w|] x IH]; intros [v Hv]; [destruct Hv | |]; cbn [ffill_from].
  - (* from a value on, ffill leaves nothing missing, and bfill keeps that *)
    eapply keeps_all_present; [apply bfill_keeps|]. constructor; [discriminate | apply ffill_from_present; discriminate].
  - (* a leading gap takes the head of the completed rest, which is not empty: x holds v *)
    destruct Hv as [Hv | Hv]; [discriminate|].
    assert (Q : all_present A (bfill (ffill_from None x))) by (apply IH; exists v; exact Hv).
    cbn [bfill present]. constructor; [|exact Q].
    destruct (bfill (ffill_from None x)) as [|h t] eqn:B; [|inversion Q; assumption].
    destruct x as [|[u|] x]; [destruct Hv | discriminate B | discriminate B].
Qed.
Print Assumptions C17_last_fallbacks_suffice.

(* what the correspondence executes (reindex through a finite map) is the frame the theorems speak about *)
Theorem C17_fast_model_agrees : forall A is_zero lin est elec bnds e (rows : list (row A)) c,
  prep_col_fast is_zero lin est elec bnds e rows c = prep_col is_zero lin est elec bnds e rows c.
Proof.
  intros. unfold prep_col_fast, prep_col. destruct (frame_range bnds e rows). apply prep_col_range_fast_eq.
Qed.
Print Assumptions C17_fast_model_agrees.

(* what needs the calendar to be regular *)
(* [well_formed bnds rows]: non-empty input, ascending day starts that are whole hours apart and cover the input, input
   stamps on the hour.  [no_skip]: the first / last stamp is in none of the three situations in which the code departs from
   whole days (head of Model/HourlyPrep.v: the two `fold` cases and the last clock hour cut short). *)

Theorem C17_whole_days : forall A is_zero lin est elec bnds (rows : list (row A)) c, well_formed A bnds rows ->
  whole_days_for A bnds rows (prep_col is_zero lin est elec bnds no_skip rows c).
Proof.
  intros A is_zero lin est elec bnds rows c [_ [Asc [Al [Cov _]]]]. apply prep_col_whole_days; assumption.
Qed.
Print Assumptions C17_whole_days.

Theorem C17_supplied_preserved : forall A is_zero lin est elec bnds (rows : list (row A)) c r a,
  well_formed A bnds rows -> In r rows -> supplied is_zero elec rows (ts r) c = Some a ->
  In (ts r, Some a, false) (prep_col is_zero lin est elec bnds no_skip rows c).
Proof.
  intros A is_zero lin est elec bnds rows c r a WF R S.
  destruct (prep_col_spec is_zero lin est elec bnds no_skip rows c) as (lo & hi & Rg & F).
  pose proof (supplied_stamp_in_frame WF Rg R) as G.
  (* the stamp has a row in the frame, and that row carries the supplied value *)
  destruct (frame_of_stamp_row F G) as [v I].
  destruct (frame_of_row F I) as (_ & _ & K). cbn beta in *.
  rewrite (K a S), S in I. exact I.
Qed.
Print Assumptions C17_supplied_preserved.

Theorem C17_complete_unless_column_empty : forall A is_zero lin est elec bnds (rows : list (row A)) c,
  well_formed A bnds rows -> (exists r a, In r rows /\ supplied is_zero elec rows (ts r) c = Some a) ->
  forall t v f, In (t, v, f) (prep_col is_zero lin est elec bnds no_skip rows c) -> v <> None.
Proof.
  intros A is_zero lin est elec bnds rows c WF [r [a [R S]]]. apply C17_complete_unless_empty.
  exists (ts r), a, (Some a), false. split; [apply C17_supplied_preserved; assumption | exact S].
Qed.
Print Assumptions C17_complete_unless_column_empty.

(* the statement under the exact guard: whole-hour calendar, stamps on the hour, no `fold` situation *)
Theorem C17_statement_partial : forall A is_zero lin est elec bnds (rows : list (row A)) c,
  well_formed A bnds rows -> C17_for A is_zero lin est elec bnds no_skip rows c.
Proof.
  intros A is_zero lin est elec bnds rows c WF. unfold C17_for. cbn zeta.
  split; [apply C17_whole_days; exact WF|].
  split; [intros r a HR HS; apply C17_supplied_preserved; assumption|].
  split; [apply C17_flags_exact | apply C17_complete_unless_column_empty; exact WF].
Qed.
Print Assumptions C17_statement_partial.

(* where the code as it is breaks the full statement
   (witnesses over the payload Z: Proofs/HourlyPrepProofs.v, "concrete witnesses"; each is replayed on the
   implementation: corpus/C17.json, known findings C17-F1 .. C17-F5) *)

(* the last supplied day ends with a repeated 23:00 (25 hours: boundaries 0 and 1500) and the last supplied stamp is not
   the second 23:00: latest.replace(hour=23) is the first 23:00 ([hi_back] = 120) and the hour 1440 is not in the frame *)
Theorem C17_whole_days_refuted_last :
  exists bnds e (rows : list (row Z)) t,
    well_formed Z bnds rows /\ lo_fwd e = 0 /\ hi_back e = 120 /\
    0 <= t < 1500 /\ (t - 0) mod STEP = 0 /\
    ~ In t (stamps Z (prep_col zzero zlin id_est true bnds e rows Temp)).
Proof.
  exists w_bnds, (mkedges 0 120), (w_rows 600), 1440.
  split; [apply w_wf; [lia | reflexivity]|]. split; [reflexivity|]. split; [reflexivity|].
  split; [lia|]. split; [reflexivity | exact w_last_not_in].
Qed.
Print Assumptions C17_whole_days_refuted_last.

(* the first supplied stamp is the second 00:00 of a day whose 00:00 occurs twice: the frame starts there
   ([lo_fwd] = 60) and stamp 0 — the first 00:00 of that day — is not in it *)
Theorem C17_whole_days_refuted_first :
  exists bnds e (rows : list (row Z)) t,
    well_formed Z bnds rows /\ lo_fwd e = 60 /\ hi_back e = 60 /\
    0 <= t < 1500 /\ (t - 0) mod STEP = 0 /\
    ~ In t (stamps Z (prep_col zzero zlin id_est true bnds e rows Temp)).
Proof.
  exists w_bnds, (mkedges 60 60), (w_rows 60), 0.
  split; [apply w_wf; [lia | reflexivity]|]. split; [reflexivity|]. split; [reflexivity|].
  split; [lia|]. split; [reflexivity | exact w_first_not_in].
Qed.
Print Assumptions C17_whole_days_refuted_first.

(* a calendar whose day starts are not whole hours apart (the clock was moved by 30 minutes: the second day starts at
   minute 1410): the row supplied at local 01:00 of the second day (1470) is on the hour but off the absolute-hour grid
   that starts at 0; reindex drops it and the frame carries an interpolated, flagged value at 1440 instead *)
Theorem C17_supplied_preserved_refuted :
  exists bnds (rows : list (row Z)) r a,
    ascending bnds /\ (forall r, In r rows -> covers bnds (ts r)) /\ In r rows /\
    supplied zzero true rows (ts r) Temp = Some a /\
    ~ In (ts r) (stamps Z (prep_col zzero zlin id_est true bnds no_skip rows Temp)) /\
    In (1440, Some 5, true) (prep_col zzero zlin id_est true bnds no_skip rows Temp).
Proof.
  exists s_bnds, s_rows, (R 1470 (Some 9) (Some 2) None), 9.
  split; [cbn; repeat split; intros b H; lia|]. split; [exact s_covers|]. split; [right; left; reflexivity|].
  split; [reflexivity|].
  split; [apply not_in_by_existsb; vm_compute; reflexivity | apply (nth_error_In _ 24); vm_compute; reflexivity].
Qed.
Print Assumptions C17_supplied_preserved_refuted.

(* hence the full statement does not hold of the code as it is *)
Theorem C17_statement_refuted : ~ C17_statement.
Proof.
  intros S.
  specialize (S Z zzero zlin id_est true w_bnds (mkedges 0 120) (w_rows 600) Temp).
  destruct (w_wf 600 ltac:(lia) eq_refl) as [N [Asc [_ [Cov _]]]].
  destruct (S N Asc Cov) as [W _]. clear S.
  apply w_last_not_in.
  apply (proj2 (W 600 600 0 1500 (w_min 600) (w_max 600) (w_day_start 600 ltac:(lia)) (w_next_day 600 ltac:(lia)) 1440)).
  split; [lia | reflexivity].
Qed.
Print Assumptions C17_statement_refuted.

(* non-vacuity: a concrete four-day input
   four local days of 24, 23 (spring forward), 24, 25 (fall back) hours; rows with holes, an absent stretch, a
   duplicated stamp (second value 77), a zero reading, no irradiance; the estimator proposes 99 everywhere for
   temperature and usage (it must only be used on the missing cells).  96 rows > 72, so the autocorrelation stage is on. *)
Definition ex_bnds : list Z := [0; 1440; 2820; 4260; 5760].
Definition ex_est (c : colname) (x : col Z) : col Z := match c with Ghi => x | _ => map (fun _ => Some 99) x end.
Fixpoint ex_rows_from (n : nat) (t : Z) : list (row Z) :=
  match n with
  | O => []
  | S n' => R t (if (t mod 420 =? 0) then None else Some (t / 60)) (if t =? 600 then Some 0 else Some (1 + t / 60)) None
            :: ex_rows_from n' (t + 60)
  end.
(* stamps 180 .. 5400, minus the stretch 1200 .. 1740, plus a duplicate of stamp 300 at the end *)
Definition ex_rows : list (row Z) :=
  filter (fun r => (ts r <? 1200) || (1740 <? ts r)) (ex_rows_from 88 180) ++ [R 300 (Some 77) (Some 77) (Some 77)].

Example ex_well_formed : well_formed Z ex_bnds ex_rows.
Proof.
  apply (well_formed_intro Z ex_bnds ex_rows 0 5760).
  - discriminate.
  - cbn. repeat split; intros b H; lia.
  - left. reflexivity.
  - do 4 right. left. reflexivity.
  - reflexivity.
  - vm_compute. reflexivity.
Qed.

Definition ex_out (c : colname) := prep_col zzero zlin ex_est true ex_bnds no_skip ex_rows c.

(* the frame has the 96 hours of the four days; a supplied value is kept (stamp 300: the first row wins, not 77);
   the estimator's 99 fills a missing cell and is flagged; the zero reading at 600 is treated as missing and filled *)
Example ex_frame : length (ex_out Temp) = 96%nat /\ hd_error (stamps Z (ex_out Temp)) = Some 0 /\
  In (300, Some 5, false) (ex_out Temp) /\ In (420, Some 99, true) (ex_out Temp) /\
  In (600, Some 99, true) (ex_out Obs) /\ In (1500, Some 99, true) (ex_out Temp) /\
  forallb (fun p : Z * option Z * bool => missing (snd (fst p)) && negb (snd p)) (ex_out Ghi) = true.
Proof.
  split; [vm_compute; reflexivity|]. split; [vm_compute; reflexivity|].
  (* the row of stamp t is row t / 60 *)
  split; [apply (nth_error_In _ 5); vm_compute; reflexivity|]. split; [apply (nth_error_In _ 7); vm_compute; reflexivity|].
  split; [apply (nth_error_In _ 10); vm_compute; reflexivity|]. split; [apply (nth_error_In _ 25); vm_compute; reflexivity|].
  vm_compute; reflexivity.
Qed.

(* hypotheses of the theorems are met by it: supplied cells, missing cells, a zero reading, a duplicated stamp *)
Example ex_supplied : exists r a, In r ex_rows /\ supplied zzero true ex_rows (ts r) Temp = Some a.
Proof.
  exists (R 300 (Some 5) (Some 6) None), 5.
  split; [change (In (R 300 (Some 5) (Some 6) None) ex_rows); vm_compute; do 2 right; left; reflexivity | vm_compute; reflexivity].
Qed.

Example ex_zero : lookup 600 ex_rows = Some (R 600 (Some 10) (Some 0) None) /\ zzero 0 = true /\
  supplied zzero true ex_rows 600 Obs = None /\ supplied zzero false ex_rows 600 Obs = Some 0.
Proof.
  assert (L : lookup 600 ex_rows = Some (R 600 (Some 10) (Some 0) None)) by (vm_compute; reflexivity).
  split; [exact L|]. split; [reflexivity|].
  exact (C17_zero_electric_is_missing Z zzero ex_rows 600 _ 0 L eq_refl eq_refl).
Qed.

Example ex_duplicate : exists l1 r l2 r' l3, ex_rows = l1 ++ r :: l2 ++ r' :: l3 /\ ts r' = ts r /\ r_temp r' <> r_temp r /\
  prep_col zzero zlin ex_est true ex_bnds no_skip ex_rows Temp = prep_col zzero zlin ex_est true ex_bnds no_skip (l1 ++ r :: l2 ++ l3) Temp.
Proof.
  pose (l1 := firstn 2 ex_rows). pose (l2 := removelast (skipn 3 ex_rows)).
  pose (r := R 300 (Some 5) (Some 6) None). pose (r' := R 300 (Some 77) (Some 77) (Some 77)).
  assert (E : ex_rows = l1 ++ r :: l2 ++ [r']) by (vm_compute; reflexivity).
  exists l1, r, l2, r', []. split; [exact E|]. split; [reflexivity|]. split; [cbn; congruence|].
  rewrite E at 1. apply C17_first_duplicate_wins. reflexivity.
Qed.

(* a column that has a value but for which the estimator proposes nothing is completed by the fall-backs *)
Example ex_fallbacks : interp_col zlin (fun _ x => map (fun _ => None) x) Temp [None; Some 2; None; None; Some 8; None]
                       = [Some 2; Some 2; Some 4; Some 6; Some 8; Some 8].
Proof. vm_compute. reflexivity. Qed.

(* an empty column stays empty and unflagged *)
Example ex_empty_column : interp_col zlin ex_est Ghi [None; None; None] = [None; None; None] /\
  flags [None; None; None] (interp_col zlin ex_est Ghi [None; None; None]) = [false; false; false].
Proof. split; vm_compute; reflexivity. Qed.

(* the structure of the source, read on every run
   harness/translate_hourlyprep.py reads with `ast` the order of the steps of _set_data, the zero rule, keep=, the hours
   of the first / last stamp, the threshold of the autocorrelation stage, the ORDER of the fall-back methods with what
   each branch calls, and the flag rule, into Generated/HourlyPrepGen.v ([gen_pipeline : option pipeline], [None] when a
   construct is not recognised).  Model/HourlyPrepTable.v interprets such a table ([prep_col_by]). *)

(* for every table that satisfies the decidable condition [accepted], all inputs and all estimators: the interpreted
   table is the frame all theorems above speak about *)
Theorem C17_table_model_agrees : forall A (is_zero : A -> bool) lin est p elec bnds e (rows : list (row A)) c,
  accepted p = true ->
  prep_col_by is_zero lin est p elec bnds e rows c = prep_col is_zero lin est elec bnds e rows c.
Proof.
  intros A is_zero lin est p elec bnds e rows c H. unfold prep_col_by, prep_col.
  destruct (frame_range bnds e rows). apply prep_col_range_by_accepted. exact H.
Qed.
Print Assumptions C17_table_model_agrees.

(* once the time method in both directions has run the column is complete or empty, and whatever follows it in the
   list of fall-backs changes nothing (the proof does not use that the rest consists of ffill / bfill) *)
Theorem C17_fallback_order_is_immaterial : forall A lin rest (x : col A), forallb is_fill rest = true ->
  fallbacks_by lin (FTime LBoth :: rest) x = fallbacks lin x.
Proof. intros A lin rest x _. apply fallbacks_by_time_first. Qed.
Print Assumptions C17_fallback_order_is_immaterial.

(* the zero rule and the duplicate removal can be exchanged *)
Theorem C17_zero_and_dedup_commute : forall A (is_zero : A -> bool) elec (rows : list (row A)),
  map (zero_to_nan is_zero elec) (remove_duplicates rows) = remove_duplicates (map (zero_to_nan is_zero elec) rows).
Proof. exact zero_dedup_commute. Qed.
Print Assumptions C17_zero_and_dedup_commute.

(* the table read from the source on THIS run is accepted (re-checked by vm_compute against the regenerated file) ... *)
Theorem C17_source_pipeline_accepted : source_accepted.
Proof. unfold source_accepted. vm_compute. first [reflexivity | exact I]. Qed.
Print Assumptions C17_source_pipeline_accepted.

(* ... hence the source's own step order / constants / fall-back order, interpreted, give the modelled frame *)
Theorem C17_source_pipeline_is_model : forall p, gen_pipeline = Some p ->
  forall A (is_zero : A -> bool) lin est elec bnds e (rows : list (row A)) c,
    prep_col_by is_zero lin est p elec bnds e rows c = prep_col is_zero lin est elec bnds e rows c.
Proof.
  intros p E. pose proof C17_source_pipeline_accepted as H. unfold source_accepted in H. rewrite E in H.
  intros. apply C17_table_model_agrees. exact H.
Qed.
Print Assumptions C17_source_pipeline_is_model.

(* non-vacuity: the model's table is accepted; eight tables that are not (the condition is sufficient, not necessary: the
   interpreter reads the threshold, the fall-backs, the keep policy, the row steps and the flag rule only); three of them
   interpret to a frame other than the model's on a concrete input *)
Example ex_model_table_accepted : accepted model_pipeline = true /\
  accepted (tbl [FTime LBoth; FBfill] KeepFirst FlagMissingAndPresent 72) = true /\
  accepted (mkpipeline 72 [FTime LBoth; FFfill; FBfill] KeepFirst [RDedup; RZero] true Obs CmpEq 0 true 0 23 60 FlagMissingAndPresent) = true.
Proof. repeat split. Qed.

Example ex_rejected_tables_differ :
  accepted (tbl [FTime LBoth; FFfill; FBfill] KeepLast FlagMissingAndPresent 72) = false /\
  accepted (tbl [FTime LBoth; FFfill; FBfill] KeepFirst FlagMissing 72) = false /\
  accepted (tbl [FFfill; FBfill] KeepFirst FlagMissingAndPresent 72) = false /\
  accepted (tbl [FTime LForward; FFfill] KeepFirst FlagMissingAndPresent 72) = false /\
  accepted (tbl [FTime LBoth; FFfill; FBfill] KeepFirst FlagMissingAndPresent 96) = false /\
  accepted (mkpipeline 72 [FTime LBoth; FFfill; FBfill] KeepFirst [RZero; RDedup] true Obs CmpLe 0 true 0 23 60 FlagMissingAndPresent) = false /\
  accepted (mkpipeline 72 [FTime LBoth; FFfill; FBfill] KeepFirst [RZero; RDedup] true Obs CmpEq 0 false 0 23 60 FlagMissingAndPresent) = false /\
  accepted (mkpipeline 72 [FTime LBoth; FFfill; FBfill] KeepFirst [RZero; RDedup] true Obs CmpEq 0 true 0 22 60 FlagMissingAndPresent) = false.
Proof. repeat split. Qed.

Example ex_keep_last_differs :
  prep_col_range_by zzero zlin id_est (tbl [FTime LBoth; FFfill; FBfill] KeepLast FlagMissingAndPresent 72) true 0 60
                    [R 0 (Some 1) None None; R 0 (Some 2) None None] Temp
  <> prep_col_range zzero zlin id_est true 0 60 [R 0 (Some 1) None None; R 0 (Some 2) None None] Temp.
Proof. vm_compute. congruence. Qed.

Example ex_flag_missing_differs :
  prep_col_range_by zzero zlin id_est (tbl [FTime LBoth; FFfill; FBfill] KeepFirst FlagMissing 72) true 0 60 [R 0 None None None] Temp
  <> prep_col_range zzero zlin id_est true 0 60 [R 0 None None None] Temp.
Proof. vm_compute. congruence. Qed.

Example ex_no_time_method_differs :
  prep_col_range_by zzero zlin id_est (tbl [FFfill; FBfill] KeepFirst FlagMissingAndPresent 72) true 0 120
                    [R 0 (Some 0) None None; R 120 (Some 4) None None] Temp
  <> prep_col_range zzero zlin id_est true 0 120 [R 0 (Some 0) None None; R 120 (Some 4) None None] Temp.
Proof. vm_compute. congruence. Qed.
