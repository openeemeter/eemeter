(* C13 — each day is predicted by exactly one sub-model: that of its season and day type.
   Three parts.  Splits, routing, trim and the scan of _best_combination: model Model/Splits.v and Model/SplitsCal.v
   (calendar), lemmas Proofs/SplitsProofs.v; the candidate list, the seasonal options, combo_dictionary and the
   default maps of Generated/SplitsGen.v are regenerated from /repo on every run.  The selection criterion over the
   reals: Model/SelCrit.v, Proofs/SelCritProofs.v.  The source text of the selection code: Model/SelectShape.v,
   Proofs/SelectProofs.v, Proofs/SelectRProofs.v, against the regenerated Generated/SelectGen.v.
   Two instances of the one scan [best] occur: [best_x] on binary64 values as extended rationals with NaN (what the
   code runs; the routing and trim theorems about the selected split use it) and [best (ext R) R_ext_ltb PInf] on the
   real-number criterion (the theorems on what the criterion prefers).
   From the second part on (`Local Open Scope R_scope` below) numerals and `<=`, `*` are those of R. *)
From Coq Require Import ZArith List Bool String QArith Lia.
From V Require Import Model.Splits Model.SplitsCal Generated.SplitsGen Proofs.SplitsProofs.
Import ListNotations.
Open Scope list_scope.

(* every candidate split the real generator produces today parses, prints back to itself, and
   partitions the six (season, weekday/weekend) cells: each cell lies in exactly one component *)
Theorem C13_generated_all_exact_cover :
  Forall (fun str => exists s, parse_split str = Some s /\ print_split s = str /\ exact_cover s) all_splits.
Proof.
  apply Forall_forall. intros str Hin.
  assert (H : forallb (fun str => match parse_split str with
                                  | Some s => exact_coverb s && (print_split s =? str)%string
                                  | None => false end) all_splits = true) by (vm_compute; reflexivity).
  rewrite forallb_forall in H. specialize (H str Hin).
  destruct (parse_split str) as [s|]; [|discriminate].
  apply andb_true_iff in H. destruct H as [H1 H2].
  exists s. repeat split; [apply String.eqb_eq; exact H2 | apply exact_coverb_spec; exact H1].
Qed.
Print Assumptions C13_generated_all_exact_cover.

(* the model of _get_combinations / expand_combinations / stringify / _remove_duplicate_permutations,
   run on the seasonal options read from the code, yields exactly the list the code yields *)
Theorem C13_model_generates_same :
  exists opts, parse_options seasonal_options = Some opts /\
               map print_split (candidates opts) = all_splits.
Proof.
  destruct options_today as (opts & Ho). exists opts. split; [exact Ho|]. exact (candidates_print_today opts Ho).
Qed.
Print Assumptions C13_model_generates_same.

Theorem C13_combo_dictionary_same :
  combo_seasons = map (fun s => (print_season s, sname_text (season_name s))) [SU; SH; WI] /\
  combo_days = map (fun d => (print_daytype d,
                              filter (fun n => day_in d (lookup_d default_weekday_map n))
                                     [1; 2; 3; 4; 5; 6; 7]%Z)) [FW; WD; WE].
Proof. split; vm_compute; reflexivity. Qed.
Print Assumptions C13_combo_dictionary_same.

(* the full routing statement: whatever the model's own maps are, every day is received by exactly
   one component of an exact cover *)
Definition C13_routing_statement : Prop :=
  forall s, exact_cover s -> forall (sm : Z -> sname) (wm : Z -> dname) (month dow : Z),
  exists c, receivers s sm wm month dow = [c].

(* it holds for ALL season maps into {summer, shoulder, winter} and ALL weekday maps into
   {weekday, weekend} (empty seasons, no weekend day, ... included) and every (month, day-of-week)
   (for dates: C13_every_date_routed_once); and the receiving component is the one whose cell
   contains the day *)
Theorem C13_routing_unique_partial : forall s, exact_cover s ->
  forall sm wm month dow x, cell_of (sm month) (wm dow) = Some x ->
  exists c, receivers s sm wm month dow = [c] /\ In c s /\ covers c x = true.
Proof.
  intros s Hs sm wm month dow x Hx. rewrite (receivers_cell s sm wm month dow x Hx).
  exact (exact_cover_filter s Hs x).
Qed.
Print Assumptions C13_routing_unique_partial.

(* ... and fails when a map uses a name outside the hard-wired ones: such a day is received by no
   component.  The settings classes (Season_Definition / Weekday_Weekend_Definition in
   daily/utilities/settings.py) reject such option names at construction, which is what keeps the
   implementation inside the theorem above.  The witness is replayed on the implementation by
   harness/c13.py (finding C13-F1). *)
Theorem C13_routing_refuted : ~ C13_routing_statement.
Proof.
  intros H. assert (Hc : exact_cover unsplit) by (apply exact_coverb_spec; reflexivity).
  destruct (H unsplit Hc (fun _ => OtherSeason) (fun _ => Weekday) 7%Z 1%Z) as (c & E).
  rewrite receivers_foreign_season in E by reflexivity. discriminate.
Qed.
Print Assumptions C13_routing_refuted.

Theorem C13_foreign_season_unrouted : forall s sm wm month dow,
  sm month = OtherSeason -> receivers s sm wm month dow = [].
Proof. exact receivers_foreign_season. Qed.
Print Assumptions C13_foreign_season_unrouted.

(* the character slices of _meter_segment (component[:2], component[3:].split("_")) select the day
   type and the season group of the printed component *)
Theorem C13_meter_segment_text : forall c sm wm month dow, snd c <> [] ->
  meter_segment_str (print_comp c) sm wm month dow = Some (routes c sm wm month dow).
Proof.
  intros [d g] sm wm month dow H. cbn [snd] in H. unfold meter_segment_str.
  rewrite drop_print_comp, take_print_comp. cbn [fst snd]. rewrite (split_us_group g H). destruct d; reflexivity.
Qed.
Print Assumptions C13_meter_segment_text.

(* trim only removes; the unsplit model survives; a surviving split other than the unsplit one has
   weekday/weekend components only if the settings allow them, a single-season component only if that
   season may be separate and has at least split_min_days days, and every component has at least
   split_min_days/3.75 weekend days *)
Theorem C13_trim_sound : forall f c l,
  incl (trim f c l) l /\
  (In unsplit l -> In unsplit (trim f c l)) /\
  (forall s, In s (trim f c l) -> print_split s <> print_split unsplit ->
     (has_wd s = true -> a_wdwe f = true) /\
     forall x, In x s ->
       (forall se, snd x = [se] -> allow_season f se = true /\ (split_min_days <= n_season c se)%Z) /\
       (4 * split_min_days <= 15 * we_count c (snd x))%Z).
Proof.
  intros f c l. split; [|split].
  - intros s Hs. apply In_trim in Hs. apply Hs.
  - intros H. apply In_trim. split; [exact H|left; reflexivity].
  - intros s Hs Hne. apply In_trim in Hs. destruct Hs as [_ [E|K]]; [contradiction|exact K].
Qed.
Print Assumptions C13_trim_sound.

Theorem C13_unsplit_always_candidate : forall opts, parse_options seasonal_options = Some opts ->
  forall f gauss sm wm h, In "fw-su_sh_wi"%string (combinations opts f gauss sm wm h).
Proof.
  intros opts Ho f gauss sm wm h.
  assert (H : In "fw-su_sh_wi"%string (map print_split (candidates opts)))
    by (rewrite (candidates_print_today opts Ho); apply mem_string_In; reflexivity).   (* mem_string runs over all_splits *)
  apply in_map_iff in H. destruct H as (s & Hp & Hs).
  (* whatever candidate prints as the unsplit text, trim keeps it *)
  apply In_combinations. exists s. split; [exact Hp|]. split; [exact Hs|left; exact Hp].
Qed.
Print Assumptions C13_unsplit_always_candidate.

Theorem C13_candidates_exact_cover : forall opts, parse_options seasonal_options = Some opts ->
  forall f gauss sm wm h str, In str (combinations opts f gauss sm wm h) ->
  exists s, parse_split str = Some s /\ print_split s = str /\ exact_cover s.
Proof.
  intros opts Ho f gauss sm wm h str Hin. apply In_combinations in Hin. destruct Hin as (s & <- & Hs & _).
  apply (proj1 (Forall_forall _ _) C13_generated_all_exact_cover).
  rewrite <- (candidates_print_today opts Ho). apply in_map. exact Hs.
Qed.
Print Assumptions C13_candidates_exact_cover.

(* _best_combination: the selected split is a candidate, its criterion is a number below +inf (NaN is
   never selected) and no candidate has a strictly smaller criterion *)
Theorem C13_best_is_argmin : forall l s, best_x l = Some s ->
  exists c, In (s, c) l /\ c <> XNaN /\ c <> XPosInf /\
            forall s' c', In (s', c') l -> xlt c' c = false.
Proof.
  intros l s H. destruct (best_x_argmin l s H) as (c & Hin & Hlt & Hmin).
  exists c. repeat split; auto; intros ->; discriminate.
Qed.
Print Assumptions C13_best_is_argmin.

Theorem C13_best_none : forall l, best_x l = None <->
  forall s c, In (s, c) l -> c = XNaN \/ c = XPosInf.
Proof.
  intros l. unfold best_x. rewrite (best_none_iff xr xlt XPosInf xlt_irrefl xlt_chain). split.
  - intros H s c Hin. specialize (H s c Hin). destruct c; cbn in H; auto; discriminate.
  - intros H s c Hin. destruct (H s c Hin) as [-> | ->]; reflexivity.
Qed.
Print Assumptions C13_best_none.

(* composition: the split selected among the candidates of _combinations() partitions the cells and
   every day with standard names is received by exactly one of its components, the one of its cell *)
Theorem C13_selected_routes_unique : forall opts, parse_options seasonal_options = Some opts ->
  forall f gauss sm wm h crit str,
  map fst crit = combinations opts f gauss sm wm h -> best_x crit = Some str ->
  forall month dow x, cell_of (sm month) (wm dow) = Some x ->
  exists s c, parse_split str = Some s /\ receivers s sm wm month dow = [c] /\ In c s /\ covers c x = true.
Proof.
  intros opts Ho f gauss sm wm h crit str Hk Hb month dow x Hx.
  pose proof (best_x_in crit str Hb) as Hin. rewrite Hk in Hin.
  destruct (C13_candidates_exact_cover opts Ho _ _ _ _ _ _ Hin) as (s & Hp & _ & Hc).
  destruct (C13_routing_unique_partial s Hc sm wm month dow x Hx) as (c & H1 & H2 & H3).
  exists s, c. auto.
Qed.
Print Assumptions C13_selected_routes_unique.

(* the candidate list contains no partition twice (two texts that differ only in the order of their
   components), and it has as many members as the list the code yields *)
Theorem C13_candidates_distinct :
  exists opts, parse_options seasonal_options = Some opts /\
    NoDup (map canon_text (candidates opts)) /\
    List.length (candidates opts) = List.length all_splits.
Proof.
  destruct C13_model_generates_same as (opts & Ho & Hall). exists opts. split; [exact Ho|]. split.
  - rewrite (candidates_today opts Ho).
    (* removing duplicates changes nothing *)
    assert (E : nodup string_dec (map canon_text parsed_splits) = map canon_text parsed_splits) by (vm_compute; reflexivity).
    rewrite <- E. apply NoDup_nodup.
  - rewrite <- Hall. symmetry. apply map_length.
Qed.
Print Assumptions C13_candidates_distinct.

(* completeness: the candidate list offers EVERY partition of the six (season, weekday/weekend) cells
   into blocks of the form "day type x set of seasons": for any exact cover s, however written, some
   candidate gives every cell the same block (own = the shape of the only component covering it) *)
Theorem C13_candidates_complete : forall opts, parse_options seasonal_options = Some opts ->
  forall s, exact_cover s ->
  exists s', In s' (candidates opts) /\ forall x, own s' x = own s x.
Proof.
  intros opts Ho. rewrite (candidates_today opts Ho). apply complete_check_sound. exact complete_check_today.
Qed.
Print Assumptions C13_candidates_complete.

(* trim keeps a split other than the unsplit one exactly when the conditions hold (nothing the
   settings allow and the data support is dropped) *)
Theorem C13_trim_exact : forall f c s, print_split s <> print_split unsplit ->
  (trim_keep f c s = true <-> keep_spec f c s).
Proof. intros f c s Hne. rewrite trim_keep_spec. tauto. Qed.
Print Assumptions C13_trim_exact.

Theorem C13_trim_complete : forall f c l s, In s l ->
  (print_split s = print_split unsplit \/ keep_spec f c s) -> In s (trim f c l).
Proof. intros f c l s Hin H. apply In_trim. split; assumption. Qed.
Print Assumptions C13_trim_complete.

(* "splits the settings forbid or the data cannot support are never chosen": the split selected by
   _best_combination among the candidates of _combinations() is the unsplit one or meets every
   condition of the settings flags (after the ellipsoid filter) and of the day counts *)
Theorem C13_selected_allowed : forall opts, parse_options seasonal_options = Some opts ->
  forall f gauss sm wm h crit str,
  map fst crit = combinations opts f gauss sm wm h -> best_x crit = Some str ->
  str = "fw-su_sh_wi"%string \/
  exists s, In s (candidates opts) /\ print_split s = str /\
            keep_spec (match gauss with Some g => flags_and f g | None => f end) (counts_of sm wm h) s.
Proof.
  intros opts Ho f gauss sm wm h crit str Hk Hb.
  pose proof (best_x_in crit str Hb) as Hin. rewrite Hk in Hin.
  apply In_combinations in Hin. destruct Hin as (s & Hp & Hc & [E|K]).
  - left. rewrite <- Hp. exact E.
  - right. exists s. auto.
Qed.
Print Assumptions C13_selected_allowed.

(* the calendar model (days since 1970-01-01 -> month, ISO weekday; Model/SplitsCal.v) stays inside
   the twelve months and seven days for every integer day number *)
Theorem C13_calendar_ranges : forall z : Z,
  (1 <= month_of z <= 12)%Z /\ (1 <= dom_of z <= 31)%Z /\ (1 <= dow_of z <= 7)%Z.
Proof.
  intros z. split; [|split].
  - apply month_of_doe_range. apply doe_of_range.
  - apply dom_of_doe_range. apply doe_of_range.
  - unfold dow_of. Z.to_euclidean_division_equations. lia.
Qed.
Print Assumptions C13_calendar_ranges.

Theorem C13_weekday_advances : forall z,
  dow_of (z + 1)%Z = (if (dow_of z =? 7)%Z then 1 else dow_of z + 1)%Z.
Proof.
  intros z. unfold dow_of.
  destruct (Z.eqb_spec ((z + 3) mod 7 + 1) 7); Z.to_euclidean_division_equations; lia.
Qed.
Print Assumptions C13_weekday_advances.

(* for ALL maps the settings validators can leave behind with the hard-wired names (12 months, 7
   days; empty seasons, no weekend day, ... included), every exact cover and EVERY date (any integer
   day number, leap years and century rules included): the date is received by exactly one component,
   the one whose cell contains it *)
Theorem C13_every_date_routed_once : forall s, exact_cover s -> forall sm wm, std_maps sm wm ->
  forall z : Z,
  exists c x, cell_of (lookup_s sm (month_of z)) (lookup_d wm (dow_of z)) = Some x /\
              receivers s (lookup_s sm) (lookup_d wm) (month_of z) (dow_of z) = [c] /\
              In c s /\ covers c x = true.
Proof.
  intros s Hs sm wm Hstd z. destruct (C13_calendar_ranges z) as (Rm & _ & Rd).
  destruct (std_maps_cell sm wm Hstd (month_of z) (dow_of z) Rm Rd) as (x & Hx).
  destruct (C13_routing_unique_partial s Hs (lookup_s sm) (lookup_d wm) (month_of z) (dow_of z) x Hx)
    as (c & H1 & H2 & H3).
  exists c, x. auto.
Qed.
Print Assumptions C13_every_date_routed_once.

Theorem C13_date_routed_by_no_other : forall s, exact_cover s -> forall sm wm, std_maps sm wm ->
  forall z c c', receivers s (lookup_s sm) (lookup_d wm) (month_of z) (dow_of z) = [c] ->
  In c' s -> routes c' (lookup_s sm) (lookup_d wm) (month_of z) (dow_of z) = true -> c' = c.
Proof.
  intros s _ sm wm _ z c c' Hr Hin Hroute. exact (filter_singleton _ _ _ _ Hr c' Hin Hroute).
Qed.
Print Assumptions C13_date_routed_by_no_other.

(* a day whose name is neither weekday nor weekend is received by full-week components only
   (finding C13-F2) *)
Theorem C13_foreign_day_unrouted : forall c sm wm month dow,
  wm dow = OtherDay -> fst c <> FW -> routes c sm wm month dow = false.
Proof.
  intros [d g] sm wm month dow H Hd. unfold routes. cbn [fst snd] in *. rewrite H.
  destruct d; [contradiction| |]; cbn; apply andb_false_r.
Qed.
Print Assumptions C13_foreign_day_unrouted.

Definition ex_split : split := [(FW, [SH]); (WD, [SU; WI]); (WE, [SU; WI])].
Example C13_nonvacuous_routing :
  exact_cover ex_split /\
  cell_of (lookup_s default_season_map 7) (lookup_d default_weekday_map 6) = Some (SU, true) /\
  receivers ex_split (lookup_s default_season_map) (lookup_d default_weekday_map) 7 6 = [(WE, [SU; WI])] /\
  receivers ex_split (lookup_s default_season_map) (lookup_d default_weekday_map) 4 6 = [(FW, [SH])].
Proof. split; [apply exact_coverb_spec|]; vm_compute; auto. Qed.

Definition ex_hist : hist :=   (* 8 days in every (month, day-of-week) cell *)
  flat_map (fun m => map (fun d => (m, d, 8%Z)) [1; 2; 3; 4; 5; 6; 7]%Z) [1; 2; 3; 4; 5; 6; 7; 8; 9; 10; 11; 12]%Z.
Example C13_nonvacuous_trim :
  exists opts, parse_options seasonal_options = Some opts /\
  List.length (combinations opts {| a_su := true; a_sh := false; a_wi := true; a_wdwe := true |} None
                 (lookup_s default_season_map) (lookup_d default_weekday_map) ex_hist) = 16%nat /\
  combinations opts {| a_su := true; a_sh := true; a_wi := true; a_wdwe := false |}
                 (Some {| a_su := false; a_sh := true; a_wi := true; a_wdwe := true |})
                 (lookup_s default_season_map) (lookup_d default_weekday_map) ex_hist =
    ["fw-su_sh_wi"; "fw-sh__fw-su_wi"; "fw-su_sh__fw-wi"]%string.
Proof.
  destruct options_today as (opts & Ho). exists opts. split; [exact Ho|].
  unfold combinations. rewrite (candidates_today opts Ho). split; vm_compute; reflexivity.
Qed.

Example C13_nonvacuous_best :
  best_x [("a"%string, XNaN); ("b"%string, XFin (3 # 2)); ("c"%string, XPosInf); ("d"%string, XFin (-1 # 4));
          ("e"%string, XFin (-1 # 4)); ("f"%string, XNaN)] = Some "d"%string /\
  best_x [("a"%string, XNaN); ("c"%string, XPosInf)] = None.
Proof. split; vm_compute; reflexivity. Qed.

(* 19782 = 2024-02-29 (a Thursday), 11016 = 2000-02-29 (Tuesday), 47541 = 2100-03-01 (Monday; 2100 is
   not a leap year), -1 = 1969-12-31 (Wednesday) *)
Example C13_nonvacuous_calendar :
  (year_of 19782, month_of 19782, dom_of 19782, dow_of 19782) = (2024, 2, 29, 4)%Z /\
  (year_of 11016, month_of 11016, dom_of 11016, dow_of 11016) = (2000, 2, 29, 2)%Z /\
  (year_of 47541, month_of 47541, dom_of 47541, dow_of 47541) = (2100, 3, 1, 1)%Z /\
  (year_of (-1), month_of (-1), dom_of (-1), dow_of (-1)) = (1969, 12, 31, 3)%Z.
Proof. vm_compute. auto. Qed.

Example C13_nonvacuous_dates :
  std_maps default_season_map default_weekday_map /\ exact_cover ex_split /\
  (* Saturday 2024-06-01 (day 19875): summer weekend *)
  receivers ex_split (lookup_s default_season_map) (lookup_d default_weekday_map) (month_of 19875) (dow_of 19875)
    = [(WE, [SU; WI])] /\
  (* Thursday 2024-02-29: winter weekday *)
  receivers ex_split (lookup_s default_season_map) (lookup_d default_weekday_map) (month_of 19782) (dow_of 19782)
    = [(WD, [SU; WI])].
Proof.
  split; [|split; [exact (proj1 C13_nonvacuous_routing)|split; vm_compute; reflexivity]].
  split; [reflexivity|]. split; [reflexivity|]. split; repeat constructor; discriminate.
Qed.

Example C13_nonvacuous_keep_spec :
  let f := {| a_su := true; a_sh := false; a_wi := true; a_wdwe := true |} in
  let c := counts_of (lookup_s default_season_map) (lookup_d default_weekday_map) ex_hist in
  keep_spec f c [(FW, [SH; WI]); (WD, [SU]); (WE, [SU])] /\
  trim_keep f c [(FW, [SH; WI]); (WD, [SU]); (WE, [SU])] = true /\
  trim_keep f c [(FW, [SU; WI]); (WD, [SH]); (WE, [SH])] = false.
Proof.
  cbv zeta. split; [|split; vm_compute; reflexivity].
  apply C13_trim_exact; [vm_compute; discriminate|vm_compute; reflexivity].
Qed.

(* an exact cover written unlike any candidate text (seasons repeated and out of order, components out
   of order) and the block of summer weekends in it *)
Example C13_nonvacuous_complete :
  let s := [(WE, [WI; SU; SU]); (FW, [SH]); (WD, [WI; SU])] in
  exact_cover s /\ parse_split "we-wi_su_su__fw-sh__wd-wi_su" = Some s /\
  own s (SU, true) = Some (WE, (true, false, true)) /\
  own ex_split (SU, true) = own s (SU, true).
Proof. cbv zeta. split; [apply exact_coverb_spec|]; vm_compute; auto. Qed.

(* ================================================================== the selection criterion itself
   (Model/SelCrit.v: selection_criteria.py + _combination_selection_criteria / _get_error_metrics; real-number
   instance, Proofs/SelCritProofs.v; the float instance Model/SelCritF.v is what the correspondence runs). *)
From Coq Require Import Reals Lra.
From V Require Import Model.Num Model.NumR Model.SelCrit Proofs.SelCritProofs.
Local Open Scope R_scope.

(* the default criterion (BIC) as coded, for loss > 0 and N > 0:
   (-2 * (-N/2 * (ln 2pi + ln(loss/N) + 1)) + c0 * K * ln(N)**d0) / N  =  ln 2pi + ln(loss/N) + 1 + c0 K ln(N)**d0 / N *)
Theorem C13_default_criterion_closed_form : forall c0 d0 loss tss n k, 0 < loss -> 0 < n ->
  R_selection_criteria C_BIC c0 d0 loss tss n k = Fin (bic_closed c0 d0 loss n k).
Proof. intros c0 d0 loss tss n k Hl Hn. rewrite bic_info. apply info_value; assumption. Qed.
Print Assumptions C13_default_criterion_closed_form.

(* it is -inf when loss <= 0 (neg_log_likelihood returns +inf) *)
Theorem C13_default_criterion_nonpositive_loss : forall c0 d0 loss tss n k, loss <= 0 ->
  R_selection_criteria C_BIC c0 d0 loss tss n k = NInf.
Proof. intros c0 d0 loss tss n k Hl. rewrite bic_info. apply info_nonpositive_loss. exact Hl. Qed.
Print Assumptions C13_default_criterion_nonpositive_loss.

(* N fixed: strictly increasing in the loss (so at equal complexity the smaller loss is preferred) *)
Theorem C13_criterion_increasing_in_loss : forall c0 d0 tss1 tss2 n k l1 l2, 0 < n -> l1 < l2 -> 0 < l2 ->
  R_ext_ltb (R_selection_criteria C_BIC c0 d0 l1 tss1 n k) (R_selection_criteria C_BIC c0 d0 l2 tss2 n k) = true.
Proof.
  intros c0 d0 tss1 tss2 n k l1 l2 Hn Hlt Hl2. rewrite !bic_info.
  apply info_lt_loss; try assumption. apply Rle_refl.
Qed.
Print Assumptions C13_criterion_increasing_in_loss.

(* N >= 1, penalty multiplier >= 0 (the settings enforce ge=0): not decreasing in the number of coefficients *)
Theorem C13_criterion_increasing_in_coefficients : forall c0 d0 tss1 tss2 n loss k1 k2,
  1 <= n -> 0 <= c0 -> k1 <= k2 ->
  R_ext_ltb (R_selection_criteria C_BIC c0 d0 loss tss2 n k2) (R_selection_criteria C_BIC c0 d0 loss tss1 n k1) = false.
Proof.
  intros c0 d0 tss1 tss2 n loss k1 k2 Hn Hc Hk. rewrite !bic_info.
  apply info_le_pen; [lra|]. apply bic_pen_le; assumption.
Qed.
Print Assumptions C13_criterion_increasing_in_coefficients.

(* strictly increasing when N > 1, the multiplier is positive and the loss is positive (so at equal loss the simpler
   split is preferred) *)
Theorem C13_criterion_strict_in_coefficients : forall c0 d0 tss1 tss2 n loss k1 k2,
  1 < n -> 0 < c0 -> 0 < loss -> k1 < k2 ->
  R_ext_ltb (R_selection_criteria C_BIC c0 d0 loss tss1 n k1) (R_selection_criteria C_BIC c0 d0 loss tss2 n k2) = true.
Proof.
  intros c0 d0 tss1 tss2 n loss k1 k2 Hn Hc Hl Hk. rewrite !bic_info.
  apply info_lt_pen; [lra|exact Hl|apply Rle_refl|]. apply bic_pen_lt; assumption.
Qed.
Print Assumptions C13_criterion_strict_in_coefficients.

(* the penalty terms of AIC / CAIC / BIC / SABIC / AICc are the coded expressions *)
Theorem C13_penalties_as_coded : forall c0 d0 n k,
  pen_aic RNum Rpow c0 d0 k = c0 * 2 * Rpow k d0 /\
  pen_caic RNum ln Rpow c0 d0 n k = c0 * k * Rpow (ln n + 1) d0 /\
  pen_bic RNum ln Rpow c0 d0 n k = c0 * k * Rpow (ln n) d0 /\
  pen_sabic RNum ln Rpow c0 d0 n k = c0 * k * Rpow (ln ((n + 2) / 24)) d0 /\
  (0 < n - k - 1 ->
   pen_aicc RNum Rpow R_tiny c0 d0 n k = c0 * Rpow (2 * k + 2 * k * (k + 1) / (n - k - 1)) d0) /\
  (n - k - 1 <= 0 ->
   pen_aicc RNum Rpow R_tiny c0 d0 n k = c0 * Rpow (2 * k + 2 * k * (k + 1) / R_tiny) d0).
Proof.
  intros c0 d0 n k.
  unfold pen_aic, pen_caic, pen_bic, pen_sabic, pen_aicc, df_penalized, n_24, n_three, n_two.
  cbn [RNum RNumOf n_leb n_zero n_one n_add n_sub n_mul n_div n_opp carrier].
  replace (1 + 1) with 2 by ring. replace (2 * 2 * 2 * (2 + 1)) with 24 by ring.
  repeat split.
  - intros H. rewrite (proj2 (Rleb_false (n - k - 1) 0) H). reflexivity.
  - intros H. rewrite (proj2 (Rleb_true (n - k - 1) 0) H). reflexivity.
Qed.
Print Assumptions C13_penalties_as_coded.

(* composed: _best_combination run on the CODED criterion of every candidate (whatever the criterion type,
   computed from the components' N / TSS / wSSE with loss = wRMSE / wRMSE_base) selects a candidate whose
   criterion is not +inf and that no candidate undercuts *)
Theorem C13_selected_minimises_coded_criterion : forall ty c0 d0 base fits combos s,
  best (ext R) R_ext_ltb PInf (table ty c0 d0 base fits combos) = Some s ->
  In s combos /\ crit_of ty c0 d0 base fits s <> PInf /\
  forall s', In s' combos -> R_ext_ltb (crit_of ty c0 d0 base fits s') (crit_of ty c0 d0 base fits s) = false.
Proof.
  intros ty c0 d0 base fits combos s H.
  destruct (best_table (ext R) R_ext_ltb PInf R_ext_irrefl R_ext_chain _ combos s H) as (Hs & Hlt & Hmin).
  split; [exact Hs|]. split; [|exact Hmin]. intros K. rewrite K in Hlt. discriminate.
Qed.
Print Assumptions C13_selected_minimises_coded_criterion.

(* default criterion: among candidates with the same number of components (and days) the selected split has the
   smallest loss; and a candidate whose loss is no larger cannot have fewer components *)
Theorem C13_selected_smallest_loss_at_equal_complexity : forall c0 d0 base fits combos s s',
  best (ext R) R_ext_ltb PInf (table C_BIC c0 d0 base fits combos) = Some s -> In s' combos ->
  0 < R_sum_n (fits s) -> R_sum_n (fits s') = R_sum_n (fits s) -> R_count (fits s') = R_count (fits s) ->
  0 < R_combo_loss base (fits s') ->
  R_combo_loss base (fits s) <= R_combo_loss base (fits s').
Proof.
  intros c0 d0 base fits combos s s' H Hs' Hn En Ek Hl'.
  destruct (C13_selected_minimises_coded_criterion C_BIC c0 d0 base fits combos s H) as (_ & _ & Hmin).
  specialize (Hmin s' Hs'). apply Rnot_lt_le. intros Hlt. rewrite !crit_of_eq, En, Ek in Hmin.
  rewrite C13_criterion_increasing_in_loss in Hmin; [discriminate|exact Hn|exact Hlt|lra].
Qed.
Print Assumptions C13_selected_smallest_loss_at_equal_complexity.

Theorem C13_selected_simplest_at_no_larger_loss : forall c0 d0 base fits combos s s',
  best (ext R) R_ext_ltb PInf (table C_BIC c0 d0 base fits combos) = Some s -> In s' combos ->
  0 < c0 -> 1 < R_sum_n (fits s) -> R_sum_n (fits s') = R_sum_n (fits s) ->
  0 < R_combo_loss base (fits s') -> R_combo_loss base (fits s') <= R_combo_loss base (fits s) ->
  R_count (fits s) <= R_count (fits s').
Proof.
  intros c0 d0 base fits combos s s' H Hs' Hc Hn En Hl' Hle.
  destruct (C13_selected_minimises_coded_criterion C_BIC c0 d0 base fits combos s H) as (_ & _ & Hmin).
  specialize (Hmin s' Hs'). apply Rnot_lt_le. intros Hlt. rewrite !crit_of_eq, En, !bic_info in Hmin.
  (* s' has no larger loss and fewer components: its criterion is strictly smaller *)
  rewrite info_lt_pen in Hmin; [discriminate|lra|exact Hl'|exact Hle|]. apply bic_pen_lt; assumption.
Qed.
Print Assumptions C13_selected_simplest_at_no_larger_loss.

(* non-vacuity: concrete numbers satisfy the hypotheses of the monotonicity theorems, and a table on which
   best selects exists (one candidate; the RMSE criterion is always finite) *)
Example C13_nonvacuous_criterion :
  R_ext_ltb (R_selection_criteria C_BIC (24/100) 2 (1/2) 1000 365 3) (R_selection_criteria C_BIC (24/100) 2 1 1000 365 3) = true /\
  R_ext_ltb (R_selection_criteria C_BIC (24/100) 2 1 1000 365 1) (R_selection_criteria C_BIC (24/100) 2 1 1000 365 3) = true.
Proof.
  split; [apply C13_criterion_increasing_in_loss|apply C13_criterion_strict_in_coefficients]; lra.
Qed.

Example C13_nonvacuous_selected : forall base l,
  best (ext R) R_ext_ltb PInf (table C_RMSE 1 1 base (fun _ => l) ["fw-su_sh_wi"%string]) = Some "fw-su_sh_wi"%string.
Proof. intros base l. reflexivity. Qed.

(* ================================================================== the source text of the selection code
   Generated/SelectGen.v ([gen_tables]) is written on every run by harness/translate_select.py from the Python `ast`
   of _best_combination, _combination_selection_criteria, _get_error_metrics, neg_log_likelihood and
   selection_criteria.  Proofs/SelectProofs.v shows what tables equal to [reference_tables] mean (Model/SelectShape.v
   gives the meaning); here the regenerated tables are shown to BE the reference ([eq_refl]: the kernel compares the
   two values), so each theorem below speaks about today's source text: a source edit changes the generated file and
   breaks these obligations. *)
From Coq Require Import PrimFloat.
From V Require Import Model.SelectShape Proofs.SelectProofs Proofs.SelectRProofs Model.NumF Model.SelCritF Generated.SelectGen.

Theorem C13_source_tables_as_modelled : gen_tables = reference_tables.
Proof. exact eq_refl. Qed.
Print Assumptions C13_source_tables_as_modelled.

(* the loop of _best_combination, as written today (start from +inf, `new < incumbent` alone, both fields
   updated, nothing else, the name returned, over self.combinations), is the loop modelled by [best] *)
Theorem C13_selection_loop_as_coded :
  exists f : loop_fn, loop_model (t_loop gen_tables) = Some f /\
    forall A lt top l, f A lt top l = best A lt top l.
Proof. exact (reference_loop_is_best gen_tables eq_refl). Qed.
Print Assumptions C13_selection_loop_as_coded.

Theorem C13_coded_loop_is_argmin : forall f : loop_fn, loop_model (t_loop gen_tables) = Some f ->
  forall l s, f Splits.xr Splits.xlt Splits.XPosInf l = Some s ->
  exists c, In (s, c) l /\ c <> Splits.XNaN /\ c <> Splits.XPosInf /\ forall s' c', In (s', c') l -> Splits.xlt c' c = false.
Proof.
  intros f Hf l s H. destruct C13_selection_loop_as_coded as (g & Hg & Eg). rewrite Hf in Hg. injection Hg as <-.
  rewrite Eg in H. exact (C13_best_is_argmin l s H).
Qed.
Print Assumptions C13_coded_loop_is_argmin.

(* selection_criteria() rebuilt from the expressions of the source text (guards of neg_log_likelihood, df_penalized and
   its fallback, one expression per criterion, the normalisation rule) equals Model/SelCrit.v for every criterion
   type, every input and every numeric instance (reals and binary64 alike) *)
Theorem C13_coded_criterion_is_model : forall (N : num) x_ln x_sqrt x_pow two_pi tiny absorb ty c0 d0 loss tss n k,
  tables_criterion N x_ln x_sqrt x_pow two_pi tiny absorb gen_tables ty c0 d0 loss tss n k
  = selection_criteria N x_ln x_sqrt x_pow two_pi tiny absorb ty c0 d0 loss tss n k.
Proof. exact (fun N x_ln x_sqrt x_pow two_pi tiny absorb =>
                reference_criterion_is_model N x_ln x_sqrt x_pow two_pi tiny absorb gen_tables eq_refl). Qed.
Print Assumptions C13_coded_criterion_is_model.

(* wRMSE = sqrt(wSSE / N), loss = wRMSE / self.wRMSE_base, num_coeffs = len(components), and the order in which the
   seven arguments are passed and received *)
Theorem C13_coded_combination_expressions : forall (N : num) x_ln x_sqrt x_pow two_pi tiny (l base : list (cfit N)) (len : N),
  eval N x_ln x_sqrt x_pow two_pi tiny (env_wrmse N (sum_of N f_wsse l) (sum_of N f_n l)) (t_wrmse gen_tables) = wrmse N x_sqrt l /\
  eval N x_ln x_sqrt x_pow two_pi tiny (env_loss N (wrmse N x_sqrt l) (wrmse N x_sqrt base)) (t_loss gen_tables)
    = combo_loss N x_sqrt base l /\
  eval N x_ln x_sqrt x_pow two_pi tiny (env_len N "components"%string len) (t_num_coeffs gen_tables) = len /\
  t_components_src gen_tables = "combination.split('__')"%string /\
  t_call_args gen_tables = ["loss"; "TSS"; "N"; "num_coeffs"; "criteria_type"; "penalty_multiplier"; "penalty_power"]%string /\
  t_crit_args gen_tables = ["loss"; "TSS"; "N"; "num_coeffs"; "model_selection_criteria"; "penalty_multiplier"; "penalty_power"]%string.
Proof. exact (fun N x_ln x_sqrt x_pow two_pi tiny =>
                reference_expressions_are_model N x_ln x_sqrt x_pow two_pi tiny gen_tables eq_refl). Qed.
Print Assumptions C13_coded_combination_expressions.

Theorem C13_coded_constants_known : tables_consts_known gen_tables = true.
Proof. exact (reference_constants_known gen_tables eq_refl). Qed.
Print Assumptions C13_coded_constants_known.

(* hence the monotonicity theorems hold for the criterion as written in the source *)
Theorem C13_coded_criterion_increasing_in_loss : forall c0 d0 tss1 tss2 n k l1 l2, 0 < n -> l1 < l2 -> 0 < l2 ->
  R_ext_ltb (R_tables_criterion gen_tables C_BIC c0 d0 l1 tss1 n k) (R_tables_criterion gen_tables C_BIC c0 d0 l2 tss2 n k) = true.
Proof.
  intros. rewrite !(R_tables_criterion_reference gen_tables eq_refl).
  apply C13_criterion_increasing_in_loss; assumption.
Qed.
Print Assumptions C13_coded_criterion_increasing_in_loss.

Theorem C13_coded_criterion_increasing_in_coefficients : forall c0 d0 tss1 tss2 n loss k1 k2, 1 <= n -> 0 <= c0 -> k1 <= k2 ->
  R_ext_ltb (R_tables_criterion gen_tables C_BIC c0 d0 loss tss2 n k2) (R_tables_criterion gen_tables C_BIC c0 d0 loss tss1 n k1) = false.
Proof.
  intros. rewrite !(R_tables_criterion_reference gen_tables eq_refl).
  apply C13_criterion_increasing_in_coefficients; assumption.
Qed.
Print Assumptions C13_coded_criterion_increasing_in_coefficients.

(* non-vacuity: loops of another shape are not accepted as [best]; the rebuilt criterion runs (binary64 instance) and
   gives the model's number on a concrete input; the hypotheses of the monotonicity statement are satisfiable *)
Example C13_nonvacuous_other_loops :
  loop_model {| ls_init := InitPosInf; ls_iter := "self.combinations"; ls_crit_call := "self._combination_selection_criteria";
                ls_cmp := CmpLe; ls_new_on_left := true; ls_extra_conditions := 0; ls_updates_name := true;
                ls_updates_crit := true; ls_other_statements := 0; ls_returns_name := true |} = None /\
  loop_model {| ls_init := InitPosInf; ls_iter := "self.combinations"; ls_crit_call := "self._combination_selection_criteria";
                ls_cmp := CmpLt; ls_new_on_left := true; ls_extra_conditions := 1; ls_updates_name := true;
                ls_updates_crit := true; ls_other_statements := 0; ls_returns_name := true |} = None.
Proof. exact other_loops_are_not_best. Qed.

Example C13_nonvacuous_coded_criterion :
  tables_criterion FNum fln fsqrt fpow f_two_pi f_tiny f_absorb gen_tables C_BIC 0x1.eb851eb851eb8p-3%float 2%float
    0x1.999999999999ap-1%float 1000%float 365%float 3%float
  = f_selection_criteria C_BIC 0x1.eb851eb851eb8p-3%float 2%float 0x1.999999999999ap-1%float 1000%float 365%float 3%float /\
  (exists v, f_selection_criteria C_BIC 0x1.eb851eb851eb8p-3%float 2%float 0x1.999999999999ap-1%float 1000%float 365%float 3%float = Fin v) /\
  tables_criterion FNum fln fsqrt fpow f_two_pi f_tiny f_absorb gen_tables C_SABIC 1%float 2%float 0%float 1000%float 365%float 3%float = NInf.
Proof. split; [vm_compute; reflexivity|split; [eexists; vm_compute; reflexivity|vm_compute; reflexivity]]. Qed.

Example C13_nonvacuous_coded_monotone :
  R_ext_ltb (R_tables_criterion gen_tables C_BIC (24/100) 2 (1/2) 1000 365 3) (R_tables_criterion gen_tables C_BIC (24/100) 2 1 1000 365 3) = true.
Proof. apply C13_coded_criterion_increasing_in_loss; lra. Qed.
