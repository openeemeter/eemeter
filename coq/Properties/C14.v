(* C14 — approved-method settings are locked unless developer mode is explicit.
   The lemmas about arbitrary trees are in Proofs/SettingsProofs.v; the decision procedures over the regenerated
   trees (Generated/SettingsGen.v, rewritten from /repo by harness/translate_settings.py on every run) are in
   Proofs/SettingsGenProofs.v and are evaluated here by vm_compute; the model is Model/Settings.v.
   The sweeps over whole regenerated trees (constants, single overrides, reloads) and the validator programs come last. *)
From Coq Require Import ZArith QArith List Bool String.
From V Require Import Model.Settings Model.SettingsProg Generated.SettingsGen Proofs.SettingsProofs Proofs.SettingsGenProofs.
Import ListNotations.
Open Scope string_scope.

(* explicit witnesses (no existential variables under vm_compute) *)
Definition the (r : result sval) : sval := match r with Accept s => s | Reject _ => SLeaf JNull end.
Definition fields_of (s : sval) : list (string * sval) := match s with SObj _ f => f | SLeaf _ => [] end.

(* ================================================================== the lock *)
(* The full statement (the lock follows the declared classes): whatever the override document — dicts, nested dicts,
   settings objects of the declared class or of a subclass — an accepted construction without developer mode leaves every
   developer leaf of the tree, at every nesting level, at the tree's default.
   Any tree, any registry, any depth; by induction on the path through the tree. *)
Theorem C14_dev_lock :
  forall reg n d c o vs ch kvs gov f,
    In VDevMode vs ->
    vtop reg (Node n d c o vs ch) kvs = Accept (SObj gov f) ->
    get_leaf "developer_mode" f = Some (JBool false) ->
    forall path l v, leaf_at ch path = Some l -> ldev l = true -> value_at (SObj gov f) path = Some v ->
    jv_eqb v (ldefault l) = true.
Proof.
  intros reg n d c o vs ch kvs gov f Hin H Hdm path l v L D V.
  destruct (vtop_accept_inv _ _ _ _ _ _ _ _ _ H) as (f' & _ & FF & E). injection E as -> <-.
  pose proof (first_fail_devmode vs ch f Hin FF) as DM. unfold v_devmode in DM. rewrite Hdm in DM. cbn [truthy] in DM.
  destruct (check_dev ch f) eqn:C; [|discriminate].
  exact (check_dev_sound path ch ch f l v C L D V).
Qed.
Print Assumptions C14_dev_lock.

(* the lock is exact: it answers "developer mode is not enabled" only if some developer leaf of the tree, at some
   depth, does not hold its default — so a document that changes open fields only (season and weekday maps,
   uncertainty level, ...) is never refused by the lock.  By induction on the tree, for documents without object
   input; wf_children = field names unique, no optional nested object (checked on the regenerated trees below). *)
Theorem C14_lock_exact : forall reg n d c o vs ch kvs,
  wf_children ch = true -> no_inst_kvs kvs = true ->
  vtop reg (Node n d c o vs ch) kvs = Reject RDeveloper ->
  exists f path l v, vfields reg ch (norm_kvs kvs) = Some f /\
    leaf_at ch path = Some l /\ ldev l = true /\ value_at (SObj ch f) path = Some v /\ jv_eqb v (ldefault l) = false.
Proof.
  intros reg n d c o vs ch kvs WF Hn H.
  destruct (vtop_reject_inv _ _ _ _ _ _ _ _ _ H) as [[_ E]|(f & A & FF)]; [discriminate E|].
  pose proof (first_fail_developer vs ch f FF) as C.
  unfold wf_children in WF. apply andb_prop in WF as [W1 W2].
  assert (IH : Forall (lock_exact_at reg) ch) by (apply Forall_forall; intros; apply lock_exact_everywhere).
  destruct (check_dev_false_children reg ch (norm_kvs kvs) ch f IH W1 W2 (conj A (no_inst_norm_kvs kvs Hn)) C)
    as (path & l & v & L & D & V & E).
  exists f, path, l, v. exact (conj A (conj L (conj D (conj V E)))).
Qed.
Print Assumptions C14_lock_exact.

(* contrapositive, the shape the property text uses: a document that leaves every developer leaf at its default is
   never refused by the lock (whatever it does to the open fields) *)
Theorem C14_nondev_not_locked : forall reg n d c o vs ch kvs f,
  wf_children ch = true -> no_inst_kvs kvs = true ->
  vfields reg ch (norm_kvs kvs) = Some f ->
  (forall path l v, leaf_at ch path = Some l -> ldev l = true -> value_at (SObj ch f) path = Some v ->
                    jv_eqb v (ldefault l) = true) ->
  vtop reg (Node n d c o vs ch) kvs <> Reject RDeveloper.
Proof.
  intros reg n d c o vs ch kvs f WF Hn A All H.
  destruct (C14_lock_exact reg n d c o vs ch kvs WF Hn H) as (f' & path & l & v & A' & L & D & V & E).
  rewrite A in A'. inversion A'; subst f'. rewrite (All path l v L D V) in E. discriminate.
Qed.
Print Assumptions C14_nondev_not_locked.

(* "unless developer mode is explicit": the lock validator passes as soon as developer_mode is True *)
Theorem C14_explicit_developer_mode_unlocks : forall gov f,
  get_leaf "developer_mode" f = Some (JBool true) -> run_vid VDevMode gov f = None.
Proof. intros gov f H. cbn [run_vid]. unfold v_devmode. rewrite H. reflexivity. Qed.
Print Assumptions C14_explicit_developer_mode_unlocks.

(* non-vacuity: the lock does fire on the regenerated daily tree, two levels down, and the trees are well formed *)
Example C14_lock_exact_nonvacuous :
  vtop reg t_DailySettings [("split_selection", JObj [("penalty_power", JNum 3)])] = Reject RDeveloper /\
  (exists s, vtop reg t_DailySettings [("developer_mode", JBool true); ("split_selection", JObj [("penalty_power", JNum 3)])] = Accept s) /\
  wf_children children_DailySettings = true /\ wf_children children_DailyLegacySettings = true /\
  wf_children children_BillingSettings = true.
Proof.
  split; [vm_compute; reflexivity|]. split.
  - apply accepted. vm_compute. exact I.
  - split; [|split]; vm_compute; reflexivity.
Qed.

(* non-vacuity: a nested open override on the regenerated daily tree is accepted without developer mode and a
   developer leaf two levels down is reachable *)
Example C14_dev_lock_nonvacuous :
  exists f, vtop reg t_DailySettings [("Season", JObj [(" MARCH ", JStr "Winter ")])] = Accept (SObj children_DailySettings f) /\
            get_leaf "developer_mode" f = Some (JBool false) /\
            value_at (SObj children_DailySettings f) ["season"; "march"] = Some (JStr "winter") /\
            (exists l, leaf_at children_DailySettings ["split_selection"; "criteria"] = Some l /\ ldev l = true) /\
            In VDevMode [VDevMode; VAlphaFinal; VFinalBounds; VInitStep].
Proof.
  exists (fields_of (the (vtop reg t_DailySettings [("Season", JObj [(" MARCH ", JStr "Winter ")])]))).
  split; [vm_compute; reflexivity|]. split; [vm_compute; reflexivity|]. split; [vm_compute; reflexivity|].
  split; [|left; reflexivity].
  exists (match leaf_at children_DailySettings ["split_selection"; "criteria"] with Some l => l | None =>
            {| lname := ""; ldev := false; lty := {| base := BBool; optional := false |}; ldefault := JNull; lexcl := false; lreq := [] |} end).
  split; vm_compute; reflexivity.
Qed.

(* a settings object of the legacy subclass in the split_selection field of the daily tree changes six developer-only
   constants; it is refused by the lock — also when it is an object of the declared class with one developer leaf changed —
   and accepted in developer mode.
   Replayed on the implementation on every run (corpus/C14.json: must be REJECTED by the code). *)
Example C14_subclass_object_is_refused :
  vtop reg t_DailySettings [("split_selection", JInst "Split_Selection_Legacy_Definition" [])] = Reject RDeveloper /\
  vtop reg t_DailySettings [("split_selection", JInst "Split_Selection_Definition" [("criteria", JStr "aic")])] = Reject RDeveloper /\
  (exists s, vtop reg t_DailySettings [("split_selection", JInst "Split_Selection_Definition" [])] = Accept s) /\
  (exists s, vtop reg t_DailySettings [("developer_mode", JBool true);
                                       ("split_selection", JInst "Split_Selection_Legacy_Definition" [])] = Accept s /\
             value_at s ["split_selection"; "allow_separate_summer"] = Some (JBool false)).
Proof.
  split; [vm_compute; reflexivity|]. split; [vm_compute; reflexivity|]. split.
  - apply accepted. vm_compute. exact I.
  - apply accepted_with. vm_compute. reflexivity.
Qed.

(* ================================================================== normalisation *)
Theorem C14_normalise_idempotent : forall kvs, normalise_kvs (normalise_kvs kvs) = normalise_kvs kvs.
Proof. exact normalise_kvs_idempotent. Qed.
Print Assumptions C14_normalise_idempotent.

(* key case/whitespace at every nesting level and case/whitespace of string values never change the outcome
   (acceptance, rejection reason, settled values) of constructing a settings class — any tree, any registry *)
Theorem C14_case_whitespace_irrelevant : forall reg t kvs, vtop reg t (normalise_kvs kvs) = vtop reg t kvs.
Proof. intros reg t kvs. apply vtop_normalise, normalise_kvs_idempotent. Qed.
Print Assumptions C14_case_whitespace_irrelevant.

Example C14_case_whitespace_nonvacuous :
  let kvs := [("  Developer_Mode", JStr " TRUE "); ("SPLIT_selection ", JObj [(" Criteria", JStr " AIC ")])] in
  normalise_kvs kvs <> kvs /\
  exists s, vtop reg t_DailySettings kvs = Accept s /\ value_at s ["split_selection"; "criteria"] = Some (JStr "aic").
Proof.
  split; [vm_compute; discriminate|].
  apply accepted_with. vm_compute. reflexivity.
Qed.

(* ... but HourlyModel picks the settings class from the RAW key "train_features" before any normalisation
   (hourly/model.py:106-113): at the constructor level key case does matter there.  A fact about the code the
   statement of C14 does not forbid; kept visible, replayed by the correspondence (stream "multi"). *)
Theorem C14_hourly_dispatch_is_case_sensitive :
  exists kvs, construct reg CHourlyModel (InDict (normalise_kvs kvs)) <> construct reg CHourlyModel (InDict kvs).
Proof.
  exists [("Train_Features", JList [JStr "ghi"])]. intros E.
  (* the two settled objects differ in the field the class was picked by *)
  apply (f_equal (fun r => match r with Accept s => value_at s ["train_features"] | Reject _ => None end)) in E.
  vm_compute in E. discriminate E.
Qed.
Print Assumptions C14_hourly_dispatch_is_case_sensitive.

(* ================================================================== stored models *)
(* Full statement (kept visible): what a model records is what it was built with, and the record reloads to it.
   Refuted for the billing models only (C14_stored_billing_refuted); enumerated for the daily ones
   (C14_stored_reload_enumerated). *)
Definition C14_stored_statement (c : ctor) : Prop :=
  forall i s, construct reg c i = Accept s ->
    stored_settings c s = dump s /\
    exists s', reload reg c (stored_settings c s) = Accept s' /\ dump s' = dump s.

(* the record is the dump of the settings for every constructor but the two billing ones *)
Theorem C14_stored_is_built_partial : forall c s,
  c <> CBillingModel -> c <> CBillingWeighted -> stored_settings c s = dump s.
Proof. intros [] s H1 H2; try reflexivity; contradiction. Qed.
Print Assumptions C14_stored_is_built_partial.

(* on the regenerated trees: default and open-override documents of the current daily model reload to themselves *)
Example C14_stored_daily_reloads :
  forall i, In i [InNone; InDict [("uncertainty_alpha", JNum (1 # 4)); ("season", JObj [("march", JStr "winter")])];
                  InDict [("developer_mode", JBool true); ("alpha_selection", JNum 1)]] ->
  exists s s', construct reg (CDailyModel "current") i = Accept s /\
               reload reg (CDailyModel "current") (stored_settings (CDailyModel "current") s) = Accept s' /\
               jv_eqb (dump s') (dump s) = true.
Proof.
  intros i Hi. apply (constructed_and_reloaded reg _ i (fun s s' => jv_eqb (dump s') (dump s) = true)).
  destruct Hi as [<-|[<-|[<-|[]]]]; vm_compute; reflexivity.
Qed.

(* the legacy daily model: the record of a legacy model built WITHOUT developer mode is refused by the current settings
   class (the lock, against the current defaults) and from_dict then rebuilds it as DailyModel(model="legacy"): it reloads to
   the settings it was built with, and the lock has run against the legacy defaults.  The case is replayed on the
   implementation on every run (corpus/C14.json). *)
Theorem C14_stored_legacy_reloads :
  exists s s', construct reg (CDailyModel "legacy") InNone = Accept s /\
               developer_mode_of s = Some false /\
               construct reg (CDailyModel "current") (InDict (match dump s with JObj kvs => kvs | _ => [] end)) = Reject RDeveloper /\
               reload reg (CDailyModel "legacy") (stored_settings (CDailyModel "legacy") s) = Accept s' /\
               jv_eqb (dump s') (dump s) = true.
Proof.
  destruct (constructed_and_reloaded reg (CDailyModel "legacy") InNone (fun s s' =>
              developer_mode_of s = Some false /\
              construct reg (CDailyModel "current") (InDict (match dump s with JObj kvs => kvs | _ => [] end)) = Reject RDeveloper /\
              jv_eqb (dump s') (dump s) = true)) as (s & s' & B & R & D & C & E); [vm_compute; repeat split|].
  exists s, s'. exact (conj B (conj D (conj C (conj R E)))).
Qed.
Print Assumptions C14_stored_legacy_reloads.

(* refuted for the billing models: to_dict overwrites developer_mode (known findings C14-K3/K4) *)
Theorem C14_stored_billing_refuted :
  exists s s', construct reg CBillingModel InNone = Accept s /\
               jv_eqb (stored_settings CBillingModel s) (dump s) = false /\
               reload reg CBillingModel (stored_settings CBillingModel s) = Accept s' /\
               developer_mode_of s = Some false /\ developer_mode_of s' = Some true.
Proof.
  destruct (constructed_and_reloaded reg CBillingModel InNone (fun s s' =>
              jv_eqb (stored_settings CBillingModel s) (dump s) = false /\
              developer_mode_of s = Some false /\ developer_mode_of s' = Some true))
    as (s & s' & B & R & E & D & D'); [vm_compute; repeat split|].
  exists s, s'. exact (conj B (conj E (conj R (conj D D')))).
Qed.
Print Assumptions C14_stored_billing_refuted.

(* ================================================================== the constants (regenerated trees vs frozen list) *)
(* "Constructed without arguments, each model family uses exactly the approved method constants":
   the default of every leaf of every regenerated tree equals the frozen transcription
   /verif/approved_settings.json — same paths, same values *)
Theorem C14_defaults_are_approved : forall c, In c top_classes -> defaults_ok c = true.
Proof. apply lift_forallb. vm_cast_no_check (eq_refl true). Qed.
Print Assumptions C14_defaults_are_approved.

(* every approved constant of the daily / legacy / billing trees carries developer=True in the code exactly where
   the frozen list says "locked", every unlocked one is one of the documented open fields, and the root class
   runs the developer-mode check *)
Theorem C14_every_method_constant_is_dev_locked : forall c, In c locked_families -> locks_ok c = true.
Proof. apply lift_forallb. vm_cast_no_check (eq_refl true). Qed.
Print Assumptions C14_every_method_constant_is_dev_locked.

(* types, bounds and enum members of every field are the frozen ones (what "invalid value" means did not move) *)
Theorem C14_domains_are_approved : forall c, In c top_classes -> domains_ok c = true.
Proof. apply lift_forallb. vm_cast_no_check (eq_refl true). Qed.
Print Assumptions C14_domains_are_approved.

Example C14_constants_nonvacuous :
  In "DailySettings" locked_families /\ List.length (approved_of "DailySettings") = 48%nat /\
  leaf_at (children_of t_DailySettings) ["split_selection"; "penalty_power"] <> None.
Proof. split; [left; reflexivity|]. split; [vm_compute; reflexivity|]. vm_compute. discriminate. Qed.

(* exhaustive inside Coq, on the regenerated daily / legacy / billing trees: every leaf x every alternative of
   the model-side enumerator, one override, developer mode not given:
     developer leaf, value changes -> Reject RDeveloper (or Reject RField on a nested path);
     value the field cannot take -> Reject RField;
     open leaf, valid value         -> accepted and visible at that path (or refused by the season/weekday
                                       option rule, never by the lock) *)
Theorem C14_every_single_override : forall c, In c locked_families -> singles_ok c = true.
Proof.
  intros c Hc. apply singles_distinct_sound. revert c Hc. apply lift_forallb. vm_cast_no_check (eq_refl true).
Qed.
Print Assumptions C14_every_single_override.

(* the hourly trees carry no developer flag and run no lock: the lock statement is vacuous there *)
Theorem C14_hourly_trees_have_no_lock :
  forallb unlocked_ok ["BaseHourlySettings"; "HourlySolarSettings"; "HourlyNonSolarSettings"] = true.
Proof. vm_compute. reflexivity. Qed.
Print Assumptions C14_hourly_trees_have_no_lock.

(* build -> store -> reload, exhaustive inside Coq over every leaf x every model-side alternative (at most four
   members of a long enum; developer leaves overridden in developer mode, open leaves without it), on the regenerated
   trees: for the current daily model, DailyModel(model="legacy") and BillingModel every accepted construction reloads,
   and the reloaded settings dump to the record (for the billing model the record carries the forced developer_mode) *)
Theorem C14_stored_reload_enumerated :
  all_reloads_ok reg (CDailyModel "current") t_DailySettings = true /\
  all_reloads_ok reg (CDailyModel "legacy") t_DailyLegacySettings = true /\
  all_reloads_ok reg CBillingModel t_DailyLegacySettings = true.
Proof. split; [|split]; apply all_reloads_checked_sound; vm_cast_no_check (eq_refl true). Qed.
Print Assumptions C14_stored_reload_enumerated.

(* ================================================================== the validator bodies, from their source *)
(* for the proofs below: cbn must leave the comparisons of the specifications folded *)
Local Arguments String.eqb : simpl never.
Local Arguments Qle_bool : simpl never.
Local Arguments Qeq_bool : simpl never.
Local Arguments substring : simpl never.
(* harness/translate_settings.py compiles the python source (ast) of the daily-family model validators —
   DailySettings._check_developer_mode, _check_alpha_final, _check_final_bounds_scalar,
   _check_initial_step_percentage and Split_Selection_Definition._check_reduce_splits_num_std — into programs of
   Model/SettingsProg.v on every run (prog_V* in Generated/SettingsGen.v).  Each regenerated program computes, for
   EVERY field state in which the fields it reads hold values, exactly the hand-written specification that the
   theorems above and the correspondence use (run_vid): guard structure (developer_mode switches the lock off and
   nothing else does), order of the tests, thresholds (2, 0, 1/2, length 2, the "nlopt" prefix of 5 characters) and
   the None / float / str case split.  A source edit of a validator changes the program and breaks the obligation
   named after it.  By case analysis on the values (python truthiness and comparisons as in SettingsProg.v). *)
Theorem C14_lock_validator_as_specified : forall gov f,
  present ["developer_mode"; "silent_developer_mode"] f = true ->
  run_prog gov f prog_VDevMode = run_vid VDevMode gov f.
Proof.
  intros gov f P. unfold present in P. cbn [forallb] in P.
  unfold run_prog, prog_VDevMode. cbn [run_vid]. unfold v_devmode. cbn -[truthy check_dev].
  destruct (get_leaf "developer_mode" f) as [a|]; [|discriminate].
  destruct (get_leaf "silent_developer_mode" f) as [b|]; [|discriminate].
  destruct (truthy a); [destruct (truthy b); reflexivity|]. destruct (check_dev gov f); reflexivity.
Qed.
Print Assumptions C14_lock_validator_as_specified.

Theorem C14_alpha_final_validator_as_specified : forall gov f,
  present ["alpha_final"; "alpha_final_type"; "alpha_minimum"] f = true ->
  run_prog gov f prog_VAlphaFinal = run_vid VAlphaFinal gov f.
Proof.
  intros gov f P. unfold present in P. cbn [forallb] in P.
  unfold run_prog, prog_VAlphaFinal. cbn [run_vid]. unfold v_alpha_final. cbn.
  destruct (get_leaf "alpha_final" f) as [a|]; [|discriminate].
  destruct (get_leaf "alpha_final_type" f) as [b|]; [|discriminate].
  destruct (get_leaf "alpha_minimum" f) as [c|]; [|discriminate].
  clear P. destruct a as [| |q|s| | |]; cbn; try reflexivity.
  - destruct b; reflexivity.
  - destruct c as [| |m| | | |]; cbn; try reflexivity.
    destruct (Qlt_b q m); cbn; [reflexivity|]. destruct (Qlt_b 2 q); reflexivity.
  - destruct (String.eqb s "adaptive"); reflexivity.
Qed.
Print Assumptions C14_alpha_final_validator_as_specified.

Theorem C14_final_bounds_validator_as_specified : forall gov f,
  present ["final_bounds_scalar"; "alpha_final_type"] f = true ->
  run_prog gov f prog_VFinalBounds = run_vid VFinalBounds gov f.
Proof.
  intros gov f P. unfold present in P. cbn [forallb] in P.
  unfold run_prog, prog_VFinalBounds. cbn [run_vid]. unfold v_final_bounds. cbn.
  destruct (get_leaf "final_bounds_scalar" f) as [a|]; [|discriminate].
  destruct (get_leaf "alpha_final_type" f) as [b|]; [|discriminate].
  clear P. destruct a as [| |q| | | |]; cbn; try reflexivity.
  - destruct (is_null b); reflexivity.
  - destruct (Qle_bool q 0); cbn; [reflexivity|]. destruct (is_null b); reflexivity.
Qed.
Print Assumptions C14_final_bounds_validator_as_specified.

Theorem C14_initial_step_validator_as_specified : forall gov f,
  present ["initial_step_percentage"; "algorithm_choice"] f = true ->
  run_prog gov f prog_VInitStep = run_vid VInitStep gov f.
Proof.
  intros gov f P. unfold present in P. cbn [forallb] in P.
  unfold run_prog, prog_VInitStep. cbn [run_vid]. unfold v_init_step, starts_nlopt. cbn.
  destruct (get_leaf "initial_step_percentage" f) as [a|]; [|discriminate].
  destruct (get_leaf "algorithm_choice" f) as [b|]; [|discriminate].
  clear P. destruct a as [| |q| | | |]; cbn; try reflexivity.
  - destruct b as [| | |s| | |]; cbn; try reflexivity.
    destruct (String.eqb (substring 0 5 s) "nlopt"); reflexivity.
  - destruct (Qle_bool q 0); cbn; [reflexivity|]. destruct (Qlt_b (1 # 2) q); reflexivity.
Qed.
Print Assumptions C14_initial_step_validator_as_specified.

Theorem C14_reduce_std_validator_as_specified : forall gov f,
  present ["reduce_splits_num_std"] f = true ->
  run_prog gov f prog_VReduceStd = run_vid VReduceStd gov f.
Proof.
  intros gov f P. unfold present in P. cbn [forallb] in P.
  unfold run_prog, prog_VReduceStd. cbn [run_vid]. unfold v_reduce_std. cbn.
  destruct (get_leaf "reduce_splits_num_std" f) as [a|]; [|discriminate].
  clear P. destruct a as [| | | |l| |]; cbn; try reflexivity.
  destruct l as [|x [|y [|z r]]]; cbn; try reflexivity.
  destruct x as [| |p| | | |]; cbn; try reflexivity.
  destruct (Qle_bool p 0); cbn; [reflexivity|].
  destruct y as [| |q| | | |]; cbn; try reflexivity.
  destruct (Qle_bool q 0); reflexivity.
Qed.
Print Assumptions C14_reduce_std_validator_as_specified.

(* non-vacuity: on the fields of a real construction of the regenerated daily tree the reads are present, and the
   regenerated programs do raise / lock / pass on concrete states *)
Example C14_validator_programs_nonvacuous :
  let f := fields_of (the (vtop reg t_DailySettings [("developer_mode", JBool true)])) in
  present ["developer_mode"; "silent_developer_mode"; "alpha_final"; "alpha_final_type"; "alpha_minimum";
           "final_bounds_scalar"; "initial_step_percentage"; "algorithm_choice"] f = true /\
  run_prog children_DailySettings f prog_VAlphaFinal = None /\
  run_prog [] [("alpha_final", SLeaf (JNum 3)); ("alpha_final_type", SLeaf (JStr "last")); ("alpha_minimum", SLeaf (JNum (-100)))]
           prog_VAlphaFinal = Some RCross /\
  run_prog [] [("initial_step_percentage", SLeaf JNull); ("algorithm_choice", SLeaf (JStr "nlopt_sbplx"))] prog_VInitStep = Some RCross /\
  run_prog [] [("reduce_splits_num_std", SLeaf (JList [JNum 1]))] prog_VReduceStd = Some RCross /\
  run_prog children_DailySettings
           (match vfields reg children_DailySettings [("alpha_selection", JNum 1)] with Some f' => f' | None => [] end) prog_VDevMode = Some RDeveloper.
Proof. repeat (split; [vm_compute; reflexivity|]). vm_compute. reflexivity. Qed.
