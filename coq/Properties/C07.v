(* C07 — observed and predicted usage are masked together so savings sums are unbiased.
   The lemmas about the model (Model/Rows.v) are in Proofs/RowsProofs.v; a theorem whose lemma would have no other user is
   proved here, the others are `exact` of the lemma they restate.
   [predict_rows f pol has_obs rows] is DailyModel._predict (also used by BillingModel.predict); [f] is the
   sub-model curve (any function of segment and temperature), [pol] the effect of the masking statement:
     MaskOff            chained assignment, no effect (defect D8 of DESIGN.md)
     MaskMissingTemp    the literal one-line repair (.loc[temperature.isna()])
     MaskNonFiniteTemp  .loc[~isfinite(temperature)]  (/verif/proposed-fixes/C07-1.diff)
     MaskDropped        observed masked on every row without prediction
   The statement is a theorem for MaskDropped without any guard and for MaskNonFiniteTemp over the property's quantifier
   (usage a number or missing: the theorems named _q); it is refuted for the other two.  Theorems named _partial hold
   under a stated guard on the input rows, _guard_exact says the guard is necessary.  F2, F3 are the findings C07-F2, C07-F3
   of /verif/known_findings.json and /verif/known_findings.d/C07.json.
   The check (harness/c07.py) detects which of the four the implementation has, runs the model in that mode and
   reads from C07_mode_verdict whether the statement is a theorem or refuted for it. *)
From Coq Require Import ZArith QArith List Bool Permutation Sorted.
From V Require Import Model.Rows Model.RowsRun Proofs.ListFacts Proofs.RowsProofs.
Import ListNotations.

(* ---- the full statement, for a given masking behaviour ---- *)
Definition C07_statement (pol : mask_policy) : Prop :=
  forall (f : Z -> Q -> Q) (rows : list (row Q)),
    let out := predict_rows f pol true rows in
    both_or_neither out /\
    nansum (map (@o_pred Q) out) - nansum (map (@o_obs Q) out) == nansum (map savings out).

(* the same over the property's quantifier ("any pattern of missing/non-finite temperature and missing usage"):
   temperature cells are arbitrary (finite, NaN, +-inf), usage cells are a number or missing, never +-inf *)
Definition usage_missing_or_finite (rows : list (row Q)) : Prop := forall r, In r rows -> no_inf (obs r) = true.
Definition C07_statement_q (pol : mask_policy) : Prop :=
  forall (f : Z -> Q -> Q) (rows : list (row Q)), usage_missing_or_finite rows ->
    let out := predict_rows f pol true rows in
    both_or_neither out /\
    nansum (map (@o_pred Q) out) - nansum (map (@o_obs Q) out) == nansum (map savings out).

(* ---- MaskNonFiniteTemp: observed masked where the temperature is not finite ---- *)
Theorem C07_statement_q_nonfinite_temp_repair : C07_statement_q MaskNonFiniteTemp.
Proof.
  intros f rows H out.
  assert (B : both_or_neither out).
  { (* an incomplete row with a finite temperature has lost its usage value: it is NaN or, outside the quantifier, +-inf *)
    apply input_guard_sufficient. intros r Hin Hc. cbn [mask_obs].
    destruct (finite (temp r)) eqn:E; [|reflexivity].
    unfold complete in Hc. rewrite E in Hc. cbn [andb negb orb] in Hc.
    specialize (H r Hin). destruct (obs r); cbn in *; congruence. }
  split; [exact B | apply sums_agree_predict_rows; exact B].
Qed.
Print Assumptions C07_statement_q_nonfinite_temp_repair.

(* its guard is exact: under this policy an infinite usage value on a day with a temperature still breaks the row-wise
   statement (finding F3, outside the property's quantifier) *)
Theorem C07_nonfinite_temp_repair_guard_exact : forall (A : Type) (f : Z -> A -> A) rows, NoDup (map (@ts A) rows) ->
  both_or_neither (predict_rows f MaskNonFiniteTemp true rows) ->
  forall r, In r rows -> finite (temp r) = true -> no_inf (obs r) = true.
Proof.
  intros A f rows Hnd H r Hin Ht. destruct (complete true r) eqn:Hc.
  - unfold complete in Hc. rewrite Ht in Hc. destruct (obs r); cbn in *; congruence.
  - pose proof (input_guard_necessary f _ rows Hnd H r Hin Hc) as Hm. cbn [mask_obs] in Hm. rewrite Ht in Hm.
    destruct (obs r); cbn in *; congruence.
Qed.
Print Assumptions C07_nonfinite_temp_repair_guard_exact.

Definition f3_witness : list (row Q) := [mkrow 0%Z 0%Z (V 50) PInf].
Theorem C07_unguarded_statement_refuted_nonfinite_temp_repair : ~ C07_statement MaskNonFiniteTemp.
Proof.
  intros H. destruct (H (fun _ t => t) f3_witness) as [H1 _].
  inversion H1 as [|? ? H2 _]; subst. vm_compute in H2. discriminate.
Qed.
Print Assumptions C07_unguarded_statement_refuted_nonfinite_temp_repair.

(* ---- MaskDropped: with observed masked on every row without prediction the statement is a theorem without any guard ---- *)
Theorem C07_both_or_neither : forall (A : Type) (f : Z -> A -> A) rows,
  both_or_neither (predict_rows f MaskDropped true rows).
Proof. intros A f rows. apply input_guard_sufficient. intros r _ _. reflexivity. Qed.
Print Assumptions C07_both_or_neither.

Theorem C07_statement_repaired : C07_statement MaskDropped.
Proof.
  intros f rows out. pose proof (C07_both_or_neither Q f rows) as B.
  split; [exact B | apply sums_agree_predict_rows; exact B].
Qed.
Print Assumptions C07_statement_repaired.

(* "consequently": for ANY returned frame, columns present on the same rows => separate sums = row-wise sum *)
Theorem C07_sums_agree : forall out : list (orow Q),
  both_or_neither out -> Forall (fun o => row_no_inf o = true) out ->
  nansum (map (@o_pred Q) out) - nansum (map (@o_obs Q) out) == nansum (map savings out).
Proof. exact sums_agree. Qed.
Print Assumptions C07_sums_agree.

(* for every masking behaviour: the row-wise half of the statement holds exactly when no dropped row keeps an observed value *)
Theorem C07_both_or_neither_iff : forall (A : Type) (f : Z -> A -> A) pol rows,
  both_or_neither (predict_rows f pol true rows) <->
  (forall r, In r (dropped_of A true rows) -> notna (mask_obs pol r) = false).
Proof. exact @both_or_neither_iff. Qed.
Print Assumptions C07_both_or_neither_iff.

(* ---- MaskOff (D8) ---- *)
(* refuted: one day with usage and no temperature keeps its observed value and gets no prediction *)
Definition d8_witness : list (row Q) := [mkrow 0%Z 0%Z NaN (V (451 # 10))].
Lemma d8_witness_unmasked : ~ both_or_neither (predict_rows (fun (_ : Z) (t : Q) => t) MaskOff true d8_witness).
Proof. intros H. inversion H as [|? ? H1 _]; subst. vm_compute in H1. discriminate. Qed.

Theorem C07_both_or_neither_refuted :
  exists (f : Z -> Q -> Q) rows, ~ both_or_neither (predict_rows f MaskOff true rows).
Proof. exists (fun _ t => t), d8_witness. exact d8_witness_unmasked. Qed.
Print Assumptions C07_both_or_neither_refuted.

Theorem C07_statement_refuted_as_coded : ~ C07_statement MaskOff.
Proof.
  intros H. destruct (H (fun _ t => t) d8_witness) as [H1 _]. exact (d8_witness_unmasked H1).
Qed.
Print Assumptions C07_statement_refuted_as_coded.

(* and the sums are then biased: a second day (complete, predicted 60, observed 50) plus the witness day *)
Theorem C07_sums_biased_refuted :
  exists (f : Z -> Q -> Q) rows, let out := predict_rows f MaskOff true rows in
    ~ nansum (map (@o_pred Q) out) - nansum (map (@o_obs Q) out) == nansum (map savings out).
Proof.
  exists (fun _ t => t), (mkrow 1%Z 0%Z (V 60) (V 50) :: d8_witness). vm_compute. intros H. discriminate.
Qed.
Print Assumptions C07_sums_biased_refuted.

(* the witness lies inside the property's quantifier (its usage value is a number) *)
Theorem C07_statement_q_refuted_as_coded : ~ C07_statement_q MaskOff.
Proof.
  intros H. destruct (H (fun _ t => t) d8_witness) as [H1 _].
  - intros r [E|[]]; subst r; reflexivity.
  - exact (d8_witness_unmasked H1).
Qed.
Print Assumptions C07_statement_q_refuted_as_coded.

(* MaskMissingTemp is refuted inside the quantifier too: +-inf temperature (finding F2) *)
Definition f2_witness : list (row Q) := [mkrow 0%Z 0%Z PInf (V (451 # 10))].
Theorem C07_statement_q_refuted_missing_temp_repair : ~ C07_statement_q MaskMissingTemp.
Proof.
  intros H. destruct (H (fun _ t => t) f2_witness) as [H1 _].
  - intros r [E|[]]; subst r; reflexivity.
  - inversion H1 as [|? ? H2 _]; subst. vm_compute in H2. discriminate.
Qed.
Print Assumptions C07_statement_q_refuted_missing_temp_repair.

(* ---- verdict per masking behaviour: the check evaluates [mode_satisfies_statement] on the behaviour it observed ---- *)
Theorem C07_mode_verdict : forall pol, C07_statement_q pol <-> mode_satisfies_statement pol = true.
Proof.
  intros pol. destruct pol; cbn [mode_satisfies_statement]; split; intros H; try reflexivity; try discriminate.
  - exfalso. exact (C07_statement_q_refuted_as_coded H).
  - exfalso. exact (C07_statement_q_refuted_missing_temp_repair H).
  - exact C07_statement_q_nonfinite_temp_repair.
  - intros f rows _. exact (C07_statement_repaired f rows).
Qed.
Print Assumptions C07_mode_verdict.

(* partial: MaskOff satisfies the row-wise statement under exactly this guard *)
Theorem C07_both_or_neither_partial : forall (A : Type) (f : Z -> A -> A) rows,
  (forall r, In r rows -> complete true r = false -> notna (obs r) = false) ->
  both_or_neither (predict_rows f MaskOff true rows).
Proof. intros A f. exact (input_guard_sufficient f MaskOff). Qed.
Print Assumptions C07_both_or_neither_partial.

Theorem C07_partial_guard_exact : forall (A : Type) (f : Z -> A -> A) rows, NoDup (map (@ts A) rows) ->
  both_or_neither (predict_rows f MaskOff true rows) ->
  forall r, In r rows -> complete true r = false -> notna (obs r) = false.
Proof. intros A f. exact (input_guard_necessary f MaskOff). Qed.
Print Assumptions C07_partial_guard_exact.

(* the literal one-line repair (mask where temperature.isna()) still needs a guard: +-inf cells *)
Theorem C07_missing_temp_repair_partial : forall (A : Type) (f : Z -> A -> A) rows,
  (forall r, In r rows -> complete true r = false -> notna (temp r) = true -> notna (obs r) = false) ->
  both_or_neither (predict_rows f MaskMissingTemp true rows).
Proof.
  intros A f rows H. apply input_guard_sufficient. intros r Hin Hc. cbn [mask_obs].
  destruct (notna (temp r)) eqn:E; [apply H; assumption | reflexivity].
Qed.
Print Assumptions C07_missing_temp_repair_partial.

(* ---- holds for every masking behaviour ---- *)
Theorem C07_missing_usage_gets_no_prediction : forall (A : Type) (f : Z -> A -> A) pol rows o,
  In o (predict_rows f pol true rows) -> notna (o_obs o) = false -> o_pred o = NaN.
Proof.
  intros A f pol rows. refine (predict_rows_cases f pol true rows _ _ _).
  - intros r _ Hc Hn. rewrite (finite_notna _ (kept_observed f r Hc)) in Hn. discriminate.
  - intros r _ _. reflexivity.
Qed.
Print Assumptions C07_missing_usage_gets_no_prediction.

Theorem C07_missing_temperature_gets_no_prediction : forall (A : Type) (f : Z -> A -> A) pol has_obs rows o,
  In o (predict_rows f pol has_obs rows) -> finite (o_temp o) = false -> o_pred o = NaN.
Proof.
  intros A f pol has_obs rows. refine (predict_rows_cases f pol has_obs rows _ _ _).
  - intros r _ Hc Hn. destruct (complete_temp _ _ Hc) as [t Ht].
    cbn [predict_kept o_temp] in Hn. rewrite Ht in Hn. discriminate.
  - intros r _ _. reflexivity.
Qed.
Print Assumptions C07_missing_temperature_gets_no_prediction.

Theorem C07_prediction_only_on_complete_rows : forall (A : Type) (f : Z -> A -> A) pol has_obs rows o,
  In o (predict_rows f pol has_obs rows) -> notna (o_pred o) = true ->
  exists r, In r rows /\ complete has_obs r = true /\ o = predict_kept f has_obs r.
Proof. exact @predicted_is_complete. Qed.
Print Assumptions C07_prediction_only_on_complete_rows.

(* ---- the public entry point: the data class of the object handed to predict() is not an input of the pipeline ---- *)
(* DailyReportingData or DailyBaselineData (billing: BillingReportingData or BillingBaselineData): the same frame gives
   the same rows, so the statement holds for a baseline-class object exactly when it holds for a reporting-class one *)
Theorem C07_output_depends_on_frame_only : forall (A : Type) (f : Z -> A -> A) pol dc1 dc2 has_obs rows,
  predict_public f pol dc1 has_obs rows = predict_public f pol dc2 has_obs rows.
Proof. reflexivity. Qed.
Print Assumptions C07_output_depends_on_frame_only.

Theorem C07_statement_q_every_data_class : forall pol, mode_satisfies_statement pol = true ->
  forall dc (f : Z -> Q -> Q) rows, usage_missing_or_finite rows ->
    let out := predict_public f pol dc true rows in
    both_or_neither out /\
    nansum (map (@o_pred Q) out) - nansum (map (@o_obs Q) out) == nansum (map savings out).
Proof. intros pol H dc f rows Hr. apply (proj2 (C07_mode_verdict pol) H f rows Hr). Qed.
Print Assumptions C07_statement_q_every_data_class.

(* ---- row accounting: concat + sort returns one row per input label, in index order ---- *)
Theorem C07_one_row_per_label : forall (A : Type) (f : Z -> A -> A) pol has_obs rows,
  NoDup (map (@ts A) rows) ->
  Permutation (map (@o_ts A) (predict_rows f pol has_obs rows)) (map (@ts A) rows) /\
  LocallySorted (key_le (@o_ts A)) (predict_rows f pol has_obs rows).
Proof.
  intros A f pol has_obs rows Hnd. rewrite predict_rows_eq. split; [|apply sort_by_sorted].
  rewrite (dropped_is_filter has_obs rows Hnd).
  eapply Permutation_trans; [apply Permutation_map; apply sort_by_perm|].
  (* both halves carry the labels of their input rows, and together those are the sorted rows split by [complete] *)
  rewrite map_app, !map_map. cbn [predict_kept carry_dropped o_ts]. rewrite <- map_app.
  eapply Permutation_trans; [apply Permutation_map; apply filter_split_perm|].
  apply Permutation_map. apply sort_by_perm.
Qed.
Print Assumptions C07_one_row_per_label.

Theorem C07_rows_come_from_input : forall (A : Type) (f : Z -> A -> A) pol rows o,
  In o (predict_rows f pol true rows) ->
  exists r, In r rows /\ o_ts o = ts r /\ o_temp o = temp r /\ (o_obs o = obs r \/ o_obs o = NaN).
Proof.
  intros A f pol rows. apply predict_rows_cases.
  - intros r Hr _. exists r. cbn. tauto.
  - intros r Hr. apply dropped_In in Hr. exists r. cbn [carry_dropped o_ts o_temp o_obs out_obs].
    repeat split; try tauto.
    destruct pol; cbn [mask_obs]; auto; [destruct (notna (temp r)) | destruct (finite (temp r))]; auto.
Qed.
Print Assumptions C07_rows_come_from_input.

(* ---- non-vacuity: a frame with every kind of row, under three policies: MaskDropped returns what the statement asks;
   MaskNonFiniteTemp does on the first four rows (the fifth, an infinite usage value, is the F3 case outside the
   quantifier); MaskOff leaves rows 1, 4 and 5 with usage and no prediction ---- *)
Definition ex_rows : list (row Q) :=
  [ mkrow 3%Z 0%Z (V 40) (V 10);          (* complete *)
    mkrow 1%Z 0%Z NaN (V 12);             (* usage, no temperature  -> masked by the repair *)
    mkrow 2%Z 0%Z (V 50) NaN;             (* temperature, no usage  -> no prediction *)
    mkrow 4%Z 0%Z PInf (V 15);            (* non-finite temperature *)
    mkrow 5%Z 0%Z (V 55) NInf ].          (* non-finite usage *)
Example C07_nonvacuous_repaired :
  map (fun o => (o_ts o, notna (o_obs o), notna (o_pred o))) (predict_rows (fun _ t => t + 1) MaskDropped true ex_rows)
  = [(1, false, false); (2, false, false); (3, true, true); (4, false, false); (5, false, false)]%Z
  /\ NoDup (map (@ts Q) ex_rows).
Proof. split; [vm_compute; reflexivity | repeat constructor; cbn; intuition discriminate]. Qed.
Example C07_nonvacuous_nonfinite_temp_repair :
  map (fun o => (o_ts o, notna (o_obs o), notna (o_pred o))) (predict_rows (fun _ t => t + 1) MaskNonFiniteTemp true ex_rows)
  = [(1, false, false); (2, false, false); (3, true, true); (4, false, false); (5, true, false)]%Z
  /\ usage_missing_or_finite (firstn 4 ex_rows) /\ length (dropped_of Q true (firstn 4 ex_rows)) = 3%nat.
Proof.
  split; [vm_compute; reflexivity | split; [|vm_compute; reflexivity]].
  intros r [E|[E|[E|[E|[]]]]]; subst r; reflexivity.
Qed.
Example C07_nonvacuous_as_coded :
  map (fun o => (o_ts o, notna (o_obs o), notna (o_pred o))) (predict_rows (fun _ t => t + 1) MaskOff true ex_rows)
  = [(1, true, false); (2, false, false); (3, true, true); (4, true, false); (5, true, false)]%Z.
Proof. vm_compute. reflexivity. Qed.
(* the guard of the partial theorem is satisfiable by a frame that does drop rows *)
Example C07_partial_guard_satisfiable :
  let rows := [mkrow 1%Z 0%Z (V 40) (V 10); mkrow 2%Z 0%Z NaN NaN; mkrow 3%Z 0%Z (V 50) NaN] in
  (forall r, In r rows -> complete true r = false -> notna (obs r) = false) /\
  length (dropped_of Q true rows) = 2%nat.
Proof.
  split; [|vm_compute; reflexivity].
  intros r [E|[E|[E|[]]]] H; subst r; cbn in *; congruence.
Qed.
