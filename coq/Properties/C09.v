(* C09 — daily temperature is the local-day mean of the hourly temperatures.
   The model is Model/TempAgg.v (exact rationals, time in whole UTC minutes; the meter index - one stamp per meter day:
   local midnights or the meter's own reading hour - is data, so 23-, 24- and 25-hour days and meter days that start at
   06:00 are covered by the same theorems); the lemmas about it are in Proofs/TempAggProofs.v.
   Vocabulary: group tol lo hi temps = the readings merge_asof matches to the meter day that starts at lo and is closed
   by hi; agg = (mean of the present readings, number present, number absent) with the whole row blank when nothing is
   present; day_reference = the property's value of a day: mean of the present readings, missing when half or fewer
   are present.  A comment that opens with a name and a colon (half_rule: ...) gives the name under which DESIGN.md,
   section 5, lists the theorem. *)
From Coq Require Import ZArith QArith List Bool Lia.
From V Require Import Model.Resample Model.Cmp Model.TempAgg Generated.TempAggGen Proofs.ResampleProofs Proofs.TempAggProofs Proofs.TempAggGenProofs.
Import ListNotations.
Open Scope Z_scope.

(* ---- A. hourly feed ---- *)

(* day matching: the readings of the meter day [lo, hi) are exactly those stamped in it *)
Theorem C09_matching_groups : forall tol lo hi temps r,
  In r (group tol lo hi temps) <->
  In r temps /\ lo <= stamp r /\ (forall h, hi = Some h -> stamp r < h) /\ (forall d, tol = Some d -> stamp r - lo <= d).
Proof.
  intros tol lo hi temps r. unfold group. rewrite filter_In. unfold in_group.
  rewrite !andb_true_iff, Z.leb_le. split.
  - intros (Hin & (H1 & H2) & H3). repeat split; try assumption.
    + intros h ->. apply Z.ltb_lt. exact H2.
    + intros d ->. apply Z.leb_le. exact H3.
  - intros (Hin & H1 & H2 & H3). repeat split; try assumption.
    + destruct hi as [h|]; [apply Z.ltb_lt; apply H2; reflexivity|reflexivity].
    + destruct tol as [d|]; [apply Z.leb_le; apply H3; reflexivity|reflexivity].
Qed.
Print Assumptions C09_matching_groups.

Theorem C09_groups_disjoint : forall tol lo hi lo' hi' temps r, hi = Some lo' ->
  In r (group tol lo hi temps) -> ~ In r (group tol lo' hi' temps).
Proof.
  intros tol lo hi lo' hi' temps r -> H1 H2.
  apply C09_matching_groups in H1. apply C09_matching_groups in H2.
  destruct H1 as (_ & _ & Hlt & _). destruct H2 as (_ & Hge & _). specialize (Hlt lo' eq_refl). lia.
Qed.
Print Assumptions C09_groups_disjoint.

Theorem C09_present_plus_absent : forall g, n_present g + n_absent g = zlen g.
Proof.
  unfold n_present, n_absent, zlen. induction g as [|r g IH]; [reflexivity|].
  cbn [filter]. destruct (is_some (rval r)); cbn [negb length]; lia.
Qed.
Print Assumptions C09_present_plus_absent.

(* hourly_day_mean + counts_exact: a day with at least one present reading carries the mean of its present readings
   and the exact numbers of present and absent readings *)
Theorem C09_hourly_day_mean_and_counts : forall g, 0 < n_present g ->
  t_mean (agg g) = Some (qsum (present g) / inject_Z (n_present g))%Q /\
  t_notnull (agg g) = Some (n_present g) /\ t_null (agg g) = Some (n_absent g).
Proof.
  intros g H. rewrite agg_present by (rewrite present_nil_iff; lia).
  cbn [t_mean t_notnull t_null]. rewrite present_length. pose proof (C09_present_plus_absent g).
  repeat split. f_equal. lia.
Qed.
Print Assumptions C09_hourly_day_mean_and_counts.

(* a day without a single present reading: the row is blank, counts included ... *)
Theorem C09_all_missing_day_is_blank : forall g, n_present g = 0 -> agg g = blank.
Proof. intros g H. apply present_nil_iff in H. unfold agg. rewrite H. reflexivity. Qed.
Print Assumptions C09_all_missing_day_is_blank.

(* ... which the sufficiency test (not_null / (not_null + null) > 1/2, NaN compares false) reads like the exact
   counts (0, n): an invalid temperature day *)
Theorem C09_blank_row_is_invalid_day :
  valid_temperature_day blank = false /\ forall m n, 0 <= n -> valid_temperature_day (mkT m (Some 0) (Some n)) = false.
Proof. split; [reflexivity|]. intros m n Hn. unfold valid_temperature_day, total. cbn. apply Z.ltb_ge. lia. Qed.
Print Assumptions C09_blank_row_is_invalid_day.

(* half_rule: after the half rule of the daily class the row of a day with readings g carries exactly the property's
   value: the mean of the present ones when more than half are present, missing otherwise *)
Theorem C09_half_rule : forall g m2, t_mean (after_half false m2 (agg g)) = day_reference g.
Proof.
  intros g m2. rewrite after_half_agg. cbn [andb]. rewrite orb_false_r. unfold day_reference. rewrite present_length.
  destruct (2 * n_present g <=? zlen g) eqn:E; [reflexivity|].
  apply C09_hourly_day_mean_and_counts. apply Z.leb_gt in E. unfold zlen in E. lia.
Qed.
Print Assumptions C09_half_rule.

(* the rule is applied to every row when the feed is recognised as sub-daily: median of the per-day totals above 1 *)
Theorem C09_half_rule_applies : forall billing rows m2,
  median2 (somes (map total rows)) = Some m2 -> 2 < m2 -> apply_half billing rows = map (after_half billing m2) rows.
Proof.
  intros billing rows m2 Hm H. unfold apply_half. rewrite Hm.
  assert (2 <? m2 = true) as -> by (apply Z.ltb_lt; exact H). reflexivity.
Qed.
Print Assumptions C09_half_rule_applies.

Theorem C09_half_rule_keeps_counts : forall billing rows,
  map t_notnull (apply_half billing rows) = map t_notnull rows /\ map t_null (apply_half billing rows) = map t_null rows.
Proof.
  intros billing rows. unfold apply_half. destruct (median2 (somes (map total rows))) as [m2|]; [|split; reflexivity].
  destruct (2 <? m2); [|split; reflexivity]. rewrite !map_map.
  split; apply map_ext; intros r; destruct (invalid_row billing m2 r); reflexivity.
Qed.
Print Assumptions C09_half_rule_keeps_counts.

(* the billing class blanks more: also days with not_null <= median / 2 (m2 = twice the median of the day totals), so a
   day with more than half of its readings present can lose its value (C09_nonvacuous_generated: 12 of 23, m2 = 48) *)
Theorem C09_half_rule_billing : forall g m2, 0 < n_present g ->
  t_mean (after_half true m2 (agg g)) =
  if (2 * n_present g <=? zlen g) || (4 * n_present g <=? m2) then None else t_mean (agg g).
Proof. intros g m2 _. apply after_half_agg. Qed.
Print Assumptions C09_half_rule_billing.

(* the class' rows: one per meter day; day j is closed by day j+1, the last one by its start + 24 elapsed hours *)
Theorem C09_hourly_rows : forall billing tol midx temps out,
  hourly_path billing tol midx temps = TRows out -> midx <> [] ->
  out = apply_half billing
          (map (fun p => agg (group tol (fst p) (Some (snd p)) temps)) (pairs (midx ++ [last midx 0 + 1440]))).
Proof.
  intros billing tol midx temps out H Hne. unfold hourly_path in H.
  destruct midx as [|m rest]; [congruence|]. cbv zeta in H.
  rewrite rows_for_pairs in H.
  destruct (forallb _ _) in H; [discriminate|]. injection H as <-. reflexivity.
Qed.
Print Assumptions C09_hourly_rows.

Theorem C09_one_row_per_meter_day : forall billing tol midx temps out,
  hourly_path billing tol midx temps = TRows out -> length out = length midx.
Proof.
  intros billing tol midx temps out H. destruct midx as [|m rest] eqn:E.
  - unfold hourly_path in H. injection H as <-. reflexivity.
  - rewrite <- E in *. assert (midx <> []) as Hne by (rewrite E; discriminate).
    rewrite (C09_hourly_rows _ _ _ _ _ H Hne).
    rewrite <- (map_length t_notnull (apply_half _ _)), (proj1 (C09_half_rule_keeps_counts _ _)), !map_length.
    rewrite pairs_length, app_length. cbn [length]. lia.
Qed.
Print Assumptions C09_one_row_per_meter_day.

(* offset_invariance: only the timing of the feed relative to the meter days matters - moving both by the same
   duration (the same site seen at another UTC offset) gives the same rows *)
Theorem C09_offset_invariance : forall billing tol d midx temps,
  hourly_path billing tol (map (fun x => x + d) midx) (shift d temps) = hourly_path billing tol midx temps.
Proof.
  intros billing tol d midx temps. destruct midx as [|m rest]; [reflexivity|].
  assert (map (fun x => x + d) (m :: rest) ++ [last (map (fun x => x + d) (m :: rest)) 0 + 1440] =
          map (fun x => x + d) ((m :: rest) ++ [last (m :: rest) 0 + 1440])) as E.
  { cbn [map]. rewrite !last_cons, (last_map (fun x => x + d)), map_app. cbn [map app]. do 3 f_equal. lia. }
  unfold hourly_path.
  change (map (fun x => x + d) (m :: rest)) with (m + d :: map (fun x => x + d) rest) at 1.
  cbv iota zeta. rewrite E, rows_for_shift. reflexivity.
Qed.
Print Assumptions C09_offset_invariance.

(* ---- B. other feeds (30-minute, 15-minute, ...) ---- *)

(* the day mean as_freq(instantaneous) computes over the 1-minute grid is, for aligned readings of one common
   length, the plain mean of the readings present in the day - whatever the length of the day *)
Theorem C09_inst_mean_is_mean_of_present : forall lo hi ivs step, lo <= hi -> 0 < step -> no_straddle lo hi ivs ->
  (forall iv, In iv ivs -> inside lo hi iv = true -> ihi iv = ilo iv + step) ->
  0 < n_present_in lo hi ivs ->
  oq_eq (inst_mean lo hi ivs) (Some (readings_in lo hi ivs / inject_Z (n_present_in lo hi ivs))%Q).
Proof.
  intros lo hi ivs step _ Hstep Hn Hreg Hk. unfold inst_mean.
  rewrite (bucket_count_regular lo hi ivs step Hn Hreg).
  destruct (step * n_present_in lo hi ivs =? 0) eqn:E; [apply Z.eqb_eq in E; nia|].
  cbn [oq_eq]. rewrite (inst_sum_regular lo hi ivs step Hn Hreg). rewrite inject_Z_mult.
  field. split; apply inject_Z_nonzero; lia.
Qed.
Print Assumptions C09_inst_mean_is_mean_of_present.

(* ... and its coverage is the share of the day's minutes held by present readings *)
Theorem C09_inst_coverage : forall lo hi ivs step, lo < hi -> no_straddle lo hi ivs ->
  (forall iv, In iv ivs -> inside lo hi iv = true -> ihi iv = ilo iv + step) ->
  (coverage lo hi ivs false == inject_Z (step * n_present_in lo hi ivs) / inject_Z (hi - lo))%Q.
Proof.
  intros lo hi ivs step Hlt Hn Hreg. rewrite coverage_day.
  rewrite (bucket_count_regular lo hi ivs step Hn Hreg). reflexivity.
Qed.
Print Assumptions C09_inst_coverage.

(* what the class makes of (mean, coverage): with scale = true the mean is divided by the coverage, with scale = false
   it is kept; the source does the latter (gen_daily_scaled, C09_temp_value_is_generated) *)
Theorem C09_temp_value : forall scale v c,
  temp_value scale v c =
  if qltb half c then (if scale then option_map (fun x => (x / c)%Q) v else v) else None.
Proof.
  intros scale v c. unfold temp_value. destruct (qltb half c); [|reflexivity].
  destruct scale; [reflexivity|]. destruct v; reflexivity.
Qed.
Print Assumptions C09_temp_value.

(* every reading is closed by the next slot *)
Definition regular_feedb (step : Z) (rs : list reading) : bool :=
  forallb (fun iv => ihi iv =? ilo iv + step) (intervals rs).

(* the statement for such feeds: every day of the class but the last, if it is in phase with the slots, carries
   day_reference of its readings and their exact counts *)
Definition C09_subhourly_statement (scale exact : bool) : Prop :=
  forall step rs bs lo hi t,
    0 < step -> regular_feedb step rs = true ->
    In (lo, hi) (removelast (filter (relevant rs) (pairs bs))) ->
    (lo - first_stamp rs) mod step = 0 -> (hi - lo) mod step = 0 -> first_stamp rs <= lo ->
    In (lo, t) (subhourly_path scale exact rs bs) ->
    oq_eq (t_mean t) (day_reference (group None lo (Some hi) rs)) /\
    (t_notnull t, t_null t) = day_counts_exact rs lo hi.

(* the witness (replayed on the implementation by harness/c09.py): half-hourly readings of 30.0 F over four UTC days,
   the 12 readings 06:00-11:30 of 2024-01-02 missing.  36 of 48 readings are present, their mean is 30.0; with
   scale = true the bucket mean is divided by the coverage 3/4 and 40.0 is reported, and with exact = false the counts
   are (1, 0) - the flag of the 00:00 reading - instead of (36, 12). *)
Definition wit9_t0 : Z := 28401120.
Definition wit9_rs : list reading :=
  map (fun k => (wit9_t0 + 30 * Z.of_nat k,
                 if (60 <=? Z.of_nat k) && (Z.of_nat k <? 72) then None else Some 30%Q)) (seq 0 192).
Definition wit9_bs : list Z := map (fun k => wit9_t0 + 1440 * Z.of_nat k) (seq 0 5).

Definition wit9_row (scale : bool) : trow := snd (nth 1 (subhourly_path scale false wit9_rs wit9_bs) (0, blank)).

(* the witness meets the hypotheses of the statement (second day, 2024-01-02), whatever the value rule *)
Lemma wit9_instance : forall scale, C09_subhourly_statement scale false ->
  oq_eq (t_mean (wit9_row scale)) (day_reference (group None (wit9_t0 + 1440) (Some (wit9_t0 + 2880)) wit9_rs)) /\
  (t_notnull (wit9_row scale), t_null (wit9_row scale)) = day_counts_exact wit9_rs (wit9_t0 + 1440) (wit9_t0 + 2880).
Proof.
  intros scale H. apply (H 30 wit9_rs wit9_bs).
  - reflexivity.
  - (* every slot is 30 minutes *) vm_compute. reflexivity.
  - (* the day is the second of the four rows of as_freq *) vm_compute. right. left. reflexivity.
  - (* it starts and ends on a slot *) vm_compute. reflexivity.
  - vm_compute. reflexivity.
  - (* and not before the first stamp *) vm_compute. discriminate.
  - (* wit9_row is the row reported for it *) destruct scale; vm_compute; right; left; reflexivity.
Qed.

Theorem C09_subhourly_day_mean_refuted : ~ C09_subhourly_statement true false.
Proof. intro H. destruct (wit9_instance true H) as [E _]. vm_compute in E. discriminate E. Qed.
Print Assumptions C09_subhourly_day_mean_refuted.

(* the counts alone are refuted as well, even with the value repaired *)
Theorem C09_subhourly_counts_refuted : ~ C09_subhourly_statement false false.
Proof. intro H. destruct (wit9_instance false H) as [_ E]. vm_compute in E. discriminate E. Qed.
Print Assumptions C09_subhourly_counts_refuted.

(* what the variants (scale, exact) = (true, false) and (false, true) report for the witness *)
Example C09_witness_values :
  map (fun r => (option_map Qred (t_mean (snd r)), t_notnull (snd r), t_null (snd r))) (subhourly_path true false wit9_rs wit9_bs) =
    [(Some 30%Q, Some 1, Some 0); (Some 40%Q, Some 1, Some 0); (Some 30%Q, Some 1, Some 0); (Some 30%Q, Some 1, Some 0)] /\
  map (fun r => (option_map Qred (t_mean (snd r)), t_notnull (snd r), t_null (snd r))) (subhourly_path false true wit9_rs wit9_bs) =
    [(Some 30%Q, Some 48, Some 0); (Some 30%Q, Some 36, Some 12); (Some 30%Q, Some 48, Some 0); (Some 30%Q, Some 48, Some 0)].
Proof. split; vm_compute; reflexivity. Qed.

(* ---- C. _set_data's zero rule ("electricity data with 0 meter values are converted to NaNs") ---- *)

(* temperature cells are never altered by the zero rule: a reading of exactly 0.0 F is a present reading, for
   electricity and for gas *)
Theorem C09_zero_rule_keeps_temperature : forall elec fr, temps_of (set_data elec fr) = temps_of fr.
Proof.
  intros [|] fr; [|reflexivity]. unfold set_data, temps_of. rewrite map_map. apply map_ext. intros r. reflexivity.
Qed.
Print Assumptions C09_zero_rule_keeps_temperature.

(* hence the temperature side of the classes does not depend on the fuel *)
Theorem C09_temperature_independent_of_fuel : forall elec billing tol midx fr,
  class_hourly elec billing tol midx fr = hourly_path billing tol midx (temps_of fr).
Proof. intros. unfold class_hourly. rewrite C09_zero_rule_keeps_temperature. reflexivity. Qed.
Print Assumptions C09_temperature_independent_of_fuel.

Theorem C09_subhourly_independent_of_fuel : forall elec scale exact fr bs,
  class_subhourly elec scale exact fr bs = subhourly_path scale exact (temps_of fr) bs.
Proof. intros. unfold class_subhourly. rewrite C09_zero_rule_keeps_temperature. reflexivity. Qed.
Print Assumptions C09_subhourly_independent_of_fuel.

(* the usage column: untouched for gas (a usage of exactly 0 stays 0), zero -> NaN for electricity *)
Theorem C09_zero_rule_usage_only : forall elec fr, usage_of (set_data elec fr) = zero_to_nan elec (usage_of fr).
Proof.
  intros [|] fr; [|reflexivity]. unfold set_data, usage_of, zero_to_nan. rewrite !map_map. apply map_ext.
  intros r. unfold zero_cell, f_obs, f_stamp, stamp, rval. cbn [fst snd]. destruct (snd (fst r)); reflexivity.
Qed.
Print Assumptions C09_zero_rule_usage_only.

Example C09_nonvacuous_zero_rule :
  let fr : list frow := [(0, Some 0%Q, Some 0%Q); (60, Some 3%Q, Some 0%Q); (120, None, Some (-2)%Q)] in
  set_data true fr = [(0, None, Some 0%Q); (60, Some 3%Q, Some 0%Q); (120, None, Some (-2)%Q)] /\ set_data false fr = fr /\
  n_present (temps_of (set_data true fr)) = 3.
Proof. vm_compute. repeat split. Qed.

(* ---- D. non-vacuity ---- *)

(* hourly readings over a 25-hour day [0, 1500) followed by a 24-hour day; 13 / 12 of the 25 readings present *)
Definition ex9_temps (present25 : nat) : list reading :=
  map (fun k => (60 * Z.of_nat k, if (k <? present25)%nat then Some (inject_Z (Z.of_nat k)) else None)) (seq 0 49).

Example C09_nonvacuous_day :
  n_present (group None 0 (Some 1500) (ex9_temps 13)) = 13 /\ n_absent (group None 0 (Some 1500) (ex9_temps 13)) = 12 /\
  option_map Qred (day_reference (group None 0 (Some 1500) (ex9_temps 13))) = Some 6%Q /\
  day_reference (group None 0 (Some 1500) (ex9_temps 12)) = None /\
  n_present (group None 1500 (Some 2940) (ex9_temps 13)) = 0 /\ agg (group None 1500 (Some 2940) (ex9_temps 13)) = blank.
Proof. vm_compute. repeat split. Qed.

Example C09_nonvacuous_hourly_path :
  match hourly_path false None [0; 1500] (ex9_temps 13) with
  | TRows rows => map (fun r => (option_map Qred (t_mean r), t_notnull r, t_null r)) rows =
                  [(Some 6%Q, Some 13, Some 12); (None, None, None)]
  | TErrAllNaN => False
  end /\
  match hourly_path false None [0; 1500] (ex9_temps 12) with
  | TRows rows => map (fun r => (t_mean r, t_notnull r, t_null r)) rows = [(None, Some 12, Some 13); (None, None, None)]
  | TErrAllNaN => False
  end /\
  hourly_path false None [0; 1500] (ex9_temps 0) = TErrAllNaN /\
  median2 (somes (map total (map (fun p => agg (group None (fst p) (Some (snd p)) (ex9_temps 13))) (pairs [0; 1500; 2940])))) = Some 50.
Proof. vm_compute. repeat split. Qed.

Example C09_nonvacuous_inst :
  no_straddle 1440 2880 (intervals_inst (map (fun r => (stamp r - wit9_t0, rval r)) wit9_rs)) /\
  n_present_in 1440 2880 (intervals_inst (map (fun r => (stamp r - wit9_t0, rval r)) wit9_rs)) = 36 /\
  option_map Qred (inst_mean 1440 2880 (intervals_inst (map (fun r => (stamp r - wit9_t0, rval r)) wit9_rs))) = Some 30%Q /\
  Qred (coverage 1440 2880 (intervals_inst (map (fun r => (stamp r - wit9_t0, rval r)) wit9_rs)) false) = (3 # 4)%Q.
Proof.
  split; [|vm_compute; repeat split].
  intros iv Hiv.
  assert (forallb (fun iv => (ilo iv <? ihi iv) &&
                             ((ihi iv <=? 1440) || (2880 <=? ilo iv) || ((1440 <=? ilo iv) && (ihi iv <=? 2880))))
                  (intervals_inst (map (fun r => (stamp r - wit9_t0, rval r)) wit9_rs)) = true) as Hall
    by (vm_compute; reflexivity).
  rewrite forallb_forall in Hall. specialize (Hall iv Hiv).
  rewrite !andb_true_iff, !orb_true_iff, andb_true_iff, !Z.leb_le, Z.ltb_lt in Hall. tauto.
Qed.

(* ---- E. the model's tests and constants are the source's own (Generated/TempAggGen.v, regenerated from
   _DailyData / _BillingData._compute_temperature_features by harness/translate_resample.py on every run) ---- *)

(* both classes follow one variant of the model *)
Theorem C09_classes_same_variant :
  gen_daily_scaled = gen_billing_scaled /\ gen_daily_keep = gen_billing_keep /\ gen_daily_median = gen_billing_median /\
  gen_daily_ratio = gen_billing_ratio /\ gen_daily_buffer = gen_billing_buffer.
Proof. repeat split; reflexivity. Qed.
Print Assumptions C09_classes_same_variant.

(* other feeds: the day value the class keeps, by the source's test on the coverage and the source's (absence of a)
   division by the coverage *)
Theorem C09_temp_value_is_generated : forall v c,
  temp_value gen_daily_scaled v c =
  if cmpq gen_daily_keep c then (if gen_daily_scaled then option_map (fun x => (x / c)%Q) v else v) else None.
Proof. intros v c. rewrite C09_temp_value. reflexivity. Qed.
Print Assumptions C09_temp_value_is_generated.

Theorem C09_temperature_warning_complement : forall c, cmpq gen_daily_warn c = negb (cmpq gen_daily_keep c).
Proof. intros c. unfold cmpq, gen_daily_warn, gen_daily_keep. cbn [fst snd]. rewrite negb_involutive. reflexivity. Qed.
Print Assumptions C09_temperature_warning_complement.

(* hourly feed: the three tests of the half rule are the source's *)
Theorem C09_median_test_is_generated : forall m2, (2 <? m2) = cmpq gen_daily_median (m2 # 2).
Proof.
  intros m2. unfold cmpq, gen_daily_median, Qle_bool. cbn [fst snd Qnum Qden].
  destruct (Z.ltb_spec 2 m2); destruct (Z.leb_spec (m2 * 1) (1 * 2)); cbn; try reflexivity; lia.
Qed.
Print Assumptions C09_median_test_is_generated.

Theorem C09_half_rule_row_test_is_generated : forall billing m2 m a b, 0 < a + b ->
  invalid_row billing m2 (mkT m (Some a) (Some b)) =
  cmpq gen_daily_ratio (a # Z.to_pos (a + b)) ||
  share_test (if billing then gen_billing_median_share else gen_daily_median_share) a m2.
Proof.
  intros billing m2 m a b Ht. unfold invalid_row, total. cbn [t_notnull t_null].
  rewrite <- (ratio_test_generated a (a + b) Ht).
  destruct (share_test_generated a m2) as [Hd Hb]. destruct billing; cbn [andb]; [rewrite Hb|rewrite Hd]; reflexivity.
Qed.
Print Assumptions C09_half_rule_row_test_is_generated.

(* the last meter day is closed by the source's buffer (pd.Timedelta(days=1) = 1440 elapsed minutes) *)
Theorem C09_buffer_is_generated : forall billing tol midx temps,
  hourly_path billing tol midx temps = hourly_path_buf gen_daily_buffer billing tol midx temps.
Proof. reflexivity. Qed.
Print Assumptions C09_buffer_is_generated.

Example C09_nonvacuous_generated :
  cmpq gen_daily_keep (3 # 4) = true /\ cmpq gen_daily_keep (1 # 2) = false /\
  cmpq gen_daily_ratio (12 # 24) = true /\ cmpq gen_daily_ratio (13 # 24) = false /\
  invalid_row true 48 (mkT None (Some 12) (Some 11)) = true /\ invalid_row false 48 (mkT None (Some 12) (Some 11)) = false /\
  share_test gen_billing_median_share 12 48 = true /\ gen_daily_buffer = 1440.
Proof. vm_compute. repeat split. Qed.

(* with the source's own variant the witness day (36 of 48 half-hours present, all 30.0 F) is reported as 30.0 *)
Example C09_witness_under_generated_variant :
  option_map Qred (t_mean (wit9_row gen_daily_scaled)) = Some 30%Q.
Proof. vm_compute. reflexivity. Qed.
