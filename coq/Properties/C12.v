(* C12 — every fitted daily/billing model is physically admissible and well formed.   (PARTIAL, see below)

   Model: Model/Refine.v on top of Model/DailyCurve.v, here at the real-number instance [RNum];
   lemmas (for every pair of exp-clip bounds [lo <= 0 <= hi]): Proofs/RefineProofs.v.  The same text at binary64 ([FNum]) is what harness/c12.py runs against the
   real OptimizedResult objects.

   What is and is not covered
     * modelled: everything between the optimiser's return value and the stored document:
       get_full_model_x / fix_full_model_x, get_k, reduce_model (incl. its recursive collapse), _set_model_key,
       ModelCoefficients.from_np_arrays, the construction of the optimiser's box (the three update_bnds functions), the curve the
       objective scored and the curve of the stored coefficients (OptimizedResult.eval / _predict_submodel);
     * NOT modelled (PARTIAL): the optimiser.  Theorems quantify over EVERY vector of the box ([box_spec]); that NLopt
       returns such a vector is a contract checked on the sampled fits only (hook: _verif_x_raw in _verif_bnds).
       Finiteness of the coefficients and the uncertainty f_unc are checked by the oracle on samples only;
     * fix_identical_bnds is modelled as coded (symmetric widening of identical bounds by 10 ** OoM); the theorems
       about the box hold for every start vector, degenerate rows included.
   The lemmas are stated at [RNumOf lo hi], the theorems here at [RNum] (= [RNumOf] at the package's constants): a proof
   that rewrites with a lemma without giving it [lo hi] starts with [unfold RNum]. *)
From Coq Require Import Reals Lra Lia List PrimFloat.
From V Require Import Proofs.ListFacts Model.Num Model.NumR Model.NumF Model.DailyCurve Model.Refine
                      Proofs.DailyCurveProofs Proofs.RefineProofs.
Import ListNotations.
Local Open Scope R_scope.

Notation lo := R_ln_min.
Notation hi := R_ln_max.
Definition Hlo : lo <= 0 := proj1 R_ln_bounds.
Definition Hhi : 0 <= hi := proj2 R_ln_bounds.
Notation tcR := (Build_tconstr RNum).

Print box_spec.
Print wellformed.

(* "the coefficients kept describe the same curve the optimiser scored", on the fitted temperature range *)
Definition readback_ok (key : model_key) (raw : list R) (Tmin Tmax Tminseg Tmaxseg : R) : Prop :=
  forall T, Tmin <= T <= Tmax ->
    stored_curve RNum key raw (tcR Tmin Tmax Tminseg Tmaxseg) T = scored_curve RNum key raw (tcR Tmin Tmax Tminseg Tmaxseg) T.

Definition C12_statement : Prop :=
  forall Tmin Tmax Tminseg Tmaxseg qlo qhi key raw,
    bounds_ok lo hi (tcR Tmin Tmax Tminseg Tmaxseg) ->
    box_spec Tmin Tmax qlo qhi key raw ->
    (exists c, named_coeffs RNum key raw (tcR Tmin Tmax Tminseg Tmaxseg) = Some c /\
               wellformed lo hi Tmin Tmax Tminseg Tmaxseg qlo qhi c) /\
    readback_ok key raw Tmin Tmax Tminseg Tmaxseg.

(* admissibility: proved for every vector of the box *)

(* heating balance point not above the cooling one, both inside the observed temperature range, slope signs,
   every declared slope non-zero, non-negative smoothing, base load within the usage quantiles, model type agreeing
   with the coefficients present *)
Theorem C12_refine_admissible : forall Tmin Tmax Tminseg Tmaxseg qlo qhi,
  bounds_ok lo hi (tcR Tmin Tmax Tminseg Tmaxseg) ->
  forall key raw, box_spec Tmin Tmax qlo qhi key raw ->
  exists c, named_coeffs RNum key raw (tcR Tmin Tmax Tminseg Tmaxseg) = Some c /\
            wellformed lo hi Tmin Tmax Tminseg Tmaxseg qlo qhi c.
Proof. exact (refine_admissible lo hi). Qed.
Print Assumptions C12_refine_admissible.

Print fix_identical_row.
Print oom_width.

(* whatever the start vector: the lower end of every slope / smoothing row handed to the optimiser is >= 0
   (this is the order "sort, widen identical rows, THEN clamp at 0" of _hdd_tidd_cdd_smooth_update_bnds) *)
Theorem C12_slope_rows_nonneg_full_smooth : forall (nb b0 B : list (R * R)),
  update_bnds_full_smooth RNum (fix_identical_row RNum) nb b0 = Some B ->
  exists r0 r1 r2 r3 r4 r5 r6 : R * R,
    B = [r0; r1; r2; r3; r4; r5; r6] /\ 0 <= fst r1 /\ 0 <= fst r2 /\ 0 <= fst r4 /\ 0 <= fst r5.
Proof.
  intros nb b0 B H. unfold update_bnds_full_smooth in H. unfold RNum in *.
  destruct nb as [|n0 [|n1 [|n2 [|n3 [|n4 [|n5 [|n6 [|]]]]]]]]; try discriminate.
  destruct b0 as [|c0 [|c1 [|c2 [|c3 [|c4 [|c5 [|c6 [|]]]]]]]]; try discriminate.
  injection H as <-. do 7 eexists. split; [reflexivity|].
  repeat split; apply clip_lower_0_nonneg.
Qed.
Print Assumptions C12_slope_rows_nonneg_full_smooth.

Theorem C12_slope_rows_nonneg_full : forall (nb b0 B : list (R * R)),
  update_bnds_full RNum (fix_identical_row RNum) nb b0 = Some B ->
  exists r0 r1 r2 r3 r4 : R * R, B = [r0; r1; r2; r3; r4] /\ 0 <= fst r1 /\ 0 <= fst r3.
Proof.
  intros nb b0 B H. unfold update_bnds_full in H. unfold RNum in *.
  destruct nb as [|n0 [|n1 [|n2 [|n3 [|n4 [|]]]]]]; try discriminate.
  destruct b0 as [|c0 [|c1 [|c2 [|c3 [|c4 [|]]]]]]; try discriminate.
  injection H as <-. do 5 eexists. split; [reflexivity|].
  repeat split; apply clip_lower_0_nonneg.
Qed.
Print Assumptions C12_slope_rows_nonneg_full.

Theorem C12_k_row_nonneg_c_smooth : forall (nb b0 B : list (R * R)),
  update_bnds_c_smooth RNum (fix_identical_row RNum) nb b0 = Some B ->
  exists r0 r1 r2 r3 : R * R, B = [r0; r1; r2; r3] /\ 0 <= fst r2.
Proof.
  intros nb b0 B H. unfold update_bnds_c_smooth in H. unfold RNum in *.
  destruct nb as [|n0 [|n1 [|n2 [|n3 [|]]]]]; try discriminate.
  destruct b0 as [|c0 [|c1 [|c2 [|c3 [|]]]]]; try discriminate.
  injection H as <-. do 4 eexists. split; [reflexivity|]. apply clip_lower_0_nonneg.
Qed.
Print Assumptions C12_k_row_nonneg_c_smooth.

(* non-vacuity on the degenerate pattern that matters: both initial slopes zero, rows [0,0] *)
Example ex_degenerate_slope_rows :
  update_bnds_full_smooth RNum (fix_identical_row RNum)
    [(14, 85); (0, 0); (0, 1); (14, 85); (0, 0); (0, 1); (0, 100)]
    [(14, 85); (0, 0); (0, 1); (14, 85); (0, 0); (0, 1); (0, 100)]
  = Some [(14, 85); (0, 0 + 10); (0, 1); (14, 85); (0, 0 + 10); (0, 1); (0, 100)].
Proof.
  unfold update_bnds_full_smooth, RNum.
  rewrite !sort_row_ordered by lra.
  rewrite (fix_identical_row_pinned lo hi 0), oom_width_zero, !fix_identical_row_nondegenerate by (cbn; lra).
  rewrite clip_lower_0_neg by (cbn; lra). rewrite clip_lower_0_id by lra.
  reflexivity.
Qed.

(* the box the fit functions construct implies box_spec.  fix_identical_bnds is modelled AS CODED
   (Model/Refine.v: fix_identical_row -- identical bounds are widened symmetrically by 10 ** OoM, so [0,0] -> [-10,10]);
   [Tlo,Thi] is [T_min_seg,T_max_seg] (final fit) or [T_min,T_max] (initial fit); the slope / smoothing rows r1.. of the
   start box and nb (get_bnds(x0)) are ARBITRARY: zero slopes, zero k, identical, reversed or negative rows included *)
Theorem C12_box_sound_full_smooth : forall Tmin Tmax qlo qhi Tlo Thi,
  Tmin <= Tlo /\ Tlo <= Thi /\ Thi <= Tmax -> qlo < qhi ->
  forall nb r1 r2 r4 r5 B raw, Tlo < Thi ->
  update_bnds_full_smooth RNum (fix_identical_row RNum) nb [(Tlo, Thi); r1; r2; (Tlo, Thi); r4; r5; (qlo, qhi)] = Some B ->
  in_box RNum B raw = true -> box_spec Tmin Tmax qlo qhi KFullSmooth raw.
Proof.
  intros Tmin Tmax qlo qhi Tlo Thi (HT1 & HT2 & HT3) Hq nb r1 r2 r4 r5 B raw Hlt HB Hin.
  unfold update_bnds_full_smooth in HB. unfold RNum in *.
  destruct nb as [|n0 [|n1 [|n2 [|n3 [|n4 [|n5 [|n6 [|]]]]]]]]; try discriminate.
  injection HB as <-. rewrite !proper_row_unchanged in Hin by assumption. apply in_box_inside in Hin. destruct Hin as [HL Hin].
  destruct raw as [|hb [|hbeta [|ph [|cb [|cbeta [|pc [|i [|]]]]]]]]; try discriminate HL.
  destruct Hin as (I0 & I1 & I2 & I3 & I4 & I5 & I6 & _).
  apply above_clipped_row in I1, I2, I4, I5.
  cbn in *. repeat split; lra.
Qed.
Print Assumptions C12_box_sound_full_smooth.

Theorem C12_box_sound_full : forall Tmin Tmax qlo qhi Tlo Thi,
  Tmin <= Tlo /\ Tlo <= Thi /\ Thi <= Tmax -> qlo < qhi ->
  forall nb r1 r3 B raw, Tlo < Thi ->
  update_bnds_full RNum (fix_identical_row RNum) nb [(Tlo, Thi); r1; (Tlo, Thi); r3; (qlo, qhi)] = Some B ->
  in_box RNum B raw = true -> box_spec Tmin Tmax qlo qhi KFull raw.
Proof.
  intros Tmin Tmax qlo qhi Tlo Thi (HT1 & HT2 & HT3) Hq nb r1 r3 B raw Hlt HB Hin.
  unfold update_bnds_full in HB. unfold RNum in *.
  destruct nb as [|n0 [|n1 [|n2 [|n3 [|n4 [|]]]]]]; try discriminate.
  injection HB as <-. rewrite !proper_row_unchanged in Hin by assumption. apply in_box_inside in Hin. destruct Hin as [HL Hin].
  destruct raw as [|hb [|hbeta [|cb [|cbeta [|i [|]]]]]]; try discriminate HL.
  destruct Hin as (I0 & I1 & I2 & I3 & I4 & _).
  apply above_clipped_row in I1, I3.
  cbn in *. repeat split; lra.
Qed.
Print Assumptions C12_box_sound_full.

(* one-sided layouts, including the pinned balance point (Tlo = Thi) *)
Theorem C12_box_sound_c_smooth : forall Tmin Tmax qlo qhi Tlo Thi,
  Tmin <= Tlo /\ Tlo <= Thi /\ Thi <= Tmax -> qlo < qhi ->
  forall nb r1 r2 B raw,
  update_bnds_c_smooth RNum (fix_identical_row RNum) nb [(Tlo, Thi); r1; r2; (qlo, qhi)] = Some B ->
  in_box RNum B raw = true -> box_spec Tmin Tmax qlo qhi KCSmooth raw.
Proof.
  intros Tmin Tmax qlo qhi Tlo Thi (HT1 & HT2 & HT3) Hq nb r1 r2 B raw HB Hin.
  unfold update_bnds_c_smooth in HB. unfold RNum in *.
  destruct nb as [|n0 [|n1 [|n2 [|n3 [|]]]]]; try discriminate.
  injection HB as <-. rewrite keep_pinned_row, proper_row_unchanged in Hin by assumption.
  apply in_box_inside in Hin. destruct Hin as [HL Hin].
  destruct raw as [|bp [|beta [|k [|i [|]]]]]; try discriminate HL.
  destruct Hin as (I0 & I1 & I2 & I3 & _).
  apply above_clipped_row in I2.
  cbn in *. repeat split; lra.
Qed.
Print Assumptions C12_box_sound_c_smooth.

Theorem C12_box_sound_c : forall Tmin Tmax qlo qhi Tlo Thi,
  Tmin <= Tlo /\ Tlo <= Thi /\ Thi <= Tmax -> qlo < qhi ->
  forall nb r1 B raw,
  update_bnds_c RNum (fix_identical_row RNum) nb [(Tlo, Thi); r1; (qlo, qhi)] = Some B ->
  in_box RNum B raw = true -> box_spec Tmin Tmax qlo qhi KC raw.
Proof.
  intros Tmin Tmax qlo qhi Tlo Thi (HT1 & HT2 & HT3) Hq nb r1 B raw HB Hin.
  unfold update_bnds_c in HB. unfold RNum in *.
  destruct nb as [|n0 [|n1 [|n2 [|]]]]; try discriminate.
  injection HB as <-. rewrite keep_pinned_row, proper_row_unchanged in Hin by assumption.
  apply in_box_inside in Hin. destruct Hin as [HL Hin].
  destruct raw as [|bp [|beta [|i [|]]]]; try discriminate HL.
  destruct Hin as (I0 & I1 & I2 & _).
  cbn in *. repeat split; lra.
Qed.
Print Assumptions C12_box_sound_c.

Theorem C12_box_sound_tidd : forall Tmin Tmax qlo qhi, qlo < qhi ->
  forall B raw,
  update_bnds_tidd RNum (fix_identical_row RNum) [(qlo, qhi)] = Some B ->
  in_box RNum B raw = true -> box_spec Tmin Tmax qlo qhi KTidd raw.
Proof.
  intros Tmin Tmax qlo qhi Hq B raw HB Hin.
  unfold update_bnds_tidd in HB. unfold RNum in *. injection HB as <-.
  rewrite proper_row_unchanged in Hin by assumption. apply in_box_inside in Hin. destruct Hin as [HL Hin].
  destruct raw as [|i [|]]; try discriminate HL.
  destruct Hin as (I0 & _). exact I0.
Qed.
Print Assumptions C12_box_sound_tidd.

Definition Ftc (a b c d : float) : tconstr FNum := Build_tconstr FNum a b c d.

(* the recorded temperature limits (get_T_bnds) *)

(* utilities/base_model.py get_T_bnds is in the model (Model/Refine.v: insertion sort + order statistics) and compared with
   the implementation on synthetic arrays and on the temperatures of every fitted component.  Proved for EVERY list of
   fitted temperatures T and every segment_minimum_count n: *)
Print get_T_bnds.

(* T_min <= T_min_seg <= T_max_seg <= T_max as soon as the two outer segments do not overlap (2 n <= number of days):
   this is the [bounds_ok] hypothesis of the theorems above, now derived from the data *)
Theorem C12_recorded_limits_ordered : forall (T : list R) n tc, get_T_bnds RNum T n = Some tc -> (2 * n <= length T)%nat ->
  bounds_ok lo hi tc.
Proof.
  intros T n tc H Hn. destruct (get_T_bnds_some lo hi T n tc H) as [Hlt ->].
  pose proof (sort_list_sorted lo hi T) as Hs. pose proof (sort_list_length lo hi T) as Hl.
  unfold bounds_ok. cbn [T_min T_max T_min_seg T_max_seg].
  repeat split; apply (StronglySorted_nth R Rle Rle_refl); try exact Hs; rewrite ?Hl; destruct n; lia.
Qed.
Print Assumptions C12_recorded_limits_ordered.

(* every recorded limit is the temperature of a fitted day *)
Theorem C12_recorded_limits_are_fitted_days : forall (T : list R) n tc, get_T_bnds RNum T n = Some tc ->
  In (T_min tc) T /\ In (T_max tc) T /\ In (T_min_seg tc) T /\ In (T_max_seg tc) T.
Proof.
  intros T n tc H. destruct (get_T_bnds_some lo hi T n tc H) as [Hlt ->].
  cbn [T_min T_max T_min_seg T_max_seg].
  repeat split; apply (sort_list_nth_In lo hi); destruct n; lia.
Qed.
Print Assumptions C12_recorded_limits_are_fitted_days.

(* T_min / T_max bound all fitted days *)
Theorem C12_recorded_limits_bound_the_days : forall (T : list R) n tc, get_T_bnds RNum T n = Some tc ->
  forall t, In t T -> T_min tc <= t <= T_max tc.
Proof.
  intros T n tc H t Ht. destruct (get_T_bnds_some lo hi T n tc H) as [Hlt ->].
  pose proof (sort_list_sorted lo hi T) as Hs. pose proof (sort_list_length lo hi T) as Hl.
  cbn [T_min T_max].
  apply (Permutation.Permutation_in _ (sort_list_perm lo hi T)) in Ht.
  destruct (In_nth _ _ 0 Ht) as (i & Hi & <-). rewrite Hl in Hi.
  split; apply (StronglySorted_nth R Rle Rle_refl); try exact Hs; rewrite ?Hl; lia.
Qed.
Print Assumptions C12_recorded_limits_bound_the_days.

(* admissibility with no hypothesis on the limits (they are computed from the fitted days) beyond 2 n <= number of days *)
Theorem C12_fitted_component_admissible : forall (T : list R) n tc qlo qhi key raw,
  get_T_bnds RNum T n = Some tc -> (2 * n <= length T)%nat ->
  box_spec (T_min tc) (T_max tc) qlo qhi key raw ->
  exists c, named_coeffs RNum key raw tc = Some c /\
            wellformed lo hi (T_min tc) (T_max tc) (T_min_seg tc) (T_max_seg tc) qlo qhi c.
Proof.
  intros T n [a b c d] qlo qhi key raw H Hn B.
  exact (C12_refine_admissible a b c d qlo qhi (C12_recorded_limits_ordered T n _ H Hn) key raw B).
Qed.
Print Assumptions C12_fitted_component_admissible.

(* non-vacuity (binary64, same text): 11 billing periods, segment_minimum_count 3 -> ordered limits *)
Definition periods11 : list float := [33.5; 41; 49; 52.25; 57; 61; 64.5; 68; 71.5; 74; 76.25]%float.
Example ex_limits_11_periods_n3 :
  get_T_bnds FNum periods11 3 = Some (Ftc 33.5 76.25 52.25 71.5).
Proof. reflexivity. Qed.
(* the guard 2 n <= number of days cannot be dropped: with segment_minimum_count 10 on the same 11 periods
   T_min_seg = T_max and T_max_seg is the second coldest period: not ordered *)
Example C12_limits_overlap_refuted :
  get_T_bnds FNum periods11 10 = Some (Ftc 33.5 76.25 76.25 41).
Proof. reflexivity. Qed.
(* out of bounds = the ValueError of np.partition *)
Example ex_limits_out_of_bounds : get_T_bnds FNum periods11 11 = None.
Proof. reflexivity. Qed.

(* read-back: where stored = scored is proved *)

(* When the optimiser's balance points are ordered and STRICTLY inside [T_min_seg, T_max_seg], and a zero slope comes
   with a zero smoothing fraction, the kept coefficients describe exactly the curve that was scored, at every
   temperature (all five coefficient layouts, every reduce_model branch).  Excluded faces of the box with a
   refuted witness below: crossed balance points, pinned balance point, balance point on the end of the range
   (which is there also the end of the segment range), zero slope with a smoothing fraction. *)
Theorem C12_readback_eq_scored_full_smooth : forall Tmin Tmax Tminseg Tmaxseg,
  Tmin <= Tminseg /\ Tminseg <= Tmaxseg /\ Tmaxseg <= Tmax ->
  forall hb hbeta ph cb cbeta pc i T : R,
  Tminseg < hb -> hb <= cb -> cb < Tmaxseg -> 0 <= hbeta -> 0 <= cbeta -> 0 <= ph -> 0 <= pc ->
  (hbeta = 0 -> ph = 0) -> (cbeta = 0 -> pc = 0) ->
  stored_curve RNum KFullSmooth [hb; hbeta; ph; cb; cbeta; pc; i] (tcR Tmin Tmax Tminseg Tmaxseg) T =
  scored_curve RNum KFullSmooth [hb; hbeta; ph; cb; cbeta; pc; i] (tcR Tmin Tmax Tminseg Tmaxseg) T.
Proof. exact (readback_full_smooth lo hi Hlo Hhi). Qed.
Print Assumptions C12_readback_eq_scored_full_smooth.

Theorem C12_readback_eq_scored_full : forall Tmin Tmax Tminseg Tmaxseg,
  Tmin <= Tminseg /\ Tminseg <= Tmaxseg /\ Tmaxseg <= Tmax ->
  forall hb hbeta cb cbeta i T : R,
  Tminseg < hb -> hb <= cb -> cb < Tmaxseg -> 0 <= hbeta -> 0 <= cbeta ->
  stored_curve RNum KFull [hb; hbeta; cb; cbeta; i] (tcR Tmin Tmax Tminseg Tmaxseg) T =
  scored_curve RNum KFull [hb; hbeta; cb; cbeta; i] (tcR Tmin Tmax Tminseg Tmaxseg) T.
Proof.
  intros Tmin Tmax Tminseg Tmaxseg HB hb hbeta cb cbeta i T G1 G2 G3 B1 B2.
  apply (stored_curve_refined Hlo Hhi HB); auto using Rle_refl.
  rewrite (gfx_full lo hi), (fix_identity lo hi) by (cbn; auto; right; lra). reflexivity.
Qed.
Print Assumptions C12_readback_eq_scored_full.

Theorem C12_readback_eq_scored_c_smooth : forall Tmin Tmax Tminseg Tmaxseg,
  Tmin <= Tminseg /\ Tminseg <= Tmaxseg /\ Tmaxseg <= Tmax ->
  forall bp beta k i T : R, Tminseg < bp -> bp < Tmaxseg -> 0 <= k -> (beta = 0 -> k = 0) ->
  stored_curve RNum KCSmooth [bp; beta; k; i] (tcR Tmin Tmax Tminseg Tmaxseg) T =
  scored_curve RNum KCSmooth [bp; beta; k; i] (tcR Tmin Tmax Tminseg Tmaxseg) T.
Proof.
  intros Tmin Tmax Tminseg Tmaxseg HB bp beta k i T G1 G2 K Z.
  assert (Hx := gfx_c_smooth lo hi bp beta k i Tmin Tmax Tminseg Tmaxseg).
  unfold scored_curve, scored_x. change (@n_ltb RNum beta n_zero) with (Rltb beta 0).
  (* by the sign of the slope the refined vector is the heating or the cooling one, and it is the scored vector.
     Of the premises of stored_curve_refined, "key = KFullSmooth -> .." goes by discriminate, the reflexive ones (bp <= bp,
     0 <= 0, 0 = 0 -> 0 = 0) by auto, the others are the hypotheses and the sign of beta *)
  destruct (Rltb beta 0) eqn:E; [apply Rltb_true in E | apply Rltb_false in E];
    rewrite (fix_identity_one_bp lo hi) in Hx by (intros; lra).
  - apply (stored_curve_refined Hlo Hhi HB T Hx); try discriminate; auto using Rle_refl; lra.
  - apply (stored_curve_refined Hlo Hhi HB T Hx); try discriminate; auto using Rle_refl; lra.
Qed.
Print Assumptions C12_readback_eq_scored_c_smooth.

Theorem C12_readback_eq_scored_c : forall Tmin Tmax Tminseg Tmaxseg,
  Tmin <= Tminseg /\ Tminseg <= Tmaxseg /\ Tmaxseg <= Tmax ->
  forall bp beta i T : R, Tminseg < bp -> bp < Tmaxseg ->
  stored_curve RNum KC [bp; beta; i] (tcR Tmin Tmax Tminseg Tmaxseg) T =
  scored_curve RNum KC [bp; beta; i] (tcR Tmin Tmax Tminseg Tmaxseg) T.
Proof.
  intros Tmin Tmax Tminseg Tmaxseg HB bp beta i T G1 G2.
  assert (Hx := gfx_c lo hi bp beta i Tmin Tmax Tminseg Tmaxseg). rewrite clamp_inside in Hx by lra.
  unfold scored_curve, scored_x. change (@n_ltb RNum beta n_zero) with (Rltb beta 0).
  destruct (Rltb beta 0) eqn:E; [apply Rltb_true in E | apply Rltb_false in E];
    rewrite (fix_identity_one_bp lo hi) in Hx by reflexivity.
  - apply (stored_curve_refined Hlo Hhi HB T Hx); try discriminate; auto using Rle_refl; lra.
  - apply (stored_curve_refined Hlo Hhi HB T Hx); try discriminate; auto using Rle_refl; lra.
Qed.
Print Assumptions C12_readback_eq_scored_c.

Theorem C12_readback_eq_scored_tidd : forall Tmin Tmax Tminseg Tmaxseg i T : R,
  stored_curve RNum KTidd [i] (tcR Tmin Tmax Tminseg Tmaxseg) T =
  scored_curve RNum KTidd [i] (tcR Tmin Tmax Tminseg Tmaxseg) T.
Proof.
  intros Tmin Tmax Tminseg Tmaxseg i T.
  eapply (readback_via lo hi); [apply gfx_tidd | apply rs_tidd; reflexivity | reflexivity | apply eff_tidd; reflexivity | reflexivity].
Qed.
Print Assumptions C12_readback_eq_scored_tidd.

Example ex_readback : forall T : R,
  stored_curve RNum KFullSmooth [40; 1; 1/2; 65; 2; 1/4; 20] (tcR 10 90 14 85) T =
  scored_curve RNum KFullSmooth [40; 1; 1/2; 65; 2; 1/4; 20] (tcR 10 90 14 85) T.
Proof.
  intros T. apply C12_readback_eq_scored_full_smooth; try lra; intros; lra.
Qed.

(* refinement has nothing left to do on a [stable] document (that what it stores is stable is not proved here) *)

Print stable.

(* rebuilding an OptimizedResult from a stored stable document (to_np_array, model_key) gives the same document back *)
Theorem C12_refine_idempotent : forall Tmin Tmax Tminseg Tmaxseg (c : coeffs RNum),
  stable lo hi Tmin Tmax Tminseg Tmaxseg c ->
  exists arr, to_np_array RNum c = Some arr /\
              named_coeffs RNum (key_of_shape (model_type c)) arr (tcR Tmin Tmax Tminseg Tmaxseg) = Some c.
Proof. exact (refine_idempotent lo hi). Qed.
Print Assumptions C12_refine_idempotent.

Example ex_stable : stable lo hi 10 90 14 85
  (Build_coeffs RNum HddTiddCddSmooth 20 (Some 40) (Some 1) (Some (1/2)) (Some 65) (Some 2) (Some (1/4))).
Proof. unfold stable; cbn. split; [lra|]. split; [right; lra|]. split; [lra|]. split; [lra|]. left; lra. Qed.

(* the pinned one-sided balance point *)

(* fit_c_hdd_tidd gives the optimiser degenerate bounds [T_max, T_max] for the balance point of a building that heats
   over its whole temperature range; the optimiser therefore scores the line through (T_max, intercept);
   reduce_model then stores T_max_seg with the SAME intercept.  On every fitted day at or below T_max_seg the stored
   curve is the scored one shifted down by |beta| (T_max - T_max_seg) > 0 : the kept coefficients do not reproduce the
   fitted values (finding C12-F2). *)
Theorem C12_pinned_scored : forall Tmin Tmax Tminseg Tmaxseg beta i T : R, beta < 0 ->
  scored_curve RNum KC [Tmax; beta; i] (tcR Tmin Tmax Tminseg Tmaxseg) T = Some (i + - beta * (Tmax - T)).
Proof. exact (pinned_scored lo hi). Qed.
Print Assumptions C12_pinned_scored.

Theorem C12_pinned_stored : forall Tmin Tmax Tminseg Tmaxseg,
  bounds_ok lo hi (tcR Tmin Tmax Tminseg Tmaxseg) ->
  forall beta i T : R, beta < 0 -> Tmin <= Tminseg -> Tminseg <= Tmaxseg -> Tmaxseg < Tmax ->
  stored_curve RNum KC [Tmax; beta; i] (tcR Tmin Tmax Tminseg Tmaxseg) T = Some (i + - beta * pos (Tmaxseg - T)).
Proof. intros Tmin Tmax Tminseg Tmaxseg _. exact (pinned_stored lo hi Hlo Hhi Tmin Tmax Tminseg Tmaxseg). Qed.
Print Assumptions C12_pinned_stored.

Theorem C12_pinned_readback : forall Tmin Tmax Tminseg Tmaxseg,
  bounds_ok lo hi (tcR Tmin Tmax Tminseg Tmaxseg) ->
  forall beta i T : R, beta < 0 -> Tmin <= Tminseg -> Tminseg <= Tmaxseg -> Tmaxseg < Tmax -> T <= Tmaxseg ->
  exists sc st : R,
    scored_curve RNum KC [Tmax; beta; i] (tcR Tmin Tmax Tminseg Tmaxseg) T = Some sc /\
    stored_curve RNum KC [Tmax; beta; i] (tcR Tmin Tmax Tminseg Tmaxseg) T = Some st /\
    sc - st = - beta * (Tmax - Tmaxseg) /\ 0 < sc - st.
Proof. exact (pinned_readback lo hi Hlo Hhi). Qed.
Print Assumptions C12_pinned_readback.

Example ex_bounds : bounds_ok lo hi (tcR 10 90 14 85).
Proof. unfold bounds_ok; cbn; lra. Qed.

(* hence the full statement does not hold of the unchanged code: heating-only, T_min 10, T_min_seg 14, T_max_seg 85,
   T_max 90, slope -1, base load 20, evaluated at 50 F: scored 60, stored 55 *)
Theorem C12_statement_refuted : ~ C12_statement.
Proof.
  intros S.
  pose proof ex_bounds as B.
  assert (X : box_spec 10 90 0 100 KC [90; -1; 20]) by (cbn; lra).
  destruct (S 10 90 14 85 0 100 KC [90; -1; 20] B X) as [_ RB].
  assert (HT : 10 <= 50 <= 90) by lra. specialize (RB 50 HT).
  assert (Hm : -1 < 0) by lra.
  pose proof (C12_pinned_scored 10 90 14 85 (-1) 20 50 Hm) as PSc.
  assert (PSt : stored_curve RNum KC [90; -1; 20] (tcR 10 90 14 85) 50 = Some (20 + - -1 * pos (85 - 50)))
    by (apply (C12_pinned_stored 10 90 14 85 B (-1) 20 50); lra).
  pose proof (eq_trans (eq_sym PSt) (eq_trans RB PSc)) as E.
  rewrite pos_of_nonneg in E by lra. injection E as E. lra.
Qed.
Print Assumptions C12_statement_refuted.

(* the other read-back defects, same text at binary64 *)

Definition differ_by_1 (a b : option float) : bool :=
  match a, b with
  | Some x, Some y => PrimFloat.ltb (PrimFloat.add x 1) y || PrimFloat.ltb (PrimFloat.add y 1) x
  | _, _ => false
  end.

(* the cause the property text itself names: the optimiser returns CROSSED balance points with smoothing.
   The objective smooths first and orders inside full_model; the stored coefficients are ordered first and smoothed
   afterwards.  hdd_bp 60 > cdd_bp 50, both fractions 0.5, at 40 F: scored 130.4, stored 40.5 *)
Example C12_readback_crossed_refuted :
  differ_by_1 (scored_curve FNum KFullSmooth [60; 1; 0.5; 50; 2; 0.5; 20]%float (Ftc 10 90 14 85) 40%float)
              (stored_curve FNum KFullSmooth [60; 1; 0.5; 50; 2; 0.5; 20]%float (Ftc 10 90 14 85) 40%float) = true.
Proof. vm_compute. reflexivity. Qed.

(* the pinned balance point again, in binary64 *)
Example C12_pinned_binary64 :
  scored_curve FNum KC [90; -1; 20]%float (Ftc 10 90 14 85) 50%float = Some 60%float /\
  stored_curve FNum KC [90; -1; 20]%float (Ftc 10 90 14 85) 50%float = Some 55%float.
Proof. vm_compute. split; reflexivity. Qed.

(* a slope whose balance point sits on the end of the fitted range is dropped by fix_full_model_x although smoothing
   had moved the scored balance point inside the range: hdd_bp = T_min = 10, fraction 0.5, cdd_bp 60 *)
Example C12_end_of_range_smoothing_refuted :
  differ_by_1 (scored_curve FNum KFullSmooth [10; 2; 0.5; 60; 0; 0; 20]%float (Ftc 10 90 10 90) 12%float)
              (stored_curve FNum KFullSmooth [10; 2; 0.5; 60; 0; 0; 20]%float (Ftc 10 90 10 90) 12%float) = true.
Proof. vm_compute. reflexivity. Qed.

(* a zero slope with a non-zero smoothing fraction and fractions adding up to more than one: the objective normalises
   with both fractions, the stored coefficients with one *)
Example C12_zero_slope_fraction_refuted :
  differ_by_1 (scored_curve FNum KFullSmooth [50; 4; 0.5; 70; 0; 0.875; 20]%float (Ftc 10 90 14 85) 56%float)
              (stored_curve FNum KFullSmooth [50; 4; 0.5; 70; 0; 0.875; 20]%float (Ftc 10 90 14 85) 56%float) = true.
Proof. vm_compute. reflexivity. Qed.

(* fractions adding up to one or more: the shifted balance points meet *)

(* With pct_hdd_k + pct_cdd_k >= 1 the shifted balance points meet; get_smooth_coeffs carries a guard (in the model text
   exactly as coded; C11_smooth_coeffs_never_cross_any_num in Properties/C11.v) that keeps rounding from crossing them, so
   full_model does not swap the two sides while scoring.  On this raw vector (hdd_bp 24.679393524689136, slope 0;
   cdd_bp 59.75, slope 4.875, fraction 1), where the two shifted points are one ulp apart before the guard, the scored
   vector is not swapped and the stored and the scored curve agree: *)
Definition f7_raw : list float := [(0x1.8adecbbe9a76dp+4)%float; 0%float; 0%float; (0x1.de00000000000p+5)%float; (0x1.3800000000000p+2)%float; (0x1.0000000000000p+0)%float; (0x1.7400000000000p+4)%float].
Definition f7_tc : tconstr FNum := Ftc (0x1.ea9e109831d40p+2)%float (0x1.1700000000000p+6)%float (0x1.5d4f084c18ea0p+3)%float (0x1.1127a6e905176p+6)%float.
Example C12_old_rounding_witness_agrees_binary64 :
  forallb (fun T => negb (differ_by_1 (scored_curve FNum KFullSmooth f7_raw f7_tc T)
                                      (stored_curve FNum KFullSmooth f7_raw f7_tc T)))
          [8; 20; 24.5; 25; 30; 45; 60; 69.75]%float = true.
Proof. vm_compute. reflexivity. Qed.
Example C12_old_rounding_witness_not_swapped :
  match scored_x FNum KFullSmooth f7_raw with
  | Some x => PrimFloat.ltb (x_cdd_bp x) (x_hdd_bp x) = false
  | None => False
  end.
Proof. vm_compute. reflexivity. Qed.

(* non-vacuity *)

Example ex_box : box_spec 10 90 0 100 KFullSmooth [40; 1; 1/2; 65; 2; 1/4; 20].
Proof. cbn; lra. Qed.
Example ex_box_crossed : box_spec 10 90 0 100 KFullSmooth [65; 1; 1/2; 40; 2; 1/4; 20].
Proof. cbn; lra. Qed.
Example ex_admissible : exists c, named_coeffs RNum KFullSmooth [65; 1; 1/2; 40; 2; 1/4; 20] (tcR 10 90 14 85) = Some c /\
                                  wellformed lo hi 10 90 14 85 0 100 c.
Proof. exact (C12_refine_admissible 10 90 14 85 0 100 ex_bounds KFullSmooth _ ex_box_crossed). Qed.
(* the optimiser's box for the final fit of the smoothed two-sided model, with slope rows coming from get_bnds(x0) *)
Example ex_box_sound : forall raw,
  in_box RNum [(14, 85); (0, 3); (0, 1); (14, 85); (0, 5); (0, 1); (0, 100)] raw = true ->
  box_spec 10 90 0 100 KFullSmooth raw.
Proof.
  intros raw H.
  apply (C12_box_sound_full_smooth 10 90 0 100 14 85) with
    (nb := [(14, 85); (-1, 3); (-1/2, 1); (14, 85); (5, 0); (0, 1); (0, 100)])
    (r1 := (0, 1)) (r2 := (0, 1)) (r4 := (0, 1)) (r5 := (0, 1))
    (B := [(14, 85); (0, 3); (0, 1); (14, 85); (0, 5); (0, 1); (0, 100)]); try lra; try exact H.
  unfold update_bnds_full_smooth, RNum.
  rewrite (sort_row_swapped lo hi 5 0), !sort_row_ordered by lra.
  rewrite !fix_identical_row_nondegenerate by (cbn; lra).
  rewrite !clip_lower_0_neg, !clip_lower_0_id by lra.
  reflexivity.
Qed.
