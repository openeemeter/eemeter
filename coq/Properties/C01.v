(* C01 -- a stored model reproduces its counterfactual exactly.

   Lemmas in Proofs/DailyDocProofs.v, Proofs/DailyKeyOrderProofs.v, Proofs/DailyClosedFormProofs.v,
   Proofs/HourlyDocProofs.v, Proofs/CalTrackDocProofs.v; models in Model/Json.v (JSON trees), Model/DocSchema.v (settings re-validation),
   Model/DailyDoc.v, Model/HourlyDoc.v, Model/CalTrackDoc.v; the two daily settings schemas, the default settings
   documents and the float-typed hourly settings fields are regenerated from the package on every run
   (Generated/C01Gen.v).

   The models describe the code AS IT IS.  Beside them stand models of a reader or writer that violates the statement
   (daily: from_doc_one_class, one settings class per model class), each with the theorem that it does
   ("..._regression_...").  Their witnesses are replayed on the implementation by every run (corpus/C01.json and the fit
   profiles of harness/c01fits.py): should the code come to behave like one of them, the oracle reports the concrete input.

   Reading guide (daily / billing)
     daily_state               what a fitted or reloaded DailyModel / BillingModel carries and to_dict writes
     to_doc c s                c.to_dict() as a JSON tree (c = Daily | Billing; Billing forces developer_mode)
     from_doc cur leg c d      c.from_dict(d): Some state, or None when the constructor / pydantic raises;
                               a DailyModel document the current settings class rejects is read with the legacy class
     from_doc_one_class        a reader with one settings class per model class (no legacy fallback)
     accepts sch settings      the settings class with schema sch accepts the stored settings tree
     maps_of sch s             (month -> season, day -> weekday/weekend) as the model's settings give them
     predict_day maps s m d T  which sub-model(s) predict a day of month m / weekday d, and their prediction at T:
                               _meter_segment through combo_dictionary (built from the settings by __init__) and the
                               season column (built from the settings by _initialize_data)
     restores c s s'           s' re-serialises to the same document, predicts like s for every sub-model and
                               temperature (binary64 payloads, Leibniz equality = bit-identical), reads the same
                               month->season and day->weekday/weekend maps AND routes and predicts every day with
                               them identically, and keeps timezone, warnings, disqualifications
     wf_state s                every warning / disqualification of s carries a dict or a list as data (what
                               EEMeterWarning guarantees and the reader re-checks): the hypothesis of every theorem
     readable c st             the settings tree st is accepted on reload: by the current or the legacy settings class
                               for Daily, by the legacy class for Billing
     with_settings s st        s with st as its settings tree (Billing reloads with the forced developer flag)
     reads_like d d'           d' is d up to the order of keys (Proofs/DailyKeyOrderProofs.v); same_model: what then agrees
     profile                   the constructor that made the model: DailyModel(model="current"),
                               DailyModel(model="legacy"), BillingModel()                                      *)
From Coq Require Import Reals Lra ZArith List Bool String PrimFloat Permutation.
From V Require Import Model.Num Model.NumR Model.NumF Model.DailyCurve Model.Json Model.DocSchema Model.DailyDoc
                      Generated.C01Gen Proofs.DailyCurveProofs Proofs.DailyDocProofs Proofs.DailyClosedFormProofs
                      Proofs.DailyKeyOrderProofs.
Import ListNotations.
Open Scope string_scope.

Notation cur := current_schema.
Notation leg := legacy_schema.
Notation from_doc' := (from_doc cur leg).
Notation restores' := (restores cur leg).

Print restores.
Print predict_day.
Print route.
Print covers.
Print accepts.
Print accepts_field.

Inductive profile := PCurrent | PLegacy | PBilling.
Definition class_of (p : profile) : mclass := match p with PBilling => Billing | _ => Daily end.
(* the settings class the profile's constructor validated the user's settings with *)
Definition ctor_schema (p : profile) : schema := match p with PCurrent => cur | _ => leg end.

(* the property text for one fitted model of profile p *)
Definition C01_daily_holds (p : profile) (s : daily_state) : Prop :=
  exists s', from_doc' (class_of p) (to_doc (class_of p) s) = Some s' /\ restores' (class_of p) s s'.

(* full statement: every profile the constructors accept *)
Definition C01_daily_statement : Prop :=
  forall p s, wf_state s -> accepts (ctor_schema p) (ds_settings s) = true -> C01_daily_holds p s.

Lemma legacy_dev_leaf_ok : dev_leaf_ok leg = true.
Proof. vm_compute. reflexivity. Qed.

(* from_dict on to_dict's document, in closed form, for every well-formed state *)
Theorem C01_daily_from_doc_to_doc : forall c s, wf_state s ->
  from_doc' c (to_doc c s) =
  match c with
  | Daily => if accepts cur (ds_settings s) || accepts leg (ds_settings s) then Some s else None
  | Billing => if accepts leg (force_dev (ds_settings s)) then Some (with_settings s (force_dev (ds_settings s))) else None
  end.
Proof. exact (from_doc_to_doc cur leg). Qed.
Print Assumptions C01_daily_from_doc_to_doc.

(* THE STATEMENT HOLDS for the code as it is: current profile (default, custom season / weekday maps, developer
   overrides), legacy profile, billing profile (the forced developer flag never makes the legacy class reject) *)
Theorem C01_daily_roundtrip : C01_daily_statement.
Proof.
  intros p s Hwf Hacc. apply (daily_roundtrip cur leg (class_of p) s Hwf legacy_dev_leaf_ok).
  (* [readable]: current profile -> the current class accepts; legacy -> the legacy class does; billing -> legacy *)
  destruct p; cbn [ctor_schema class_of readable] in *; [left | right | ]; exact Hacc.
Qed.
Print Assumptions C01_daily_roundtrip.

(* in particular the restored routing is the original's: every day goes to the same sub-model with the same numbers *)
Theorem C01_daily_days_predicted_identically : forall p s, wf_state s -> accepts (ctor_schema p) (ds_settings s) = true ->
  exists s', from_doc' (class_of p) (to_doc (class_of p) s) = Some s' /\
    forall month dow T,
      predict_day (maps_of (schema_of cur leg (class_of p)) s') s' month dow T =
      predict_day (maps_of (schema_of cur leg (class_of p)) s) s month dow T.
Proof.
  intros p s Hwf Hacc. destruct (C01_daily_roundtrip p s Hwf Hacc) as (s' & Hs & Hr).
  exists s'. split; [exact Hs | exact (restores_days cur leg _ s s' Hr)].
Qed.
Print Assumptions C01_daily_days_predicted_identically.

(* ... and the timezone guard of predict refuses exactly the same reporting zones (same ValueError) *)
Theorem C01_daily_timezone_guard : forall p s, wf_state s -> accepts (ctor_schema p) (ds_settings s) = true ->
  exists s', from_doc' (class_of p) (to_doc (class_of p) s) = Some s' /\
    forall reporting_tz, tz_guard_refuses s' reporting_tz = tz_guard_refuses s reporting_tz.
Proof.
  intros p s Hwf Hacc. destruct (C01_daily_roundtrip p s Hwf Hacc) as (s' & Hs & Hr).
  exists s'. split; [exact Hs|]. intros r. unfold tz_guard_refuses. rewrite (restores_tz cur leg _ s s' Hr). reflexivity.
Qed.
Print Assumptions C01_daily_timezone_guard.

(* exact guard for DailyModel: one of the two settings classes accepts the stored tree *)
Theorem C01_daily_roundtrip_iff : forall s, wf_state s ->
  (from_doc' Daily (to_doc Daily s) = Some s <-> accepts cur (ds_settings s) || accepts leg (ds_settings s) = true).
Proof.
  intros s Hwf. rewrite (from_doc_to_doc cur leg Daily s Hwf).
  destruct (accepts cur (ds_settings s) || accepts leg (ds_settings s)); split; intros; try reflexivity; discriminate.
Qed.
Print Assumptions C01_daily_roundtrip_iff.

(* any document the class reads at all (written by this package or not): the object it yields writes a document
   that reads back to an object which restores everything -- reloaded models are fixed points *)
Theorem C01_daily_reload_stable : forall c d s, from_doc' c d = Some s ->
  exists s', from_doc' c (to_doc c s) = Some s' /\ restores' c s s'.
Proof.
  intros c d s H. destruct (from_doc_some cur leg c d s H) as [Hwf Hacc].
  exact (daily_roundtrip cur leg c s Hwf legacy_dev_leaf_ok Hacc).
Qed.
Print Assumptions C01_daily_reload_stable.

Definition tidd_sub : submodel :=
  {| sm_key := "fw-su_sh_wi";
     sm_c := Build_coeffs F Tidd 20%float None None None None None None;
     sm_tc := Build_tconstr F 10%float 90%float 10%float 90%float;
     sm_func := 1%float |}.
Definition legacy_witness : daily_state :=
  {| ds_subs := [tidd_sub]; ds_error := JObj []; ds_tz := "UTC"; ds_dq := []; ds_warnings := [];
     ds_settings := legacy_default_settings |}.
Lemma legacy_witness_wf : wf_state legacy_witness.
Proof. split; constructor. Qed.

(* regression witness: without the legacy fallback the default legacy DailyModel
   -- its settings are what DailyLegacySettings().model_dump() writes -- cannot be read back *)
Theorem C01_regression_one_settings_class_refuted :
  wf_state legacy_witness /\ accepts (ctor_schema PLegacy) (ds_settings legacy_witness) = true /\
  from_doc_one_class cur leg Daily (to_doc Daily legacy_witness) = None /\
  from_doc' Daily (to_doc Daily legacy_witness) = Some legacy_witness.
Proof. split; [exact legacy_witness_wf|]. vm_compute. repeat split. Qed.
Print Assumptions C01_regression_one_settings_class_refuted.

Theorem C01_regression_one_settings_class_iff : forall s, wf_state s ->
  (from_doc_one_class cur leg Daily (to_doc Daily s) = Some s <-> accepts cur (ds_settings s) = true) /\
  (from_doc_one_class cur leg Daily (to_doc Daily s) = None <-> accepts cur (ds_settings s) = false).
Proof.
  intros s Hwf. rewrite one_class_split, to_doc_settings, (rest_of_to_doc Daily s _ Hwf). cbn [schema_of settings_out].
  rewrite with_settings_same. destruct (accepts cur (ds_settings s)); split; split; intros; try reflexivity; discriminate.
Qed.
Print Assumptions C01_regression_one_settings_class_iff.

(* non-vacuity: a two-way weekday/weekend split under a re-mapped Friday; the routing follows the stored map *)
Definition wdwe_settings : json :=
  match current_default_settings with
  | JObj o => JObj (set "weekday_weekend"
                        (JObj [("monday", JStr "weekday"); ("tuesday", JStr "weekday"); ("wednesday", JStr "weekday");
                               ("thursday", JStr "weekday"); ("friday", JStr "weekend"); ("saturday", JStr "weekend");
                               ("sunday", JStr "weekend"); ("options", JArr [JStr "weekday"; JStr "weekend"])]) o)
  | j => j
  end.
Definition wdwe_witness : daily_state :=
  {| ds_subs := [{| sm_key := "wd-su_sh_wi"; sm_c := Build_coeffs F Tidd 20%float None None None None None None;
                    sm_tc := Build_tconstr F 10%float 90%float 10%float 90%float; sm_func := 1%float |};
                 {| sm_key := "we-su_sh_wi"; sm_c := Build_coeffs F Tidd 35%float None None None None None None;
                    sm_tc := Build_tconstr F 10%float 90%float 10%float 90%float; sm_func := 2%float |}];
     ds_error := JObj [("RMSE", JNum 1%float)]; ds_tz := "US/Pacific";
     ds_dq := [{| w_name := "eemeter.model_fit_metrics.cvrmse"; w_desc := "Fit model has CVRMSE > 1.0";
                  w_data := JObj [("CVRMSE", JNum 2%float)] |}];
     ds_warnings := []; ds_settings := wdwe_settings |}.

Example C01_current_nonvacuous :
  accepts cur (ds_settings wdwe_witness) = true /\
  from_doc' Daily (to_doc Daily wdwe_witness) = Some wdwe_witness /\
  (* a Friday (5) of July goes to the weekend model, a Thursday (4) to the weekday model *)
  route (maps_of cur wdwe_witness) (ds_subs wdwe_witness) 7 5 = ["we-su_sh_wi"] /\
  route (maps_of cur wdwe_witness) (ds_subs wdwe_witness) 7 4 = ["wd-su_sh_wi"] /\
  (* ... which a reader that routed with the DEFAULT day map would get wrong *)
  route (season_map cur current_default_settings, weekday_map cur current_default_settings)
        (ds_subs wdwe_witness) 7 5 = ["wd-su_sh_wi"].
Proof. vm_compute. repeat split. Qed.

Example C01_billing_nonvacuous :
  accepts leg legacy_default_settings = true /\
  from_doc' Billing (to_doc Billing legacy_witness) = Some (with_settings legacy_witness billing_default_settings).
Proof. split; vm_compute; reflexivity. Qed.

(* the two settings classes have the same fields, nesting and kinds (same_shape compares neither defaults nor
   developer marks); a developer-mode legacy tree is accepted by both *)
Example C01_schemas_nonvacuous :
  accepts leg (force_dev legacy_default_settings) = true /\ accepts cur (force_dev legacy_default_settings) = true /\
  accepts cur current_default_settings = true /\ accepts cur legacy_default_settings = false /\
  same_shape cur leg = true /\ defaults_ok cur = true /\ defaults_ok leg = true.
Proof. vm_compute. repeat split. Qed.

(* the developer-mode lock is what rejects: one developer field away from its default, with and without the flag *)
Example C01_lock_examples :
  accepts cur (JObj [("segment_minimum_count", JInt 8)]) = false /\
  accepts cur (JObj [("developer_mode", JBool true); ("segment_minimum_count", JInt 8)]) = true /\
  accepts cur (JObj [("season", JObj [("january", JStr "summer")])]) = true /\
  accepts cur (JObj [("season", JObj [("january", JStr "hot")])]) = false /\
  accepts cur (JObj [("split_selection", JObj [("penalty_power", JNum 3%float)])]) = false.
Proof. vm_compute. repeat split. Qed.

(* the cross-field validators are part of [accepts] (each line is replayed on the real classes: CROSS in harness/c01lib.py) *)
Example C01_cross_field_examples :
  let dev := ("developer_mode", JBool true) in
  accepts cur (JObj [dev; ("alpha_final", JNull)]) = false /\
  accepts cur (JObj [dev; ("alpha_final", JNull); ("alpha_final_type", JNull); ("final_bounds_scalar", JNull)]) = true /\
  accepts cur (JObj [dev; ("alpha_final", JNum 3%float)]) = false /\
  accepts cur (JObj [dev; ("alpha_final", JNum 1.5%float)]) = true /\
  accepts cur (JObj [dev; ("final_bounds_scalar", JNum 0%float)]) = false /\
  accepts cur (JObj [dev; ("initial_step_percentage", JNum 0.75%float)]) = false /\
  accepts cur (JObj [dev; ("initial_step_percentage", JNull)]) = false /\
  accepts cur (JObj [dev; ("initial_step_percentage", JNull); ("algorithm_choice", JStr "scipy_slsqp")]) = true /\
  accepts cur (JObj [dev; ("split_selection", JObj [("reduce_splits_num_std", JArr [JNum 1%float])])]) = false /\
  accepts cur (JObj [dev; ("split_selection", JObj [("reduce_splits_num_std", JArr [JNum 1%float; JNum (-1)%float])])]) = false.
Proof. vm_compute. repeat split. Qed.

(* A stored document is an unordered JSON object.  [reads_like d d']: d' holds the same settings tree and the same info
   entries as d, and the same sub-models up to the ORDER OF KEYS at every level of the parameter part -- the top-level
   object, "info", the "submodels" mapping, each sub-model entry, its "coefficients" and its "temperature_constraints".
   Then from_dict reads d' whenever it reads d, and the two objects are the same model: every sub-model by its key,
   hence every prediction at every temperature, the settings (hence the day routing), timezone, warnings,
   disqualifications.  (The reader looks every value up BY NAME; a reader taking temperature_constraints by position
   does not satisfy this.) *)
Print reads_like.
Print same_submodels.
Print same_submodel.
Print same_fields.
Print same_model.

Theorem C01_daily_key_order_irrelevant : forall c d d' s, reads_like d d' -> from_doc' c d = Some s ->
  exists s', from_doc' c d' = Some s' /\ same_model s s'.
Proof.
  intros c d d' s Hr H. rewrite from_doc_split in *. rewrite (proj1 Hr).
  destruct (field "settings" d) as [st|]; [|discriminate].
  destruct (accepts (schema_of cur leg c) st || _); [exact (rest_of_key_order d d' st s Hr H) | discriminate].
Qed.
Print Assumptions C01_daily_key_order_irrelevant.

(* what makes a re-ordering harmless: a lookup by name does not see the order of the entries (keys distinct) *)
Theorem C01_lookup_ignores_key_order : forall k (o o' : list (string * json)),
  NoDup (map fst o) -> Permutation o o' -> get k o' = get k o.
Proof. exact get_perm. Qed.
Print Assumptions C01_lookup_ignores_key_order.

Theorem C01_coefficients_ignore_key_order : forall o o', NoDup (map fst o) -> Permutation o o' ->
  parse_coeffs (JObj o') = parse_coeffs (JObj o) /\ parse_tc (JObj o') = parse_tc (JObj o).
Proof.
  intros o o' Hnd Hp. pose proof (perm_same_fields o o' Hnd Hp) as H.
  split; [apply parse_coeffs_order | apply parse_tc_order]; exact H.
Qed.
Print Assumptions C01_coefficients_ignore_key_order.

(* any permutation of the top-level keys gives a document that reads like the original *)
Theorem C01_top_level_order_reads_like : forall o o' l, nodupb (map fst o) = true -> Permutation o o' ->
  get "submodels" o = Some (JObj l) -> nodupb (map fst l) = true -> reads_like (JObj o) (JObj o').
Proof.
  intros o o' l Hnd Hp Hl Hndl. pose proof (perm_same_fields o o' (nodupb_sound _ Hnd) Hp) as Hf.
  split; [apply Hf|]. split; [rewrite (Hf "info"); apply optrel_same_fields_refl|].
  exists l, l. split; [exact Hl|]. split; [rewrite (Hf "submodels"); exact Hl|].
  split; [apply nodupb_sound; exact Hndl|]. intros k. destruct (get k l); cbn; [apply same_submodel_refl | exact I].
Qed.
Print Assumptions C01_top_level_order_reads_like.

(* non-vacuity: the weekday/weekend witness with every mapping of its parameter part reversed *)
Definition rev_obj (j : json) : json := match j with JObj o => JObj (rev o) | _ => j end.
Definition reorder_sub (j : json) : json :=
  match j with
  | JObj o => JObj (rev (map (fun kv => (fst kv, if String.eqb (fst kv) "f_unc" then snd kv else rev_obj (snd kv))) o))
  | _ => j
  end.
Definition reorder_doc (d : json) : json :=
  match d with
  | JObj o => JObj (rev (map (fun kv =>
      (fst kv, if String.eqb (fst kv) "submodels"
               then match snd kv with JObj l => JObj (rev (map (fun e => (fst e, reorder_sub (snd e))) l)) | v => v end
               else if String.eqb (fst kv) "info" then rev_obj (snd kv) else snd kv)) o))
  | _ => d
  end.

Example C01_key_order_nonvacuous :
  (* the hypothesis is satisfiable by a genuine re-ordering *)
  reads_like (to_doc Daily wdwe_witness) (rev_obj (to_doc Daily wdwe_witness)) /\
  (* and on the fully re-ordered document (all six levels) the reader as coded gives the same model *)
  reorder_doc (to_doc Daily wdwe_witness) <> to_doc Daily wdwe_witness /\
  exists s', from_doc' Daily (reorder_doc (to_doc Daily wdwe_witness)) = Some s' /\
             predict_sub s' "we-su_sh_wi" 40%float = predict_sub wdwe_witness "we-su_sh_wi" 40%float /\
             predict_sub s' "wd-su_sh_wi" 95%float = predict_sub wdwe_witness "wd-su_sh_wi" 95%float /\
             ds_settings s' = ds_settings wdwe_witness /\ ds_tz s' = ds_tz wdwe_witness /\ ds_dq s' = ds_dq wdwe_witness.
Proof.
  split.
  - unfold to_doc, rev_obj. eapply C01_top_level_order_reads_like; [vm_compute; reflexivity | apply Permutation_rev | reflexivity | vm_compute; reflexivity].
  - split.
    + intros H. apply (f_equal (fun j => match j with JObj ((k, _) :: _) => k | _ => "" end)) in H. vm_compute in H. discriminate H.
    + (* the reader meets the sub-models in the reversed order; nothing else differs *)
      exists {| ds_subs := rev (ds_subs wdwe_witness); ds_error := ds_error wdwe_witness; ds_tz := ds_tz wdwe_witness;
                ds_dq := ds_dq wdwe_witness; ds_warnings := ds_warnings wdwe_witness;
                ds_settings := ds_settings wdwe_witness |}.
      split; [vm_compute; reflexivity|]. split; [vm_compute; reflexivity|]. split; [vm_compute; reflexivity|].
      repeat split.
Qed.

Notation lo := R_ln_min.
Notation hi := R_ln_max.
Print hinge.
Print H_term.
Print C_term.

(* prediction = intercept + H(T) + C(T), H(T) = beta_h S(bp_h' - T, k_h), C(T) = beta_c S(T - bp_c', k_c),
   S the documented smoothed hinge, (bp', k, beta) = the vector the stored parameters determine
   (C11_effective_vector of Properties/C11.v relates it to the stored balance points and percent-k);
   admissible / off_corner: the guards of C11 *)
Theorem C01_daily_closed_form : forall c tc, admissible lo hi c tc -> off_corner lo hi c tc -> forall T : R,
  predict_submodel RNum c tc T =
    Some ((intercept c + H_term lo hi (eff lo hi c tc) T + C_term lo hi (eff lo hi c tc) T)%R,
          H_term lo hi (eff lo hi c tc) T, C_term lo hi (eff lo hi c tc) T).
Proof. exact (daily_closed_form_l lo hi (proj1 R_ln_bounds) (proj2 R_ln_bounds)). Qed.
Print Assumptions C01_daily_closed_form.

(* non-vacuity: a heating-and-cooling document inside the optimiser box, away from the corner *)
Example C01_closed_form_nonvacuous :
  let c := Build_coeffs RNum HddTiddCdd 20%R (Some 50%R) (Some 1.5%R) None (Some 65%R) (Some 2%R) None in
  let tc := Build_tconstr RNum 10%R 90%R 12%R 88%R in
  admissible lo hi c tc /\ off_corner lo hi c tc.
Proof.
  intros c tc. assert (Ha : admissible lo hi c tc).
  { unfold admissible, bounds_ok, c, tc. cbn. repeat split; Lra.lra. }
  split; [exact Ha|]. apply (upper_below_Tmax_off_corner lo hi c tc Ha).
  unfold upper_bp, c, tc. cbn. Lra.lra.
Qed.

(* S is the documented k (u + e^-u - 1) wherever the package's exp clip is not reached (u <= 331.17) *)
Theorem C01_hinge_documented : forall d k : R, k <> 0%R -> (lo <= - (Rmax d 0 / k))%R ->
  hinge lo d k = (k * (Rmax d 0 / k + exp (- (Rmax d 0 / k)) - 1))%R.
Proof. exact (hinge_unclipped lo). Qed.
Print Assumptions C01_hinge_documented.

Theorem C01_hinge_unsmoothed : forall d : R, hinge lo d 0 = Rmax d 0.
Proof. intros d. unfold hinge. destruct (Req_EM_T 0 0) as [_|E]; [reflexivity | exfalso; apply E; reflexivity]. Qed.
Print Assumptions C01_hinge_unsmoothed.

From V Require Import Model.HourlyDoc Proofs.HourlyDocProofs.

(* Reading guide (hourly)
     hourly_state              the attributes HourlyModel.to_dict reads (Model/HourlyDoc.v)
     hourly_to_doc s           to_dict() as a JSON tree; None = it raises
     wf_hourly s               s is a fitted state as to_dict finds it (Proofs/HourlyDocProofs.v): writable warnings, one
                               (location, scale) per time-series feature, metrics an object, settings with a train_features
                               list, bin numbers as edge-bin keys
     hourly_from_doc paths d   from_dict(d) as coded; None = it raises; paths = the float-typed settings fields (generated)
     hourly_from_doc_before_c3a9d07e   the reader that called .items() on a null edge-bin map
     hourly_from_doc_by_train_features a reader that pairs the stored scaler statistics with the names in
                               settings.train_features order (a reader the code must not become)
     feature_scaler_of s name  the (location, scale) the scalers apply to the column of that feature
     inputs_of s               exactly the fields the prediction path reads (incl. timezone guard, disqualification gate)
     coerce paths st           pydantic's re-validation of the settings tree: an int in a float-typed field becomes a float;
                               validated s := it changes nothing (true of every settings object a constructor validated,
                               provided the class DEFAULTS are floats too: C01_hourly_defaults_validated, over the
                               regenerated default document)                                                       *)
Notation hpaths := hourly_float_paths.
Print hourly_inputs.

Definition validated (s : hourly_state) : Prop := coerce hpaths (hs_settings s) = hs_settings s.

Definition C01_hourly_holds (s : hourly_state) : Prop :=
  exists d s', hourly_to_doc s = Some d /\ hourly_from_doc hpaths d = Some s' /\
               hourly_to_doc s' = Some d /\                                   (* re-serialises to the same document *)
               inputs_of s' = inputs_of s /\                                  (* predicts identically (any function of the inputs) *)
               hs_tz s' = hs_tz s /\ hs_warnings s' = hs_warnings s /\ hs_dq s' = hs_dq s.

Definition C01_hourly_statement : Prop :=
  forall s d, wf_hourly s -> validated s -> hourly_to_doc s = Some d -> C01_hourly_holds s.

(* what from_dict makes of to_dict's document, in general *)
Theorem C01_hourly_from_doc_to_doc : forall s d, wf_hourly s -> hourly_to_doc s = Some d ->
  hourly_from_doc hpaths d = Some (with_hsettings s (coerce hpaths (hs_settings s))).
Proof.
  intros s d Hwf Hd. unfold hourly_from_doc. rewrite (hourly_from_doc_to_doc_gen hpaths true s d Hwf Hd).
  destruct (hs_edge_coeffs s); reflexivity.
Qed.
Print Assumptions C01_hourly_from_doc_to_doc.

(* THE STATEMENT HOLDS for the code as it is (with or without edge bins) *)
Theorem C01_hourly_roundtrip : C01_hourly_statement.
Proof.
  intros s d Hwf Hn Hd. exists d, s. split; [exact Hd|]. split.
  - rewrite (C01_hourly_from_doc_to_doc s d Hwf Hd). unfold validated in Hn. rewrite Hn, with_hsettings_same. reflexivity.
  - repeat split; try reflexivity. exact Hd.
Qed.
Print Assumptions C01_hourly_roundtrip.

(* the defaults of the settings classes are validated values (regenerated default document) *)
Theorem C01_hourly_defaults_validated : coerce hpaths hourly_default_settings = hourly_default_settings.
Proof. vm_compute. reflexivity. Qed.
Print Assumptions C01_hourly_defaults_validated.

(* field by field, also for a tree that is not validated: everything but the number text of those fields *)
Theorem C01_hourly_roundtrip_fields : forall s d, wf_hourly s -> hourly_to_doc s = Some d ->
  exists s', hourly_from_doc hpaths d = Some s' /\
    hs_settings s' = coerce hpaths (hs_settings s) /\ hs_edge_coeffs s' = hs_edge_coeffs s /\
    hs_clusters s' = hs_clusters s /\ hs_bin_edges s' = hs_bin_edges s /\
    hs_ts_features s' = hs_ts_features s /\ hs_cat_features s' = hs_cat_features s /\
    hs_loc s' = hs_loc s /\ hs_scale s' = hs_scale s /\ hs_y s' = hs_y s /\
    hs_coef s' = hs_coef s /\ hs_intercept s' = hs_intercept s /\ hs_metrics s' = hs_metrics s /\
    hs_tz s' = hs_tz s /\ hs_warnings s' = hs_warnings s /\ hs_dq s' = hs_dq s /\ hs_error s' = hs_error s /\
    hs_version s' = hs_version s.
Proof.
  intros s d Hwf Hd. rewrite (C01_hourly_from_doc_to_doc s d Hwf Hd). eexists. split; [reflexivity|]. repeat split.
Qed.
Print Assumptions C01_hourly_roundtrip_fields.

(* the prediction, as any function of the fields it reads, whose arithmetic does not tell an int from the equal float *)
Theorem C01_hourly_predict_restored : forall (data result : Type) (predict_fn : hourly_inputs -> data -> result),
  reads_values hpaths data result predict_fn ->
  forall s d, wf_hourly s -> hourly_to_doc s = Some d ->
  exists s', hourly_from_doc hpaths d = Some s' /\ forall x, predict_fn (inputs_of s') x = predict_fn (inputs_of s) x.
Proof.
  intros data result predict_fn Hrv s d Hwf Hd. rewrite (C01_hourly_from_doc_to_doc s d Hwf Hd).
  eexists. split; [reflexivity|]. intros x. rewrite inputs_restored. symmetry. exact (Hrv (inputs_of s) x).
Qed.
Print Assumptions C01_hourly_predict_restored.

(* no float-typed settings path starts with train_features (over the regenerated paths) *)
Lemma hpaths_avoid_train_features : forallb (path_avoids "train_features") hpaths = true.
Proof. vm_compute. reflexivity. Qed.

(* second generation: the reloaded model is a fixed point of to_dict / from_dict *)
Theorem C01_hourly_reserialise : forall s d, wf_hourly s -> hourly_to_doc s = Some d ->
  let s' := with_hsettings s (coerce hpaths (hs_settings s)) in
  hourly_from_doc hpaths d = Some s' /\
  exists d', hourly_to_doc s' = Some d' /\ hourly_from_doc hpaths d' = Some s'.
Proof.
  intros s d Hwf Hd s'. split; [exact (C01_hourly_from_doc_to_doc s d Hwf Hd)|].
  destruct (to_doc_with_hsettings s (coerce hpaths (hs_settings s)) d Hd) as [d' Hd']. exists d'. split; [exact Hd'|].
  rewrite (C01_hourly_from_doc_to_doc s' d' (wf_with_hsettings hpaths s hpaths_avoid_train_features Hwf) Hd').
  unfold s'. cbn [with_hsettings hs_settings]. rewrite coerce_idem. reflexivity.
Qed.
Print Assumptions C01_hourly_reserialise.

(* the integer keys of the edge-bin map come back as integers (what the prediction path indexes with) *)
Theorem C01_hourly_edge_keys_restored : forall s d n, wf_hourly s -> hourly_to_doc s = Some d ->
  exists s', hourly_from_doc hpaths d = Some s' /\
    edge_lookup_opt n (hs_edge_coeffs s') = edge_lookup_opt n (hs_edge_coeffs s).
Proof.
  intros s d n Hwf Hd. rewrite (C01_hourly_from_doc_to_doc s d Hwf Hd). eexists. split; reflexivity.
Qed.
Print Assumptions C01_hourly_edge_keys_restored.

(* every feature column gets its OWN scaler statistics back: the pair at the position of its name in _ts_features
   (the sorted order the scalers were fitted in), whatever the order of settings.train_features *)
Theorem C01_hourly_scaler_by_name : forall s d name, wf_hourly s -> hourly_to_doc s = Some d ->
  exists s', hourly_from_doc hpaths d = Some s' /\ feature_scaler_of s' name = feature_scaler_of s name.
Proof.
  intros s d name Hwf Hd. rewrite (C01_hourly_from_doc_to_doc s d Hwf Hd). eexists. split; reflexivity.
Qed.
Print Assumptions C01_hourly_scaler_by_name.

(* feature names are arbitrary strings (supplemental columns such as "Humidity", "Occ Flag", " wind ") and come back
   verbatim -- the reloaded model asks the reporting data for the very columns the fitted one used *)
Theorem C01_hourly_feature_names_verbatim : forall s d, wf_hourly s -> hourly_to_doc s = Some d ->
  exists s', hourly_from_doc hpaths d = Some s' /\
             hs_ts_features s' = hs_ts_features s /\ hs_cat_features s' = hs_cat_features s.
Proof.
  intros s d Hwf Hd. rewrite (C01_hourly_from_doc_to_doc s d Hwf Hd). eexists. split; [reflexivity|]. split; reflexivity.
Qed.
Print Assumptions C01_hourly_feature_names_verbatim.

(* looking the stored entries up by name along the order they were written in gives them back as stored (along another
   order it does not: C01_regression_scaler_by_settings_order_refuted) *)
Theorem C01_hourly_name_lookup_same_order : forall fs : list (string * json),
  NoDup (map fst fs) -> reorder (map fst fs) fs = Some fs.
Proof.
  intros fs. induction fs as [|[k v] fs IH]; intros Hnd; [reflexivity|].
  inversion Hnd as [|? ? Hnotin Hnd']; subst. cbn [map fst].
  rewrite reorder_cons. cbn [get]. rewrite String.eqb_refl.
  (* the other names are not k: for them the new entry does not matter *)
  rewrite (reorder_cons_notin _ k v fs Hnotin), (IH Hnd'). reflexivity.
Qed.
Print Assumptions C01_hourly_name_lookup_same_order.

(* witnesses *)
Definition h_settings_ok : json :=
  JObj [("train_features", JArr [JStr "temperature"]); ("temperature_bin", JObj [("bin_width", JNum 12%float)])].
Definition h_settings_int : json :=
  JObj [("train_features", JArr [JStr "temperature"]); ("temperature_bin", JObj [("bin_width", JInt 12)])].
Definition h_state (st : json) (edges : option (list (Z * list (string * float)))) : hourly_state :=
  {| hs_settings := st; hs_clusters := [(1, 0, 0); (1, 1, 1)]%Z; hs_bin_edges := [neg_infinity; 50%float; infinity];
     hs_edge_coeffs := edges; hs_ts_features := ["temperature"]; hs_cat_features := ["temporal_cluster_0"; "temp_bin_0"];
     hs_loc := [55%float]; hs_scale := [16%float]; hs_y := (1.5%float, 0.25%float);
     hs_coef := [[0.5%float; (-0.25)%float]]; hs_intercept := [0.125%float];
     hs_metrics := JObj [("rmse", JNum 0.5%float)];
     hs_warnings := [{| w_name := "eemeter.sufficiency_criteria.unable_to_confirm_daily_temperature_sufficiency";
                        w_desc := ""; w_data := JObj [] |}];
     hs_dq := []; hs_error := JObj []; hs_tz := "US/Pacific"; hs_version := "1.2.3" |}.
Definition edges2 : option (list (Z * list (string * float))) :=
  Some [(0%Z, [("t_a", 0.5%float); ("t_b", 0.5%float); ("k", 1.5%float); ("a", 1%float)]);
        (5%Z, [("t_a", 0.25%float); ("t_b", (-1)%float); ("k", 2%float); ("a", 1.5%float)])].

Lemma h_state_wf : forall st e, (exists tf, field "train_features" st = Some (jstrings tf)) ->
  match e with Some l => keys_ok l | None => True end -> wf_hourly (h_state st e).
Proof.
  intros st e Htf Hk. unfold wf_hourly, h_state. cbn.
  repeat split; try assumption; try reflexivity.
  - repeat constructor.
  - constructor.
  - eexists; reflexivity.
Qed.

Lemma edges2_ok : match edges2 with Some l => keys_ok l | None => True end.
Proof. cbn. repeat constructor; cbn; discriminate. Qed.

(* non-vacuity: with edge bins, and without (include_edge_bins = False) *)
Example C01_hourly_nonvacuous :
  wf_hourly (h_state h_settings_ok edges2) /\ validated (h_state h_settings_ok edges2) /\
  (exists d, hourly_to_doc (h_state h_settings_ok edges2) = Some d /\
             hourly_from_doc hpaths d = Some (h_state h_settings_ok edges2)) /\
  wf_hourly (h_state h_settings_ok None) /\
  (exists d, hourly_to_doc (h_state h_settings_ok None) = Some d /\
             hourly_from_doc hpaths d = Some (h_state h_settings_ok None)).
Proof.
  assert (Hv : coerce hpaths h_settings_ok = h_settings_ok) by (vm_compute; reflexivity).
  (* a validated well-formed state comes back as itself: C01_hourly_from_doc_to_doc *)
  assert (R : forall e, wf_hourly (h_state h_settings_ok e) ->
              exists d, hourly_to_doc (h_state h_settings_ok e) = Some d /\
                        hourly_from_doc hpaths d = Some (h_state h_settings_ok e)).
  { intros e Hwf. destruct (some_ex (hourly_to_doc (h_state h_settings_ok e)) eq_refl) as [d Hd].
    exists d. split; [exact Hd|]. rewrite (C01_hourly_from_doc_to_doc _ d Hwf Hd).
    cbn [h_state hs_settings]. rewrite Hv. apply (f_equal Some). apply (with_hsettings_same (h_state h_settings_ok e)). }
  assert (W2 : wf_hourly (h_state h_settings_ok edges2))
    by (apply h_state_wf; [exists ["temperature"]; reflexivity | exact edges2_ok]).
  assert (W0 : wf_hourly (h_state h_settings_ok None))
    by (apply h_state_wf; [exists ["temperature"]; reflexivity | exact I]).
  split; [exact W2|]. split; [exact Hv|]. split; [exact (R _ W2)|]. split; [exact W0 | exact (R _ W0)].
Qed.

(* the reader that called .items() on the stored null (hourly_from_doc_before_c3a9d07e) fails
   exactly on the models fitted with include_edge_bins = False *)
Theorem C01_regression_null_edge_map_refuted : forall s d, wf_hourly s -> hourly_to_doc s = Some d ->
  (hourly_from_doc_before_c3a9d07e hpaths d = None <-> hs_edge_coeffs s = None).
Proof.
  intros s d Hwf Hd. unfold hourly_from_doc_before_c3a9d07e. rewrite (hourly_from_doc_to_doc_gen hpaths false s d Hwf Hd).
  destruct (hs_edge_coeffs s); split; intros H; try reflexivity; discriminate.
Qed.
Print Assumptions C01_regression_null_edge_map_refuted.

(* a settings tree with an int in a float-typed field (what an
   unvalidated int DEFAULT leaves in the dump) is not validated, and the reloaded model writes "12.0" where the
   document says "12" -- the hypothesis [validated] of the statement is exactly what excludes it *)
Theorem C01_regression_int_default_refuted :
  wf_hourly (h_state h_settings_int edges2) /\ ~ validated (h_state h_settings_int edges2) /\
  exists d s' d', hourly_to_doc (h_state h_settings_int edges2) = Some d /\ hourly_from_doc hpaths d = Some s' /\
                  hourly_to_doc s' = Some d' /\ d' <> d.
Proof.
  assert (Hwf : wf_hourly (h_state h_settings_int edges2)).
  { apply h_state_wf; [exists ["temperature"]; reflexivity | exact edges2_ok]. }
  assert (Hnv : ~ validated (h_state h_settings_int edges2)).
  { unfold validated. intros H.
    apply (f_equal (fun j => bind (field "temperature_bin" j) (field "bin_width"))) in H. vm_compute in H. discriminate H. }
  split; [exact Hwf|]. split; [exact Hnv|].
  destruct (some_ex (hourly_to_doc (h_state h_settings_int edges2)) eq_refl) as [d Hd].
  destruct (C01_hourly_reserialise _ d Hwf Hd) as (Hs & d' & Hd' & _).
  exists d. eexists. exists d'. split; [exact Hd|]. split; [exact Hs|]. split; [exact Hd'|].
  (* the two documents carry the settings of their states, and the reloaded settings are the coerced ones *)
  intros H. apply Hnv. apply hourly_to_doc_settings in Hd, Hd'. rewrite H, Hd in Hd'.
  unfold validated. cbn [with_hsettings hs_settings] in Hd'. congruence.
Qed.
Print Assumptions C01_regression_int_default_refuted.

(* a solar model whose settings list the features as ghi, temperature while
   the model (and its scalers, and the stored ts_features / feature_scaler) use the sorted order temperature, ghi.
   A reader that takes the stored statistics by name ALONG settings.train_features hands the GHI statistics to the
   temperature column; the reader as coded does not. *)
Definition h_state_solar : hourly_state :=
  {| hs_settings := JObj [("train_features", JArr [JStr "ghi"; JStr "temperature"])];
     hs_clusters := [(1, 0, 0)]%Z; hs_bin_edges := [neg_infinity; infinity]; hs_edge_coeffs := None;
     hs_ts_features := ["temperature"; "ghi"]; hs_cat_features := ["temporal_cluster_0"];
     hs_loc := [55%float; 200%float]; hs_scale := [16%float; 250%float]; hs_y := (1.5%float, 0.25%float);
     hs_coef := [[0.5%float]]; hs_intercept := [0.125%float]; hs_metrics := JObj [];
     hs_warnings := []; hs_dq := []; hs_error := JObj []; hs_tz := "America/Chicago"; hs_version := "1.2.3" |}.

Theorem C01_regression_scaler_by_settings_order_refuted :
  feature_scaler_of h_state_solar "temperature" = Some (55%float, 16%float) /\
  exists d, hourly_to_doc h_state_solar = Some d /\
    (exists s', hourly_from_doc hpaths d = Some s' /\
                feature_scaler_of s' "temperature" = Some (55%float, 16%float) /\
                feature_scaler_of s' "ghi" = Some (200%float, 250%float)) /\
    (exists s', hourly_from_doc_by_train_features hpaths d = Some s' /\
                feature_scaler_of s' "temperature" = Some (200%float, 250%float)).
Proof.
  split; [reflexivity|]. eexists. split; [reflexivity|]. split.
  - eexists. split; [vm_compute; reflexivity|]. split; reflexivity.
  - eexists. split; [vm_compute; reflexivity|]. reflexivity.
Qed.
Print Assumptions C01_regression_scaler_by_settings_order_refuted.

(* supplemental columns with upper-case letters and blanks.  As coded the
   names come back verbatim (only the KEYS of the stored feature_scaler dictionary are lower-cased by the
   SerializeModel string config, which is harmless: each feature still gets its own statistics); a writer that also
   passes the feature names through that config hands the reloaded model names no data frame has. *)
Definition h_state_names : hourly_state :=
  {| hs_settings := JObj [("train_features", JArr [JStr "temperature"]);
                          ("supplemental_time_series_columns", JArr [JStr "Humidity"; JStr " wind "])];
     hs_clusters := [(1, 0, 0)]%Z; hs_bin_edges := [neg_infinity; infinity]; hs_edge_coeffs := None;
     hs_ts_features := ["temperature"; " wind "; "Humidity"]; hs_cat_features := ["temporal_cluster_0"; "Occ Flag"];
     hs_loc := [55%float; 5%float; 50%float]; hs_scale := [16%float; 1%float; 20%float]; hs_y := (1.5%float, 0.25%float);
     hs_coef := [[0.5%float]]; hs_intercept := [0.125%float]; hs_metrics := JObj [];
     hs_warnings := []; hs_dq := []; hs_error := JObj []; hs_tz := "UTC"; hs_version := "1.2.3" |}.

Theorem C01_regression_lowercased_names_refuted :
  (exists d s', hourly_to_doc h_state_names = Some d /\ hourly_from_doc hpaths d = Some s' /\
                hs_ts_features s' = ["temperature"; " wind "; "Humidity"] /\
                hs_cat_features s' = ["temporal_cluster_0"; "Occ Flag"] /\
                bind (field "feature_scaler" d) (field "humidity") = Some (JArr [JNum 50%float; JNum 20%float]) /\
                feature_scaler_of s' "Humidity" = Some (50%float, 20%float)) /\
  (exists d s', hourly_to_doc_lowercasing h_state_names = Some d /\ hourly_from_doc hpaths d = Some s' /\
                hs_ts_features s' = ["temperature"; "wind"; "humidity"] /\
                hs_cat_features s' = ["temporal_cluster_0"; "occ flag"]).
Proof.
  split.
  - eexists. eexists. split; [vm_compute; reflexivity|]. split; [vm_compute; reflexivity|].
    repeat split; vm_compute; reflexivity.
  - eexists. eexists. split; [vm_compute; reflexivity|]. split; [vm_compute; reflexivity|].
    split; vm_compute; reflexivity.
Qed.
Print Assumptions C01_regression_lowercased_names_refuted.

From V Require Import Model.CalTrackDoc Proofs.CalTrackDocProofs.

(* Reading guide (CalTRACK hourly)
     ct_state                  what the wrapper's to_dict reads (Model/CalTrackDoc.v)
     ct_to_doc / ct_from_doc   to_dict / from_dict as coded; None = raises
     wf_ct s, month_keys u     s is a fitted state (typed warnings, metrics objects, mapping as its segment type gives it);
                               the uncertainty map is keyed by "all" and month numbers (Proofs/CalTrackDocProofs.v)
     ct_from_doc_before_f37e6233   the reader that kept the month keys of unc_vars as the strings json produced
     ct_to_doc_objects         the serialiser before 3d0f44c1: every warning / metrics object must have a .json()
     reloaded_of r s           the object from_dict builds from to_dict's document (r = true: as coded)
     ct_inputs_of s            the fields the regression prediction reads
     unc_lookup u m            the uncertainty inputs predict applies to the rows of month m (typed values: int, float
                               incl. NaN, or a null kept verbatim); arith_ok e = predict's expression evaluates on e
     ct_to_doc_nan_as_null     a serialiser that writes non-finite statistics as null (a writer the code must not become) *)
Print reloaded_of.
Print unc_lookup.
Print key_applies.

Definition C01_caltrack_holds (s : ct_state) : Prop :=
  exists d s', ct_to_doc s = Some d /\ ct_from_doc d = Some s' /\
               ct_inputs_of s' = ct_inputs_of s /\
               (forall m, unc_lookup (ct_unc s') m = unc_lookup (ct_unc s) m) /\
               ct_to_doc s' = Some d.

Definition C01_caltrack_statement : Prop :=
  forall s d, wf_ct s -> month_keys (ct_unc s) -> ct_to_doc s = Some d -> C01_caltrack_holds s.

Theorem C01_caltrack_from_doc_to_doc : forall s d, wf_ct s -> ct_to_doc s = Some d ->
  ct_from_doc d = Some (reloaded_of true s).
Proof. intros s d Hwf Hd. rewrite (ct_to_doc_native s Hwf) in Hd. exact (ct_from_doc_to_doc_gen true s d Hwf Hd). Qed.
Print Assumptions C01_caltrack_from_doc_to_doc.

(* THE STATEMENT HOLDS for the code as it is: regression inputs, per-month uncertainty inputs, same document *)
Theorem C01_caltrack_roundtrip : C01_caltrack_statement.
Proof.
  intros s d Hwf Hk Hd.
  destruct (ct_roundtrip_canonical s d Hwf (month_keys_canonical _ Hk) Hd) as (Hs & Hin & Hunc & Hre).
  exists d, (reloaded_of true s). rewrite Hunc. repeat split; assumption.
Qed.
Print Assumptions C01_caltrack_roundtrip.

(* the regression prediction (any function of the segment models, lookup tables and segment mapping) is restored *)
Theorem C01_caltrack_predict_restored : forall (data result : Type) (predict_fn : ct_inputs -> data -> result),
  forall s d, wf_ct s -> ct_to_doc s = Some d ->
  exists s', ct_from_doc d = Some s' /\ forall x, predict_fn (ct_inputs_of s') x = predict_fn (ct_inputs_of s) x.
Proof.
  intros data result predict_fn s d Hwf Hd. exists (reloaded_of true s).
  split; [exact (C01_caltrack_from_doc_to_doc s d Hwf Hd)|]. intros x. rewrite ct_inputs_restored. reflexivity.
Qed.
Print Assumptions C01_caltrack_predict_restored.

(* the uncertainty entries come back value by value -- an int as that int, a float as that float, NaN (a calendar month
   without baseline rows) as NaN, never as a null -- so predict's arithmetic evaluates on the reloaded model wherever
   it did on the original *)
Theorem C01_caltrack_uncertainty_values_kept : forall s d, wf_ct s -> month_keys (ct_unc s) -> ct_to_doc s = Some d ->
  exists s', ct_from_doc d = Some s' /\ ct_unc s' = ct_unc s /\
             forall m, option_map arith_ok (unc_lookup (ct_unc s') m) = option_map arith_ok (unc_lookup (ct_unc s) m).
Proof.
  intros s d Hwf Hk Hd.
  destruct (ct_roundtrip_canonical s d Hwf (month_keys_canonical _ Hk) Hd) as (Hs & _ & Hunc & _).
  exists (reloaded_of true s). rewrite Hunc. repeat split. exact Hs.
Qed.
Print Assumptions C01_caltrack_uncertainty_values_kept.

(* a reader that keeps the string keys (ct_from_doc_before_f37e6233) loses the uncertainty
   inputs of every month of a month-keyed model (it keeps them only for the single key "all") *)
Theorem C01_regression_string_month_keys_refuted : forall s d m, wf_ct s -> ct_to_doc s = Some d ->
  Forall (fun kv => match fst kv with KMonth n => (0 <= n < 1000)%Z | _ => False end) (ct_unc s) ->
  exists s', ct_from_doc_before_f37e6233 d = Some s' /\ unc_lookup (ct_unc s') m = None.
Proof.
  intros s d m Hwf Hd Hk. rewrite (ct_to_doc_native s Hwf) in Hd.
  exists (reloaded_of false s). split; [exact (ct_from_doc_to_doc_gen false s d Hwf Hd)|]. apply unc_lost_months.
  revert Hk. apply Forall_impl. intros [[|n|t] e] H; cbn [fst] in *; [exact H | apply H | exact H].
Qed.
Print Assumptions C01_regression_string_month_keys_refuted.

Theorem C01_regression_string_month_keys_partial : forall s d, wf_ct s -> ct_to_doc s = Some d ->
  Forall (fun kv => fst kv = KAll) (ct_unc s) ->
  exists s', ct_from_doc_before_f37e6233 d = Some s' /\ ct_unc s' = ct_unc s.
Proof.
  intros s d Hwf Hd Hk. rewrite (ct_to_doc_native s Hwf) in Hd.
  exists (reloaded_of false s). split; [exact (ct_from_doc_to_doc_gen false s d Hwf Hd)|].
  (* the old reader does give "all" back *)
  apply unc_restored. revert Hk. apply Forall_impl. intros [k e] E. cbn [fst] in *. rewrite E. reflexivity.
Qed.
Print Assumptions C01_regression_string_month_keys_partial.

(* a serialiser that needs .json() on every object (ct_to_doc_objects) cannot write
   a reloaded model that carries metrics *)
Theorem C01_regression_objects_serialiser_refuted : forall r s x l, ct_totals s = MNative (x :: l) ->
  ct_to_doc_objects (reloaded_of r s) = None.
Proof.
  intros r s x l H. unfold ct_to_doc_objects.
  (* whatever the segments, the lookup and the warnings give, the totals are reloaded metrics *)
  apply bind_none. intros segs. apply bind_none. intros lk. apply bind_none. intros ws.
  unfold reloaded_of at 1. cbn [ct_totals]. rewrite H. reflexivity.
Qed.
Print Assumptions C01_regression_objects_serialiser_refuted.

(* witness: one fitted segment, month-keyed uncertainty inputs, metrics *)
Definition ct_witness : ct_state :=
  {| ct_status := "SUCCEEDED"; ct_method := "caltrack_hourly";
     ct_segments := [{| sg_name := "dec-jan-feb-weighted";
                        sg_formula := Some "meter_value ~ C(hour_of_week) - 1 + bin_0_occupied";
                        sg_params := [("C(hour_of_week)[0]", 1.5%float); ("bin_0_occupied", 0.25%float)];
                        sg_warnings := WTyped [] |}];
     ct_pred_type := "one_month"; ct_mapping := Some month_mapping;
     ct_processor := "caltrack_hourly_prediction_feature_processor";
     ct_occupancy := "{}"; ct_occ_bins := "{}"; ct_unocc_bins := "{}"; ct_segment_type := "three_month_weighted";
     ct_unc := [(KMonth 1, [("mean_baseline_usage", UFloat 2%float); ("n", UInt 744); ("n_prime", UFloat 700%float);
                            ("MSE", UFloat 0.5%float)]);
                (* a calendar month without baseline rows: NaN statistics *)
                (KMonth 2, [("mean_baseline_usage", UFloat nan); ("n", UInt 0); ("n_prime", UFloat nan);
                            ("MSE", UFloat nan)])];
     ct_warnings := WTyped []; ct_metadata := JObj []; ct_settings := JObj [];
     ct_totals := MNative [("dec-jan-feb-weighted", JObj [("rmse", JNum 0.5%float)])]; ct_avgs := MNone |}.

Lemma ct_witness_wf : wf_ct ct_witness.
Proof. unfold wf_ct, ct_witness. cbn. repeat split; repeat constructor. Qed.

Lemma ct_witness_months : month_keys (ct_unc ct_witness).
Proof. repeat constructor; cbn; discriminate. Qed.

(* a serialiser that writes the non-finite statistics as null. The document
   still reads back and re-serialises to itself, but the entry of the month without baseline rows now holds nulls:
   the original evaluates the uncertainty expression on it (NaN), the reloaded model raises TypeError *)
Theorem C01_regression_nan_as_null_refuted :
  option_map arith_ok (unc_lookup (ct_unc ct_witness) 2) = Some true /\
  exists d s', ct_to_doc_nan_as_null ct_witness = Some d /\ ct_from_doc d = Some s' /\
               option_map arith_ok (unc_lookup (ct_unc s') 2) = Some false /\
               ct_to_doc s' = Some d /\
               (* as coded, the same month keeps its NaN *)
               (exists d0 s0, ct_to_doc ct_witness = Some d0 /\ ct_from_doc d0 = Some s0 /\
                              option_map arith_ok (unc_lookup (ct_unc s0) 2) = Some true).
Proof.
  assert (Hnan : option_map arith_ok (unc_lookup (ct_unc ct_witness) 2) = Some true) by (vm_compute; reflexivity).
  split; [exact Hnan|].
  (* either serialiser writes a fitted state with month keys, so the round trip gives the reloaded model with the
     uncertainty entries of what was written: only those are evaluated *)
  destruct (some_ex (ct_to_doc_nan_as_null ct_witness) eq_refl) as [d Hd].
  assert (Hk : month_keys (ct_unc (with_unc_map null_nonfinite ct_witness))) by (repeat constructor; cbn; discriminate).
  destruct (ct_roundtrip_canonical (with_unc_map null_nonfinite ct_witness) d ct_witness_wf (month_keys_canonical _ Hk) Hd)
    as (Hs & _ & Hunc & Hre).
  exists d, (reloaded_of true (with_unc_map null_nonfinite ct_witness)).
  split; [exact Hd|]. split; [exact Hs|]. split; [rewrite Hunc; vm_compute; reflexivity|]. split; [exact Hre|].
  destruct (some_ex (ct_to_doc ct_witness) eq_refl) as [d0 Hd0].
  destruct (ct_roundtrip_canonical ct_witness d0 ct_witness_wf (month_keys_canonical _ ct_witness_months) Hd0)
    as (Hs0 & _ & Hunc0 & _).
  exists d0, (reloaded_of true ct_witness). split; [exact Hd0|]. split; [exact Hs0|]. rewrite Hunc0. exact Hnan.
Qed.
Print Assumptions C01_regression_nan_as_null_refuted.

Example C01_caltrack_nonvacuous :
  wf_ct ct_witness /\ month_keys (ct_unc ct_witness) /\ (exists d, ct_to_doc ct_witness = Some d) /\
  unc_lookup (ct_unc ct_witness) 1 <> None /\
  (* the two regression models do fail on it *)
  (exists d s', ct_to_doc ct_witness = Some d /\ ct_from_doc_before_f37e6233 d = Some s' /\ unc_lookup (ct_unc s') 1 = None) /\
  (exists d s', ct_to_doc ct_witness = Some d /\ ct_from_doc d = Some s' /\ ct_to_doc_objects s' = None /\ ct_to_doc s' = Some d).
Proof.
  pose proof ct_witness_wf as Hwf. pose proof ct_witness_months as Hk.
  destruct (some_ex (ct_to_doc ct_witness) eq_refl) as [d Hd].
  split; [exact Hwf|]. split; [exact Hk|]. split; [exists d; exact Hd|]. split; [vm_compute; discriminate|].
  (* the witness meets the hypotheses of the two regression theorems *)
  split; exists d.
  - assert (Hm : Forall (fun kv : ukey * uentry => match fst kv with KMonth n => (0 <= n < 1000)%Z | _ => False end)
                        (ct_unc ct_witness)) by (repeat constructor; cbn; discriminate).
    destruct (C01_regression_string_month_keys_refuted ct_witness d 1 Hwf Hd Hm) as (s' & Hs & Hu).
    exists s'. split; [exact Hd|]. split; assumption.
  - destruct (ct_roundtrip_canonical ct_witness d Hwf (month_keys_canonical _ Hk) Hd) as (Hs & _ & _ & Hre).
    exists (reloaded_of true ct_witness). split; [exact Hd|]. split; [exact Hs|]. split; [|exact Hre].
    exact (C01_regression_objects_serialiser_refuted true ct_witness _ _ eq_refl).
Qed.
