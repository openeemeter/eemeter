(* C11 — the daily model curve is continuous, monotone and its load components add up.

   The model is Model/DailyCurve.v (one text, written over the numeric dictionary of Model/Num.v), here at the
   real-number instance [RNum] (exp-clip bounds = the exact values of the package's two binary64 constants).
   Proofs/DailyCurveProofs.v has the closed-form curve, its properties ([curve_*]) and the model text in that form
   ([predict_closed], [on_curve]); the theorems below read those properties off the document's prediction.
   The lemmas there are stated at [RNumOf lo hi] for any bounds; [RNum] is that instance at the two constants BY DEFINITION, so
   `apply` / `exact` see through it, but a `rewrite` matches syntactically: where a term at [RNumOf lo hi] has to be rewritten with
   an equation at [RNum] (or the other way round), `change (RNumOf lo hi) with RNum` (or `unfold RNum`) comes first.
   The same text at [FNum] (binary64) is what harness/c11.py runs against the implementation's columns.

   Reading guide
     coeffs / tconstr          a stored sub-model document: ModelCoefficients + temperature_constraints
     predict_submodel c tc T   DailyModel._predict_submodel: Some (predicted, heating_load, cooling_load)
     admissible c tc           the document lies in the optimiser's box with the stored sign convention
                               (Print below)
     eff c tc                  the 7-vector full_model is called with (after get_full_model_x,
                               fix_full_model_x and, for hdd_tidd_cdd_smooth, get_smooth_coeffs):
                               x_hdd_bp / x_cdd_bp are the *shifted* balance points bp', x_hdd_k / x_cdd_k the
                               smoothing lengths k, x_hdd_beta / x_cdd_beta the slope magnitudes
     off_corner c tc           the guard: NOT (bp_h' = bp_c' >= T_max with a non-zero slope); there the kernel's
                               regime switch evaluates the heating branch on both sides (finding C11-F1, D16)   *)
From Coq Require Import Reals Lra List PrimFloat String Permutation.
From V Require Import Model.Num Model.NumR Model.NumF Model.DailyCurve Proofs.DailyCurveProofs.
Import ListNotations.
Local Open Scope R_scope.

Notation lo := R_ln_min.
Notation hi := R_ln_max.
Definition Hlo : lo <= 0 := proj1 R_ln_bounds.
Definition Hhi : 0 <= hi := proj2 R_ln_bounds.

Notation adm := (admissible lo hi).
Notation offc := (off_corner lo hi).
Notation E := (predicted lo hi).
Notation Hload := (heating_load lo hi).
Notation Cload := (cooling_load lo hi).
Notation x_of := (eff lo hi).

Print admissible.
Print off_corner.
Print off_corner_x.
Print curve.
Print branch.
Print sm.

(* ------------------------------------------------------------------ the full statement *)

(* everything the property text says about one document *)
Definition C11_holds (c : coeffs RNum) (tc : tconstr RNum) : Prop :=
  let x := x_of c tc in
  (* continuous *)
  continuity (E c tc) /\
  (* equals the temperature-independent load between the balance points *)
  (forall T, x_hdd_bp x <= T <= x_cdd_bp x -> E c tc T = intercept c) /\
  (* never decreases as it gets colder below the heating balance point / hotter above the cooling one *)
  (forall T1 T2, T1 <= T2 -> T2 <= x_hdd_bp x -> E c tc T2 <= E c tc T1) /\
  (forall T1 T2, x_cdd_bp x <= T1 -> T1 <= T2 -> E c tc T1 <= E c tc T2) /\
  (* exactly a straight line with the fitted slope beyond each balance point when unsmoothed *)
  (x_hdd_k x = 0 -> forall T, T <= x_hdd_bp x -> E c tc T = intercept c + x_hdd_beta x * (x_hdd_bp x - T)) /\
  (x_cdd_k x = 0 -> forall T, x_cdd_bp x <= T -> E c tc T = intercept c + x_cdd_beta x * (T - x_cdd_bp x)) /\
  (* asymptotically when smoothed (down to the floor beta k e^lo < beta k 2^-331 that the exp clip leaves) *)
  (forall eps, 0 < eps -> exists M, forall T, T < M ->
     0 <= E c tc T - (intercept c + x_hdd_beta x * ((x_hdd_bp x - x_hdd_k x) - T))
       <= x_hdd_beta x * x_hdd_k x * (eps + exp lo)) /\
  (forall eps, 0 < eps -> exists M, forall T, M < T ->
     0 <= E c tc T - (intercept c + x_cdd_beta x * (T - (x_cdd_bp x + x_cdd_k x)))
       <= x_cdd_beta x * x_cdd_k x * (eps + exp lo)) /\
  (* loads: non-negative, at most one non-zero, base + heating + cooling = prediction *)
  (forall T, 0 <= Hload c tc T /\ 0 <= Cload c tc T) /\
  (forall T, Hload c tc T = 0 \/ Cload c tc T = 0) /\
  (forall T, intercept c + Hload c tc T + Cload c tc T = E c tc T).

Definition C11_statement : Prop := forall c tc, adm c tc -> C11_holds c tc.

(* ------------------------------------------------------------------ what is proved *)

(* an admissible document always evaluates, and the vector the kernel sees is ordered and sign-correct *)
Theorem C11_effective_vector : forall c tc, adm c tc ->
  exists x, effective_x RNum c tc = Some x /\ good lo hi x /\ x_intercept x = intercept c /\
            lower_bp lo hi c <= x_hdd_bp x /\ x_cdd_bp x <= upper_bp lo hi c /\
            (x_hdd_beta x = heat_slope lo hi c \/ x_hdd_beta x = 0) /\
            (x_cdd_beta x = cool_slope lo hi c \/ x_cdd_beta x = 0) /\
            (interior lo hi c tc -> x_hdd_beta x = heat_slope lo hi c /\ x_cdd_beta x = cool_slope lo hi c) /\
            match model_type c with
            | HddTiddCddSmooth => x_hdd_bp x - x_hdd_k x = lower_bp lo hi c /\ x_cdd_bp x + x_cdd_k x = upper_bp lo hi c
            | _ => x_hdd_bp x = lower_bp lo hi c /\ x_cdd_bp x = upper_bp lo hi c
            end /\
            match model_type c with
            | HddTiddCdd | HddTidd | TiddCdd | Tidd => x_hdd_k x = 0 /\ x_cdd_k x = 0
            | _ => True
            end.
Proof. exact (effective_good lo hi). Qed.
Print Assumptions C11_effective_vector.

(* closed form of the three columns: base load + one smoothed side ([branch], Print above) beyond each balance point *)
Theorem C11_closed_form : forall c tc, adm c tc -> offc c tc -> forall T,
  predict_submodel RNum c tc T =
    Some (intercept c + heat_part lo hi (x_of c tc) T + cool_part lo hi (x_of c tc) T,
          heat_part lo hi (x_of c tc) T, cool_part lo hi (x_of c tc) T).
Proof. exact (predict_closed lo hi Hlo Hhi). Qed.
Print Assumptions C11_closed_form.

Theorem C11_curve_lipschitz : forall c tc, adm c tc -> offc c tc -> forall T1 T2,
  Rabs (E c tc T1 - E c tc T2) <= Rmax (x_hdd_beta (x_of c tc)) (x_cdd_beta (x_of c tc)) * Rabs (T1 - T2).
Proof.
  intros c tc A O T1 T2. destruct (on_curve lo hi Hlo Hhi c tc A O) as ((G1 & G2 & G3 & G4 & G5) & HE).
  rewrite !HE. apply (curve_lipschitz lo Hlo); assumption.
Qed.
Print Assumptions C11_curve_lipschitz.

Theorem C11_curve_continuous : forall c tc, adm c tc -> offc c tc -> continuity (E c tc).
Proof.
  intros c tc A O.
  apply lipschitz_continuity with (Rmax (x_hdd_beta (x_of c tc)) (x_cdd_beta (x_of c tc))).
  exact (C11_curve_lipschitz c tc A O).
Qed.
Print Assumptions C11_curve_continuous.

(* the Lipschitz bound in terms of the stored slopes (what the oracle evaluates on the implementation's column) *)
Theorem C11_curve_lipschitz_stored : forall c tc, adm c tc -> offc c tc -> forall T1 T2,
  Rabs (E c tc T1 - E c tc T2) <= Rmax (heat_slope lo hi c) (cool_slope lo hi c) * Rabs (T1 - T2).
Proof.
  intros c tc A O T1 T2. destruct (eff_slopes_le lo hi c tc A) as [S1 S2].
  eapply Rle_trans; [exact (C11_curve_lipschitz c tc A O T1 T2)|].
  apply Rmult_le_compat_r; [apply Rabs_pos|].
  apply Rmax_lub; [eapply Rle_trans; [exact S1 | apply Rmax_l] | eapply Rle_trans; [exact S2 | apply Rmax_r]].
Qed.
Print Assumptions C11_curve_lipschitz_stored.

Theorem C11_flat_between : forall c tc, adm c tc -> offc c tc -> forall T,
  x_hdd_bp (x_of c tc) <= T <= x_cdd_bp (x_of c tc) -> E c tc T = intercept c.
Proof.
  intros c tc A O T H. destruct (on_curve lo hi Hlo Hhi c tc A O) as ((G1 & G2 & G3 & G4 & G5) & HE).
  rewrite HE. apply (curve_flat lo Hlo); assumption.
Qed.
Print Assumptions C11_flat_between.

Theorem C11_never_below_base_load : forall c tc, adm c tc -> offc c tc -> forall T, intercept c <= E c tc T.
Proof.
  intros c tc A O T. destruct (on_curve lo hi Hlo Hhi c tc A O) as ((G1 & G2 & G3 & G4 & G5) & HE).
  rewrite HE. apply (curve_ge_base lo Hlo); assumption.
Qed.
Print Assumptions C11_never_below_base_load.

Theorem C11_heating_monotone : forall c tc, adm c tc -> offc c tc -> forall T1 T2,
  T1 <= T2 -> T2 <= x_hdd_bp (x_of c tc) -> E c tc T2 <= E c tc T1.
Proof.
  intros c tc A O T1 T2 H12 H2. destruct (on_curve lo hi Hlo Hhi c tc A O) as ((G1 & G2 & G3 & G4 & G5) & HE).
  rewrite !HE. apply (curve_heating_monotone lo Hlo); try assumption. lra.
Qed.
Print Assumptions C11_heating_monotone.

Theorem C11_cooling_monotone : forall c tc, adm c tc -> offc c tc -> forall T1 T2,
  x_cdd_bp (x_of c tc) <= T1 -> T1 <= T2 -> E c tc T1 <= E c tc T2.
Proof.
  intros c tc A O T1 T2 H1 H12. destruct (on_curve lo hi Hlo Hhi c tc A O) as ((G1 & G2 & G3 & G4 & G5) & HE).
  rewrite !HE. apply (curve_cooling_monotone lo Hlo); try assumption. lra.
Qed.
Print Assumptions C11_cooling_monotone.

Theorem C11_unsmoothed_linear_heating : forall c tc, adm c tc -> offc c tc -> forall T,
  x_hdd_k (x_of c tc) = 0 -> T <= x_hdd_bp (x_of c tc) ->
  E c tc T = intercept c + x_hdd_beta (x_of c tc) * (x_hdd_bp (x_of c tc) - T).
Proof.
  intros c tc A O T K HT. destruct (on_curve lo hi Hlo Hhi c tc A O) as ((G1 & G2 & G3 & G4 & G5) & HE).
  rewrite HE. apply (curve_heating_linear lo Hlo); assumption.
Qed.
Print Assumptions C11_unsmoothed_linear_heating.

Theorem C11_unsmoothed_linear_cooling : forall c tc, adm c tc -> offc c tc -> forall T,
  x_cdd_k (x_of c tc) = 0 -> x_cdd_bp (x_of c tc) <= T ->
  E c tc T = intercept c + x_cdd_beta (x_of c tc) * (T - x_cdd_bp (x_of c tc)).
Proof.
  intros c tc A O T K HT. destruct (on_curve lo hi Hlo Hhi c tc A O) as ((G1 & G2 & G3 & G4 & G5) & HE).
  rewrite HE. apply (curve_cooling_linear lo Hlo); assumption.
Qed.
Print Assumptions C11_unsmoothed_linear_cooling.

(* smoothed: exact distance to the asymptote  intercept + beta ((bp' - k) - T);  for hdd_tidd_cdd_smooth
   bp' - k is the stored balance point (C11_effective_vector), so the line is the one "with the fitted
   slope beyond the balance point" *)
Theorem C11_smoothed_remainder_heating : forall c tc, adm c tc -> offc c tc -> forall T,
  T <= x_hdd_bp (x_of c tc) -> lo <= - ((x_hdd_bp (x_of c tc) - T) / x_hdd_k (x_of c tc)) ->
  E c tc T - (intercept c + x_hdd_beta (x_of c tc) * ((x_hdd_bp (x_of c tc) - x_hdd_k (x_of c tc)) - T)) =
  x_hdd_beta (x_of c tc) * x_hdd_k (x_of c tc) * exp (- ((x_hdd_bp (x_of c tc) - T) / x_hdd_k (x_of c tc))).
Proof.
  intros c tc A O T HT Hc. destruct (on_curve lo hi Hlo Hhi c tc A O) as ((G1 & G2 & G3 & G4 & G5) & HE).
  rewrite HE, (curve_heating_remainder lo Hlo) by assumption.
  rewrite sm_unclipped by exact Hc. reflexivity.
Qed.
Print Assumptions C11_smoothed_remainder_heating.

Theorem C11_smoothed_remainder_cooling : forall c tc, adm c tc -> offc c tc -> forall T,
  x_cdd_bp (x_of c tc) <= T -> lo <= - ((T - x_cdd_bp (x_of c tc)) / x_cdd_k (x_of c tc)) ->
  E c tc T - (intercept c + x_cdd_beta (x_of c tc) * (T - (x_cdd_bp (x_of c tc) + x_cdd_k (x_of c tc)))) =
  x_cdd_beta (x_of c tc) * x_cdd_k (x_of c tc) * exp (- ((T - x_cdd_bp (x_of c tc)) / x_cdd_k (x_of c tc))).
Proof.
  intros c tc A O T HT Hc. destruct (on_curve lo hi Hlo Hhi c tc A O) as ((G1 & G2 & G3 & G4 & G5) & HE).
  rewrite HE, (curve_cooling_remainder lo Hlo) by assumption.
  rewrite sm_unclipped by exact Hc. reflexivity.
Qed.
Print Assumptions C11_smoothed_remainder_cooling.

Theorem C11_asymptote_heating : forall c tc, adm c tc -> offc c tc -> forall eps, 0 < eps ->
  exists M, forall T, T < M ->
    0 <= E c tc T - (intercept c + x_hdd_beta (x_of c tc) * ((x_hdd_bp (x_of c tc) - x_hdd_k (x_of c tc)) - T))
      <= x_hdd_beta (x_of c tc) * x_hdd_k (x_of c tc) * (eps + exp lo).
Proof.
  intros c tc A O eps Heps. destruct (on_curve lo hi Hlo Hhi c tc A O) as ((G1 & G2 & G3 & G4 & G5) & HE).
  exists (x_hdd_bp (x_of c tc) - x_hdd_k (x_of c tc) / eps). intros T HT.
  rewrite HE. apply (curve_heating_asymptote lo Hlo); assumption.
Qed.
Print Assumptions C11_asymptote_heating.

Theorem C11_asymptote_cooling : forall c tc, adm c tc -> offc c tc -> forall eps, 0 < eps ->
  exists M, forall T, M < T ->
    0 <= E c tc T - (intercept c + x_cdd_beta (x_of c tc) * (T - (x_cdd_bp (x_of c tc) + x_cdd_k (x_of c tc))))
      <= x_cdd_beta (x_of c tc) * x_cdd_k (x_of c tc) * (eps + exp lo).
Proof.
  intros c tc A O eps Heps. destruct (on_curve lo hi Hlo Hhi c tc A O) as ((G1 & G2 & G3 & G4 & G5) & HE).
  exists (x_cdd_bp (x_of c tc) + x_cdd_k (x_of c tc) / eps). intros T HT.
  rewrite HE. apply (curve_cooling_asymptote lo Hlo); assumption.
Qed.
Print Assumptions C11_asymptote_cooling.

(* the floor that the package's clip of the exponent leaves *)
Theorem C11_clip_floor_tiny : exp lo <= / 2 ^ 331.
Proof.
  assert (H : lo <= - INR 331).
  { rewrite INR_IZR_INZ. unfold R_ln_min. simpl Z.of_nat.
    apply Ropp_le_contravar. apply Rmult_le_reg_r with 17592186044416; [lra|].
    unfold Rdiv. rewrite Rmult_assoc, Rinv_l by lra. lra. }
  apply Rle_trans with (exp (- INR 331)).
  - apply exp_le. exact H.
  - rewrite exp_Ropp. apply Rinv_le_contravar; [apply pow_lt; lra | apply exp_nat_ge].
Qed.
Print Assumptions C11_clip_floor_tiny.

Theorem C11_loads_nonneg : forall c tc, adm c tc -> offc c tc -> forall T,
  0 <= Hload c tc T /\ 0 <= Cload c tc T.
Proof. exact (loads_nonneg lo hi Hlo Hhi). Qed.
Print Assumptions C11_loads_nonneg.

Theorem C11_loads_exclusive : forall c tc, adm c tc -> offc c tc -> forall T,
  Hload c tc T = 0 \/ Cload c tc T = 0.
Proof. exact (loads_exclusive lo hi Hlo Hhi). Qed.
Print Assumptions C11_loads_exclusive.

Theorem C11_loads_add_up : forall c tc, adm c tc -> offc c tc -> forall T,
  intercept c + Hload c tc T + Cload c tc T = E c tc T.
Proof. exact (loads_add_up lo hi Hlo Hhi). Qed.
Print Assumptions C11_loads_add_up.

Theorem C11_heating_load_only_below : forall c tc, adm c tc -> offc c tc -> forall T,
  x_hdd_bp (x_of c tc) <= T -> Hload c tc T = 0.
Proof.
  intros c tc A O T H. rewrite (heating_load_closed lo hi Hlo Hhi c tc A O).
  apply (branch_inactive lo Hlo). lra.
Qed.
Print Assumptions C11_heating_load_only_below.

Theorem C11_cooling_load_only_above : forall c tc, adm c tc -> offc c tc -> forall T,
  T <= x_cdd_bp (x_of c tc) -> Cload c tc T = 0.
Proof.
  intros c tc A O T H. rewrite (cooling_load_closed lo hi Hlo Hhi c tc A O).
  apply (branch_inactive lo Hlo). lra.
Qed.
Print Assumptions C11_cooling_load_only_above.

(* get_smooth_coeffs keeps the balance points ordered *)
Theorem C11_smooth_coeffs_order : forall hbp ph cbp pc : R, hbp <= cbp -> 0 <= ph -> 0 <= pc ->
  let '(hbp', hk, cbp', ck) := get_smooth_coeffs RNum hbp ph cbp pc in
  hbp <= hbp' /\ hbp' <= cbp' /\ cbp' <= cbp /\ 0 <= hk /\ 0 <= ck.
Proof. exact (smooth_coeffs_order lo hi). Qed.
Print Assumptions C11_smooth_coeffs_order.

(* the vector of an admissible document is ordered ([eff_good]): the swap that opens full_model never fires on it *)
Theorem C11_swap_never_fires : forall c tc, adm c tc -> order_bps RNum (x_of c tc) = x_of c tc.
Proof.
  intros c tc A. destruct (eff_good lo hi c tc A) as (_ & (G1 & _) & _).
  destruct (x_of c tc) as [hbp hbeta hk cbp cbeta ck icpt]. exact (order_bps_id lo hi hbp hbeta hk cbp cbeta ck icpt G1).
Qed.
Print Assumptions C11_swap_never_fires.

(* a sufficient condition for the guard, on the stored document alone *)
Theorem C11_off_corner_if_upper_bp_below_T_max : forall c tc, adm c tc ->
  upper_bp lo hi c < T_max tc -> offc c tc.
Proof. exact (upper_below_Tmax_off_corner lo hi). Qed.
Print Assumptions C11_off_corner_if_upper_bp_below_T_max.

(* the full statement under the guard *)
Theorem C11_statement_partial : forall c tc, adm c tc -> offc c tc -> C11_holds c tc.
Proof.
  intros c tc A O. unfold C11_holds.
  repeat split.
  - exact (C11_curve_continuous c tc A O).
  - exact (C11_flat_between c tc A O).
  - exact (C11_heating_monotone c tc A O).
  - exact (C11_cooling_monotone c tc A O).
  - intros K T; revert K. exact (C11_unsmoothed_linear_heating c tc A O T).
  - intros K T; revert K. exact (C11_unsmoothed_linear_cooling c tc A O T).
  - exact (C11_asymptote_heating c tc A O).
  - exact (C11_asymptote_cooling c tc A O).
  - apply (C11_loads_nonneg c tc A O).
  - apply (C11_loads_nonneg c tc A O).
  - exact (C11_loads_exclusive c tc A O).
  - exact (C11_loads_add_up c tc A O).
Qed.
Print Assumptions C11_statement_partial.

(* ------------------------------------------------------------------ the corner (finding C11-F1 / D16) *)

(* a heating-only document whose balance point sits on T_max (allowed by the optimiser's box whenever
   T_max_seg = T_max): hdd_tidd, base load 20, slope -1 per degree, balance point 70 = T_max *)
Definition corner_c : coeffs RNum :=
  Build_coeffs RNum HddTidd 20 (Some 70) (Some (-1)) None None None None.
Definition corner_tc : tconstr RNum := Build_tconstr RNum 10 70 10 70.

Example corner_admissible : adm corner_c corner_tc.
Proof. unfold admissible, bounds_ok; cbn. lra. Qed.

(* above T_max the heating line is extrapolated and the whole deficit is reported as a NEGATIVE cooling load *)
Theorem C11_corner_heating_line : forall (i bp beta Tmin Tminseg T : R),
  Tminseg <= bp -> beta < 0 -> bp < T ->
  predict_submodel RNum (Build_coeffs RNum HddTidd i (Some bp) (Some beta) None None None None)
                        (Build_tconstr RNum Tmin bp Tminseg bp) T
  = Some (i + - beta * (bp - T), 0, - beta * (bp - T)).
Proof. intros i bp beta Tmin Tminseg T H1 H2 H3. apply (corner_hdd_tidd lo hi); lra. Qed.
Print Assumptions C11_corner_heating_line.

(* base load 20, 25 degrees above the balance point: prediction 20 - 25 = -5, cooling load -25 *)
Lemma corner_value : predict_submodel RNum corner_c corner_tc 95 = Some (-5, 0, -25).
Proof.
  unfold corner_c, corner_tc. rewrite C11_corner_heating_line by lra.
  f_equal. apply f_equal2; [apply f_equal2|]; lra.
Qed.

Theorem C11_statement_refuted : ~ C11_statement.
Proof.
  intros S. destruct (S corner_c corner_tc corner_admissible) as (_ & _ & _ & _ & _ & _ & _ & _ & NN & _).
  destruct (NN 95) as [_ H]. unfold cooling_load in H.
  change (RNumOf lo hi) with RNum in H. rewrite corner_value in H. lra.
Qed.
Print Assumptions C11_statement_refuted.

(* the same document through the binary64 instance of the same text (what the implementation returns;
   harness/c11.py, stream "corner") *)
Definition corner_cf : coeffs FNum :=
  Build_coeffs FNum HddTidd 20%float (Some 70%float) (Some (-1)%float) None None None None.
Definition corner_tcf : tconstr FNum := Build_tconstr FNum 10%float 70%float 10%float 70%float.
Example C11_corner_value_binary64 :
  predict_submodel FNum corner_cf corner_tcf 95%float = Some ((-5)%float, 0%float, (-25)%float).
Proof. reflexivity. Qed.

(* ------------------------------------------------------------------ the shifted balance points never cross *)

(* Over the reals get_smooth_coeffs keeps the order (C11_smooth_coeffs_order); when the two smoothing fractions add
   up to one or more the shifted balance points MEET, and rounding could make them cross by one ulp (full_model would then
   swap the two sides, slopes included).  get_smooth_coeffs guards against that; the model text contains the guard exactly as
   coded, and with it the order holds for EVERY numeric instance whose comparisons are irreflexive / consistent -- no property
   of + - * / is used: *)
Theorem C11_smooth_coeffs_never_cross_any_num : forall N : num,
  (forall x : N, @n_ltb N x x = false) ->
  (forall a b : N, @n_leb N a b = true -> @n_ltb N b a = false) ->
  forall hb ph cb pc : N, @n_leb N hb cb = true ->
  let '(hb', _, cb', _) := get_smooth_coeffs N hb ph cb pc in @n_ltb N cb' hb' = false.
Proof. exact smooth_coeffs_never_cross. Qed.
Print Assumptions C11_smooth_coeffs_never_cross_any_num.

(* ... so the swap that opens full_model cannot fire on what get_smooth_coeffs returned for an ordered pair *)
Theorem C11_smooth_vector_not_swapped_any_num : forall N : num,
  (forall x : N, @n_ltb N x x = false) ->
  (forall a b : N, @n_leb N a b = true -> @n_ltb N b a = false) ->
  forall hb ph cb pc hbeta cbeta i : N, @n_leb N hb cb = true ->
  let '(hb', hk, cb', ck) := get_smooth_coeffs N hb ph cb pc in
  order_bps N (Build_fullx N hb' hbeta hk cb' cbeta ck i) = Build_fullx N hb' hbeta hk cb' cbeta ck i.
Proof.
  intros N Hirr Hle hb ph cb pc hbeta cbeta i H.
  pose proof (smooth_coeffs_never_cross N Hirr Hle hb ph cb pc H) as P.
  destruct (get_smooth_coeffs N hb ph cb pc) as [[[hb' hk] cb'] ck].
  unfold order_bps. cbn. rewrite P. reflexivity.
Qed.
Print Assumptions C11_smooth_vector_not_swapped_any_num.

(* the real instance satisfies the two comparison facts (no hypothesis left) *)
Theorem C11_smooth_coeffs_never_cross_R : forall hb ph cb pc : R, hb <= cb ->
  let '(hb', _, cb', _) := get_smooth_coeffs RNum hb ph cb pc in ~ cb' < hb'.
Proof.
  intros hb ph cb pc H.
  pose proof (smooth_coeffs_never_cross RNum Rltb_irrefl Rleb_not_gt hb ph cb pc (proj2 (Rleb_true hb cb) H)) as P.
  destruct (get_smooth_coeffs RNum hb ph cb pc) as [[[hb' hk] cb'] ck].
  change (Rltb cb' hb' = false) in P. apply Rltb_false in P. lra.
Qed.
Print Assumptions C11_smooth_coeffs_never_cross_R.

(* a binary64 input on which the two shifted points, computed independently, differ by one ulp the wrong way
   (hdd_bp 12.106478702938013, pct_hdd_k 0.4126133326537498, cdd_bp 16.12505849339802, pct_cdd_k 0.6380378622932393):
   with the guard they are equal ... *)
Definition cross_hb : float := (0x1.836846065adb4p+3)%float.
Definition cross_ph : float := (0x1.a6841c0690d18p-2)%float.
Definition cross_cb : float := (0x1.02003d55b3b45p+4)%float.
Definition cross_pc : float := (0x1.46ace61051849p-1)%float.
Example C11_old_rounding_witness_ordered_binary64 :
  let '(hbp', _, cbp', _) := get_smooth_coeffs FNum cross_hb cross_ph cross_cb cross_pc in
  PrimFloat.ltb cbp' hbp' = false /\ PrimFloat.eqb cbp' hbp' = true.
Proof. split; reflexivity. Qed.

(* ... and the heating side follows the heating slope: slope 1.75, base load 58, at -60 F the heating load is
   below 1.75 * (12.11 + 60) < 130 (with the sides swapped it would follow the cooling slope 5.25: more than 370) *)
Definition cross_c : coeffs FNum :=
  Build_coeffs FNum HddTiddCddSmooth 58%float (Some cross_hb) (Some 1.75%float) (Some cross_ph)
                                              (Some cross_cb) (Some 5.25%float) (Some cross_pc).
Definition cross_tc : tconstr FNum := Build_tconstr FNum 10%float 84%float 12%float 83%float.
Example C11_old_rounding_witness_slopes_kept :
  match predict_submodel FNum cross_c cross_tc (-60)%float with
  | Some (_, h, _) => PrimFloat.ltb h 130%float = true /\ PrimFloat.ltb 100%float h = true
  | None => False
  end.
Proof. split; reflexivity. Qed.

(* ------------------------------------------------------------------ the stored document is an unordered mapping *)

(* temperature_constraints is a JSON object read by key: any permutation of its (duplicate-free) entries gives the same
   constraints and therefore the same three prediction columns -- for every numeric instance (reals and binary64) *)
Theorem C11_lookup_permutation_invariant : forall (A : Type) (l l' : list (String.string * A)),
  Permutation.Permutation l l' -> NoDup (map fst l) -> forall k, lookup A k l = lookup A k l'.
Proof. exact lookup_permutation. Qed.
Print Assumptions C11_lookup_permutation_invariant.

Theorem C11_prediction_independent_of_key_order : forall (N : num) (c : coeffs N) (l l' : list (String.string * N)) (Ti : N),
  Permutation.Permutation l l' -> NoDup (map fst l) ->
  predict_submodel_doc N c l Ti = predict_submodel_doc N c l' Ti.
Proof.
  intros N c l l' Ti P ND. unfold predict_submodel_doc. rewrite (tconstr_of_assoc_permutation N l l' P ND). reflexivity.
Qed.
Print Assumptions C11_prediction_independent_of_key_order.

(* the sorted key order of json.dumps(sort_keys=True), binary64 *)
Example C11_sorted_keys_same_constraints :
  tconstr_of_assoc FNum [("T_max", 70); ("T_max_seg", 68); ("T_min", 10); ("T_min_seg", 12)]%string%float =
  tconstr_of_assoc FNum [("T_min", 10); ("T_max", 70); ("T_min_seg", 12); ("T_max_seg", 68)]%string%float.
Proof. reflexivity. Qed.

(* ------------------------------------------------------------------ non-vacuity *)

(* a smoothed two-sided document strictly inside the fitted range satisfies both hypotheses *)
Definition ex_c : coeffs RNum :=
  Build_coeffs RNum HddTiddCddSmooth 20 (Some 50) (Some 2) (Some (1/4)) (Some 70) (Some 1) (Some (1/2)).
Definition ex_tc : tconstr RNum := Build_tconstr RNum 0 100 10 90.
Example ex_admissible : adm ex_c ex_tc.
Proof. unfold admissible, bounds_ok; cbn. lra. Qed.
Example ex_off_corner : offc ex_c ex_tc.
Proof. apply C11_off_corner_if_upper_bp_below_T_max; [exact ex_admissible | cbn; lra]. Qed.
Example ex_holds : C11_holds ex_c ex_tc.
Proof. exact (C11_statement_partial ex_c ex_tc ex_admissible ex_off_corner). Qed.

(* every shape has admissible off-corner documents *)
Example ex_all_shapes : forall s, exists c tc, model_type c = s /\ adm c tc /\ offc c tc.
Proof.
  intros s.
  set (c := Build_coeffs RNum s 20 (Some 50) (Some (match s with HddTiddSmooth | HddTidd => -2 | _ => 2 end))
              (Some (1/4)) (Some 70) (Some 1) (Some (1/2))).
  exists c, ex_tc.
  assert (A : adm c ex_tc) by (destruct s; unfold admissible, bounds_ok; cbn; lra).
  split; [reflexivity|]. split; [exact A|].
  apply C11_off_corner_if_upper_bp_below_T_max; [exact A | destruct s; cbn; lra].
Qed.

(* the corner document is admissible but not off-corner: the guard is what excludes it *)
Example corner_not_off_corner : ~ offc corner_c corner_tc.
Proof.
  intros O. pose proof (C11_loads_nonneg corner_c corner_tc corner_admissible O 95) as [_ H].
  unfold cooling_load in H. change (RNumOf lo hi) with RNum in H. rewrite corner_value in H. lra.
Qed.
