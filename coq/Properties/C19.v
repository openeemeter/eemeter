(* C19 — billing aggregation of predictions conserves totals.
   The model is Model/BillingAgg.v; the lemmas are in Proofs/BillingAggProofs.v and Proofs/BillingAggRoot.v.
   [predict_agg mode has_obs a rows] is the part of BillingModel.predict (and BillingWeightedModel.predict: same text) that
   follows `df_res = self._predict(df)`: [rows] is that frame, [a] the `aggregation` argument, [has_obs] whether the
   reporting data carried an observed column, [mode] what is done when it did not: ObsRequired reads df_res["observed"]
   unconditionally (KeyError), ObsOptional aggregates observed only when it is present.  The full statement is a theorem
   for ObsOptional (C19_statement_repaired) and refuted for ObsRequired (C19_statement_refuted_as_coded); which of the two
   the source has is read from its regenerated table: ObsOptional (C19_source_obs_mode).  The check (harness/c19.py)
   also detects the mode on the implementation and reads the verdict for it from C19_mode_verdict, whose right-hand side
   [obs_mode_satisfies_statement] is defined in Model/BillingAggRun.v.
   The facts that tie the tables read from the source (Generated/BillingAggGen.v) to the model's are closed by evaluation in
   Proofs/BillingAggGenProofs.v (its source_... lemmas); they are conjoined here as C19_source_argument_chain / C19_source_aggregation_table. *)
From Coq Require Import ZArith QArith Reals List Bool String.
From V Require Import Model.BillingAgg Model.BillingAggRun Proofs.BillingAggProofs Proofs.BillingAggRoot.
From V Require Import Generated.BillingAggGen Proofs.BillingAggGenProofs.
Import ListNotations.
Open Scope Z_scope.

(* ---- the parts of the statement ---- *)
(* one row per calendar period: the labels are the first month present, then every k-th month, up to the period that
   contains the last month present (periods without any row included), each exactly once *)
Definition one_row_per_period (k : Z) (rows : list drow) (out : list arow) : Prop :=
  forall m0 m1, min_month rows = Some m0 -> max_month rows = Some m1 ->
    map a_label out = map (fun n => m0 + k * Z.of_nat n) (seq 0 (Z.to_nat ((m1 - m0) / k + 1))) /\
    NoDup (map a_label out) /\
    m0 + k * ((m1 - m0) / k) <= m1 < m0 + k * ((m1 - m0) / k + 1).

(* each row is the aggregate of the daily rows whose calendar month lies in its period *)
Definition group_values (k : Z) (rows : list drow) (out : list arow) : Prop :=
  forall o, In o out ->
    let g := period_rows k (a_label o) rows in
    a_obs o = nansum (map d_obs g) /\ a_pred o = nansum (map d_pred g) /\
    a_heat o = nansum (map d_heat g) /\ a_cool o = nansum (map d_cool g) /\
    a_temp o = nanmean (map d_temp g) /\ a_uncsq o = sumsq (map d_unc g) /\
    a_season o = first_some (map d_season g) /\ a_split o = first_some (map d_split g) /\
    a_mtype o = first_some (map d_mtype g).

(* totals over the whole span are those of the daily frame *)
Definition totals_conserved (rows : list drow) (out : list arow) : Prop :=
  (qsum (map a_obs out) == nansum (map d_obs rows))%Q /\ (qsum (map a_pred out) == nansum (map d_pred rows))%Q /\
  (qsum (map a_heat out) == nansum (map d_heat rows))%Q /\ (qsum (map a_cool out) == nansum (map d_cool rows))%Q /\
  (qsum (map a_uncsq out) == sumsq (map d_unc rows))%Q.

Definition documented (a : agg_arg) : Prop :=
  a = ArgNone \/ (exists s, a = ArgStr s /\ lower s = "none"%string) \/ a = ArgStr "monthly" \/ a = ArgStr "bimonthly".

(* ---- the full statement, for a given treatment of a missing observed column ---- *)
Definition C19_statement (mode : obs_mode) : Prop :=
  forall (has_obs : bool) (rows : list drow),
    (forall a k, (a = ArgStr "monthly" /\ k = 1) \/ (a = ArgStr "bimonthly" /\ k = 2) ->
       exists out, predict_agg mode has_obs a rows = Aggregated k out /\
                   one_row_per_period k rows out /\ group_values k rows out /\ totals_conserved rows out) /\
    (forall a, ~ documented a -> exists e, predict_agg mode has_obs a rows = Rejected e).

(* the same restricted to reporting data that carried usage *)
Definition C19_statement_with_observed (mode : obs_mode) : Prop :=
  forall (rows : list drow),
    (forall a k, (a = ArgStr "monthly" /\ k = 1) \/ (a = ArgStr "bimonthly" /\ k = 2) ->
       exists out, predict_agg mode true a rows = Aggregated k out /\
                   one_row_per_period k rows out /\ group_values k rows out /\ totals_conserved rows out) /\
    (forall a, ~ documented a -> exists e, predict_agg mode true a rows = Rejected e).

(* ---- the parts, for the aggregation function itself ---- *)
Theorem C19_one_row_per_period : forall k rows, 0 < k -> one_row_per_period k rows (aggregate k rows).
Proof.
  intros k rows Hk m0 m1 H0 H1. split; [apply aggregate_labels; assumption|]. split; [apply aggregate_labels_NoDup; exact Hk|].
  apply (aggregate_span k rows m0 m1 Hk H0 H1).
Qed.
Print Assumptions C19_one_row_per_period.

Theorem C19_group_values : forall k rows, 0 < k -> group_values k rows (aggregate k rows).
Proof.
  intros k rows Hk o Ho. destruct (aggregate_In k rows o Ho) as (m0 & m1 & j & _ & _ & _ & ->).
  cbn [agg_row a_label]. rewrite <- (days_of_period_rows k m0 j rows Hk). cbn. repeat split; reflexivity.
Qed.
Print Assumptions C19_group_values.

Theorem C19_totals_conserved : forall k rows, 0 < k -> totals_conserved rows (aggregate k rows).
Proof.
  intros k rows Hk. pose proof (fun col acol => aggregate_conserves col acol k rows Hk) as sums.
  split; [apply (sums d_obs a_obs); reflexivity|]. split; [apply (sums d_pred a_pred); reflexivity|].
  split; [apply (sums d_heat a_heat); reflexivity|]. split; [apply (sums d_cool a_cool); reflexivity|].
  apply sumsq_conserved, Hk.
Qed.
Print Assumptions C19_totals_conserved.

(* every daily row is counted in exactly one period *)
Theorem C19_every_row_in_exactly_one_period : forall k rows m0 m1 r, 0 < k ->
  min_month rows = Some m0 -> max_month rows = Some m1 -> In r rows ->
  exists j, In j (bins k m0 m1) /\ In r (days_of k m0 j rows) /\ forall j', In r (days_of k m0 j' rows) -> j' = j.
Proof.
  intros k rows m0 m1 r Hk H0 H1 Hin. exists (bin_of k m0 r).
  split; [exact (bin_of_in_bins k rows m0 m1 r Hk H0 H1 Hin)|]. split.
  - apply days_of_In. split; [exact Hin | reflexivity].
  - intros j' H. apply days_of_In in H as [_ <-]. reflexivity.
Qed.
Print Assumptions C19_every_row_in_exactly_one_period.

(* temperature is the mean: weighting the period means by their day counts gives back the daily total *)
Theorem C19_temperature_weighted_mean_conserved : forall k rows m0 m1, 0 < k ->
  min_month rows = Some m0 -> max_month rows = Some m1 ->
  (qsum (map (fun j => let g := map d_temp (days_of k m0 j rows) in inject_Z (count g) * cval (nanmean g)) (bins k m0 m1))
   == nansum (map d_temp rows))%Q.
Proof.
  intros k rows m0 m1 Hk H0 H1. rewrite <- (bins_conserve d_temp k rows m0 m1 Hk H0 H1).
  apply qsum_ext. intros j _. apply nanmean_weighted.
Qed.
Print Assumptions C19_temperature_weighted_mean_conserved.

(* uncertainty with its square root (real numbers): the root-sum-square of the returned column is the root-sum-square of
   the daily column, hence the same at every aggregation level *)
Theorem C19_uncertainty_rss_conserved : forall k rows, 0 < k ->
  rss (map unc_of (aggregate k rows)) = sqrt (Q2R (sumsq (map d_unc rows))).
Proof.
  intros k rows Hk. rewrite (rss_of_uncsq _ (aggregate_uncsq_nonneg k rows)). f_equal.
  apply Qreals.Qeq_eqR, sumsq_conserved, Hk.
Qed.
Print Assumptions C19_uncertainty_rss_conserved.

Theorem C19_uncertainty_same_at_every_level : forall rows,
  rss (map unc_of (aggregate 1 rows)) = rss (map unc_of (aggregate 2 rows)).
Proof. intros. rewrite !C19_uncertainty_rss_conserved by reflexivity. reflexivity. Qed.
Print Assumptions C19_uncertainty_same_at_every_level.

(* totals are the same at every aggregation level *)
Theorem C19_levels_agree : forall rows,
  (qsum (map a_obs (aggregate 1 rows)) == qsum (map a_obs (aggregate 2 rows)))%Q /\
  (qsum (map a_pred (aggregate 1 rows)) == qsum (map a_pred (aggregate 2 rows)))%Q /\
  (qsum (map a_heat (aggregate 1 rows)) == qsum (map a_heat (aggregate 2 rows)))%Q /\
  (qsum (map a_cool (aggregate 1 rows)) == qsum (map a_cool (aggregate 2 rows)))%Q.
Proof.
  intros rows.
  destruct (C19_totals_conserved 1 rows eq_refl) as (O1 & P1 & H1 & C1 & _).
  destruct (C19_totals_conserved 2 rows eq_refl) as (O2 & P2 & H2 & C2 & _).
  rewrite O1, O2, P1, P2, H1, H2, C1, C2. repeat split; reflexivity.
Qed.
Print Assumptions C19_levels_agree.

(* ---- the argument ---- *)
(* the documented arguments are those the parser does not refuse *)
Lemma documented_spec : forall a, match parse_arg a with Bad _ => ~ documented a | _ => documented a end.
Proof.
  intros [|s|]; [left; reflexivity | | intros [H|[(s & H & _)|[H|H]]]; discriminate H].
  destruct (parse_arg_str s) as [E|E|E|N0 N1 N2].
  - right. left. exists s. split; [reflexivity | exact E].
  - right. right. left. rewrite E. reflexivity.
  - right. right. right. rewrite E. reflexivity.
  - intros [H|[(s' & H & E)|[H|H]]]; try discriminate H; injection H as H; subst; contradiction.
Qed.

Theorem C19_bad_argument_rejected : forall mode has_obs a rows,
  ~ documented a -> exists e, predict_agg mode has_obs a rows = Rejected e.
Proof.
  intros mode has_obs a rows H. pose proof (documented_spec a) as D. unfold predict_agg.
  destruct (parse_arg a) as [|k|e]; [contradiction | contradiction | exists e; reflexivity].
Qed.
Print Assumptions C19_bad_argument_rejected.

Theorem C19_only_documented_accepted : forall mode has_obs a rows,
  (forall e, predict_agg mode has_obs a rows <> Rejected e) -> documented a.
Proof.
  intros mode has_obs a rows H. pose proof (documented_spec a) as D. unfold predict_agg in H.
  destruct (parse_arg a) as [|k|e]; [exact D | exact D | exfalso; exact (H e eq_refl)].
Qed.
Print Assumptions C19_only_documented_accepted.

Theorem C19_none_returns_daily_frame : forall mode has_obs a rows,
  (a = ArgNone \/ exists s, a = ArgStr s /\ lower s = "none"%string) -> predict_agg mode has_obs a rows = Daily rows.
Proof.
  intros mode has_obs a rows [->|[s [-> H]]]; unfold predict_agg; cbn [parse_arg]; [reflexivity|].
  rewrite H. reflexivity.
Qed.
Print Assumptions C19_none_returns_daily_frame.

(* ---- the full statement ---- *)
(* periods of any number of months *)
Lemma aggregate_parts : forall k rows, 0 < k ->
  one_row_per_period k rows (aggregate k rows) /\ group_values k rows (aggregate k rows) /\
  totals_conserved rows (aggregate k rows).
Proof.
  intros k rows Hk. split; [apply C19_one_row_per_period | split; [apply C19_group_values | apply C19_totals_conserved]]; exact Hk.
Qed.

Lemma statement_body : forall mode has_obs rows, (mode = ObsOptional \/ has_obs = true) ->
  forall a k, (a = ArgStr "monthly" /\ k = 1) \/ (a = ArgStr "bimonthly" /\ k = 2) ->
    exists out, predict_agg mode has_obs a rows = Aggregated k out /\
                one_row_per_period k rows out /\ group_values k rows out /\ totals_conserved rows out.
Proof.
  intros mode has_obs rows Hm a k H. destruct (documented_arguments_aggregate mode has_obs rows Hm) as [M1 M2].
  destruct H as [[-> ->]|[-> ->]].
  - exists (aggregate 1 rows). split; [exact M1 | apply aggregate_parts; reflexivity].
  - exists (aggregate 2 rows). split; [exact M2 | apply aggregate_parts; reflexivity].
Qed.

(* whichever way a missing observed column is treated, the statement holds whenever the reporting data carried usage *)
Theorem C19_statement_with_observed_holds : forall mode, C19_statement_with_observed mode.
Proof.
  intros mode rows. split; [apply statement_body; right; reflexivity | intros a H; apply C19_bad_argument_rejected; exact H].
Qed.
Print Assumptions C19_statement_with_observed_holds.

(* observed aggregated only when present: the full statement is a theorem *)
Theorem C19_statement_repaired : C19_statement ObsOptional.
Proof.
  intros has_obs rows. split; [apply statement_body; left; reflexivity | intros a H; apply C19_bad_argument_rejected; exact H].
Qed.
Print Assumptions C19_statement_repaired.

(* observed read unconditionally: refuted by any reporting data without usage (the statement quantifies over [has_obs]) *)
Definition f1_witness : list drow :=
  [mkdrow 18647 (Some (50#1)) None (Some (20#1)) (Some (1#2)) (Some 0) (Some 0) (Some 2%Z) (Some 0%Z) (Some 1%Z)]%Q.
Theorem C19_statement_refuted_as_coded : ~ C19_statement ObsRequired.
Proof.
  intros H. destruct (H false f1_witness) as [H1 _].
  destruct (H1 (ArgStr "monthly") 1 (or_introl (conj eq_refl eq_refl))) as [out [E _]].
  vm_compute in E. discriminate.
Qed.
Print Assumptions C19_statement_refuted_as_coded.

(* verdict per mode: the check evaluates [obs_mode_satisfies_statement] on the mode it observed *)
Theorem C19_mode_verdict : forall mode, C19_statement mode <-> obs_mode_satisfies_statement mode = true.
Proof.
  intros [|]; cbn; split; intros H; try reflexivity; try discriminate.
  - exfalso. exact (C19_statement_refuted_as_coded H).
  - exact C19_statement_repaired.
Qed.
Print Assumptions C19_mode_verdict.

(* ---- the calendar the periods are named by (days 2000-01-01 .. 2049-12-31, closed by computation) ---- *)
Theorem C19_calendar : forall d, 10957 <= d < 29220 -> calendar_ok d = true.
Proof. exact calendar_2000_2050. Qed.
Print Assumptions C19_calendar.

(* ---- non-vacuity: 2021-01-20 .. 2021-04-02 with a hole (no row in March), NaN cells, partial first and last month ---- *)
Definition ex_day (d : Z) (t o p : cell) : drow :=
  mkdrow d t o p (Some (1#2)%Q) (match p with Some _ => Some 1%Q | None => None end) (Some 0%Q) (Some 2%Z) (Some 0%Z) (Some 1%Z).
Definition ex_rows : list drow :=
  [ ex_day 18647 (Some 30) (Some 10) (Some 12);      (* 2021-01-20 *)
    ex_day 18648 None (Some 7) None;                 (* 2021-01-21, no temperature -> no prediction *)
    ex_day 18659 (Some 40) None None;                (* 2021-02-01, no usage *)
    ex_day 18660 (Some 50) (Some 5) (Some 6);        (* 2021-02-02 *)
    ex_day 18718 (Some 60) (Some 1) (Some 2);        (* 2021-04-01 *)
    ex_day 18719 (Some 70) (Some 3) (Some 4) ]%Q.    (* 2021-04-02 *)
Example C19_nonvacuous_monthly :
  map (fun o => (a_label o, a_temp o, a_obs o, a_pred o, a_uncsq o)) (aggregate 1 ex_rows)
  = [ (24252%Z, Some 30, 17, 12, 1#2); (24253%Z, Some 45, 5, 6, 1#2); (24254%Z, None, 0, 0, 0); (24255%Z, Some 65, 4, 6, 1#2) ]%Q
  /\ min_month ex_rows = Some 24252 /\ max_month ex_rows = Some 24255.
Proof. vm_compute. repeat split. Qed.
Example C19_nonvacuous_bimonthly :
  map (fun o => (a_label o, a_temp o, a_obs o, a_pred o, a_uncsq o)) (aggregate 2 ex_rows)
  = [ (24252%Z, Some 40, 22, 18, 1); (24254%Z, Some 65, 4, 6, 1#2) ]%Q.
Proof. vm_compute. reflexivity. Qed.
Example C19_nonvacuous_arguments :
  ~ documented (ArgStr "quarterly") /\ ~ documented (ArgStr "Monthly") /\ ~ documented ArgOther /\
  documented (ArgStr "NoNe") /\ predict_agg ObsRequired true (ArgStr "quarterly") ex_rows = Rejected ValueErr.
Proof.
  split; [exact (documented_spec (ArgStr "quarterly"))|]. split; [exact (documented_spec (ArgStr "Monthly"))|].
  split; [exact (documented_spec ArgOther)|]. split; [exact (documented_spec (ArgStr "NoNe")) | reflexivity].
Qed.
Example C19_refuted_witness_is_fine_when_repaired :
  exists out, predict_agg ObsOptional false (ArgStr "monthly") f1_witness = Aggregated 1 out /\ List.length out = 1%nat.
Proof. eexists. split; vm_compute; reflexivity. Qed.

(* ================================================================================================================
   The source's own tables (Generated/BillingAggGen.v, rewritten on every run by harness/translate_billing_agg.py from
   BillingModel.predict and BillingWeightedModel.predict: the if/elif chain on `aggregation`, and which column of df_res is
   reduced by which function, `observed` only when present).  [parse_arg_by], [aggregate_by] and
   [predict_agg_by] (Model/BillingAgg.v) interpret such tables.  The statement below is about the interpreted SOURCE
   tables, for every argument and every frame; the obligations C19_source_* stop checking when the source says
   something else. *)
Definition C19_source_statement (chain : arg_chain) (else_raises : err) (t : agg_table) : Prop :=
  forall (has_obs : bool) (rows : list drow),
    (forall a k, (a = ArgStr "monthly" /\ k = 1) \/ (a = ArgStr "bimonthly" /\ k = 2) ->
       exists out, predict_agg_by chain else_raises t has_obs a rows = Some (Aggregated k out) /\
                   one_row_per_period k rows out /\ group_values k rows out /\ totals_conserved rows out) /\
    (forall a, ~ documented a -> exists e, predict_agg_by chain else_raises t has_obs a rows = Some (Rejected e)) /\
    (forall a, (a = ArgNone \/ exists s, a = ArgStr s /\ lower s = "none"%string) ->
       predict_agg_by chain else_raises t has_obs a rows = Some (Daily rows)).

(* the tables of the source are the tables the model is written from (closed by computation on the regenerated file) *)
Theorem C19_source_argument_chain :
  (gen_arg_chain_billing = model_arg_chain /\ gen_arg_else_billing = ValueErr) /\
  (gen_arg_chain_weighted = model_arg_chain /\ gen_arg_else_weighted = ValueErr).
Proof. exact (conj source_arg_chain_billing source_arg_chain_weighted). Qed.
Print Assumptions C19_source_argument_chain.

Theorem C19_source_aggregation_table :
  gen_agg_table_billing = model_agg_table /\ gen_agg_table_weighted = model_agg_table.
Proof. exact (conj source_agg_table_billing source_agg_table_weighted). Qed.
Print Assumptions C19_source_aggregation_table.

(* for every argument: the source's chain decides exactly as the model's parser *)
Theorem C19_source_parse_is_model_parse : forall a,
  parse_arg_by gen_arg_chain_billing gen_arg_else_billing a = Some (parse_arg a) /\
  parse_arg_by gen_arg_chain_weighted gen_arg_else_weighted a = Some (parse_arg a).
Proof.
  intros a. destruct C19_source_argument_chain as [[-> ->] [-> ->]]. split; apply parse_arg_by_model.
Qed.
Print Assumptions C19_source_parse_is_model_parse.

(* for every frame: reducing the columns as the source's table says gives exactly the model's aggregate *)
Theorem C19_source_aggregate_is_model_aggregate : forall k rows,
  aggregate_by gen_agg_table_billing k rows = Some (aggregate k rows) /\
  aggregate_by gen_agg_table_weighted k rows = Some (aggregate k rows).
Proof.
  intros k rows. destruct C19_source_aggregation_table as [-> ->]. split; apply aggregate_by_model.
Qed.
Print Assumptions C19_source_aggregate_is_model_aggregate.

Lemma model_tables_statement : C19_source_statement model_arg_chain ValueErr model_agg_table.
Proof.
  intros has_obs rows. destruct (C19_statement_repaired has_obs rows) as [S1 S2]. repeat split.
  - intros a k Hk. destruct (S1 a k Hk) as [out [E R]]. exists out. rewrite predict_agg_by_model, E. split; [reflexivity | exact R].
  - intros a Ha. destruct (S2 a Ha) as [x E]. exists x. rewrite predict_agg_by_model, E. reflexivity.
  - intros a Ha. rewrite predict_agg_by_model, (C19_none_returns_daily_frame ObsOptional has_obs a rows Ha). reflexivity.
Qed.

(* the full statement, for the tables read from the source of the two classes *)
Theorem C19_source_statement_billing :
  C19_source_statement gen_arg_chain_billing gen_arg_else_billing gen_agg_table_billing.
Proof.
  destruct source_arg_chain_billing as [-> ->]. rewrite source_agg_table_billing. exact model_tables_statement.
Qed.
Print Assumptions C19_source_statement_billing.

Theorem C19_source_statement_weighted :
  C19_source_statement gen_arg_chain_weighted gen_arg_else_weighted gen_agg_table_weighted.
Proof.
  destruct source_arg_chain_weighted as [-> ->]. rewrite source_agg_table_weighted. exact model_tables_statement.
Qed.
Print Assumptions C19_source_statement_weighted.

(* the treatment of a missing observed column, read from the source, is the one for which C19_statement is a theorem *)
Theorem C19_source_obs_mode :
  table_obs_mode gen_agg_table_billing = ObsOptional /\ table_obs_mode gen_agg_table_weighted = ObsOptional /\
  C19_statement (table_obs_mode gen_agg_table_billing).
Proof.
  rewrite source_agg_table_billing, source_agg_table_weighted.
  split; [reflexivity | split; [reflexivity | exact C19_statement_repaired]].
Qed.
Print Assumptions C19_source_obs_mode.

(* ---- non-vacuity, and what the obligations exclude ---- *)
Example C19_source_tables_run :
  aggregate_by gen_agg_table_billing 1 ex_rows = Some (aggregate 1 ex_rows) /\
  List.length (aggregate 1 ex_rows) = 4%nat /\
  predict_agg_by gen_arg_chain_billing gen_arg_else_billing gen_agg_table_billing false (ArgStr "bimonthly") ex_rows
  = Some (Aggregated 2 (aggregate 2 ex_rows)) /\
  predict_agg_by gen_arg_chain_weighted gen_arg_else_weighted gen_agg_table_weighted true (ArgStr "quarterly") ex_rows
  = Some (Rejected ValueErr).
Proof. vm_compute. repeat split. Qed.

(* tables an edit of the source could produce: the first three give a wrong result, the last two fall outside the model
   (no result at all), so none can stand in for the source's table unnoticed *)
Definition table_with (c : string) (f : aggfn) : agg_table :=
  map (fun e => if String.eqb (fst (fst e)) c then (c, f, snd e) else e) model_agg_table.
Example C19_observed_by_mean_refuted :          (* observed aggregated by mean *)
  exists out, aggregate_by (table_with "observed" FMean) 1 ex_rows = Some out /\ ~ totals_conserved ex_rows out.
Proof. eexists. split; [vm_compute; reflexivity|]. intros [H _]. vm_compute in H. discriminate. Qed.
Example C19_uncertainty_by_sum_refuted :        (* uncertainty by plain sum: (sum u)^2 is not sum u^2 *)
  exists out, aggregate_by (table_with "predicted_unc" FSum) 2 ex_rows = Some out /\
              ~ (qsum (map (fun o => a_uncsq o * a_uncsq o) out) == sumsq (map d_unc ex_rows))%Q.
Proof. eexists. split; [vm_compute; reflexivity|]. intros H. vm_compute in H. discriminate. Qed.
Example C19_quarterly_chain_refuted :           (* "quarterly" accepted *)
  exists o, parse_arg_by (model_arg_chain ++ [(TEq "quarterly", RFreq "2MS")]) ValueErr (ArgStr "quarterly") = Some o /\
            o <> parse_arg (ArgStr "quarterly").
Proof. eexists. split; [vm_compute; reflexivity | discriminate]. Qed.
Example C19_month_end_rule_outside_model :      (* "2MS" -> "2ME": no calendar-period meaning in this model *)
  parse_arg_by [(TEq "bimonthly", RFreq "2ME")] ValueErr (ArgStr "bimonthly") = None.
Proof. reflexivity. Qed.
Example C19_other_reducer_refused :
  aggregate_by (table_with "observed" FOther) 1 ex_rows = None.
Proof. vm_compute. reflexivity. Qed.
