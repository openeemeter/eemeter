(* C08 — usage is conserved when meter data is resampled to days.
   The model is Model/Resample.v (exact rationals, time in whole UTC minutes, local-day boundaries as data: a day is a
   bucket [b_j, b_j+1) of any length, so 23-, 24- and 25-hour days are covered by the same theorems); the lemmas
   about it are in Proofs/ResampleProofs.v.
   Vocabulary: intervals rs = the constant-rate intervals [t_i, t_i+1) of the readings (the last reading is
   open-ended and has none); bucket_sum / bucket_count = usage / covered minutes of a bucket; bucket_value = NaN iff
   no covered minute; clean_day = downsample_and_clean_daily_data's value of a day (1/2 rule, 1/coverage scaling).
   A comment that opens with a name and a colon (partial_day: ...) gives the name under which DESIGN.md, section 5,
   lists the theorem. *)
From Coq Require Import ZArith QArith List Bool Lia.
From V Require Import Model.Resample Model.Cmp Generated.ResampleGen Proofs.ResampleProofs Proofs.ResampleGenProofs.
Import ListNotations.
Open Scope Z_scope.

(* ---- A. as_freq: spreading and conservation ---- *)

(* billing_period_conserved: the local days (c :: mid) that tile a billed period [ilo iv, ihi iv) add up to the
   billed amount, and each of them is covered completely (so none is missing) *)
Theorem C08_billing_period_conserved : forall rs iv v c mid,
  sorted_rs rs -> In iv (intervals rs) -> ival iv = Some v ->
  incr (c :: mid) -> c = ilo iv -> last mid c = ihi iv ->
  (sumQ (map (fun p => bucket_sum (fst p) (snd p) (intervals rs)) (pairs (c :: mid))) == v)%Q /\
  forall p, In p (pairs (c :: mid)) ->
    bucket_count (fst p) (snd p) (intervals rs) = snd p - fst p /\
    bucket_value (fst p) (snd p) (intervals rs) = Some (bucket_sum (fst p) (snd p) (intervals rs)).
Proof.
  intros rs iv v c mid Hs Hin Hv Hinc Hc Hl.
  pose proof (intervals_bounds rs iv Hs Hin) as (_ & Hlen & _).
  assert (forall p, In p (pairs (c :: mid)) -> ilo iv <= fst p /\ fst p < snd p /\ snd p <= ihi iv) as Hp.
  { intros p Hp. pose proof (pairs_in_bounds mid c p Hinc Hp). lia. }
  split.
  - rewrite bucket_sum_tiling, Hl, Hc by exact Hinc.
    destruct (bucket_in_period rs iv (ilo iv) (ihi iv) Hs Hin) as [Hb _]; try lia.
    rewrite Hb, contrib_inside, Hv by lia. reflexivity.
  - intros p Hin'. destruct (Hp p Hin') as (H1 & H2 & H3).
    destruct (bucket_in_period rs iv (fst p) (snd p) Hs Hin) as [_ Hc']; try lia.
    assert (bucket_count (fst p) (snd p) (intervals rs) = snd p - fst p) as Hcnt.
    { rewrite Hc'. unfold covered. rewrite Hv. apply overlap_bucket_inside; lia. }
    split; [exact Hcnt|]. apply bucket_value_some. lia.
Qed.
Print Assumptions C08_billing_period_conserved.

(* a period without usage (NaN reading / blanked by the off-cycle filter): every day inside it is missing *)
Theorem C08_period_without_usage_is_missing : forall rs iv lo hi,
  sorted_rs rs -> In iv (intervals rs) -> ival iv = None ->
  ilo iv <= lo -> lo <= hi -> hi <= ihi iv -> bucket_value lo hi (intervals rs) = None.
Proof.
  intros rs iv lo hi Hs Hin Hv H1 _ H3.
  destruct (bucket_in_period rs iv lo hi Hs Hin H1 H3) as [_ Hc].
  apply bucket_value_none. rewrite Hc. unfold covered. rewrite Hv. reflexivity.
Qed.
Print Assumptions C08_period_without_usage_is_missing.

(* nothing_invented: over day boundaries that span the series, the buckets add up to the readings of all closed
   intervals (every reading but the open-ended last one) *)
Theorem C08_nothing_invented : forall rs c rest, sorted_rs rs -> incr (c :: rest) ->
  c <= first_stamp rs -> last_stamp rs <= last rest c ->
  (sumQ (map (fun p => bucket_sum (fst p) (snd p) (intervals rs)) (pairs (c :: rest))) ==
   sumQ (map (fun r => oq0 (rval r)) (removelast rs)))%Q.
Proof.
  intros rs c rest Hs Hinc Hc Hl.
  rewrite bucket_sum_tiling, bucket_sum_sumQ, <- intervals_values by exact Hinc.
  (* the tiled range holds every interval whole *)
  apply sumQ_ext. intros iv Hiv.
  pose proof (intervals_bounds rs iv Hs Hiv) as (H1 & H2 & H3).
  apply contrib_inside; lia.
Qed.
Print Assumptions C08_nothing_invented.

(* the rows of as_freq are exactly the buckets from the first to the last stamp, each with its bucket value *)
Theorem C08_as_freq_rows : forall rs bs,
  map (fun r => (d_lo r, d_hi r, d_val r)) (as_freq_cum rs bs) =
  map (fun p => (fst p, snd p, bucket_value (fst p) (snd p) (intervals rs))) (filter (relevant rs) (pairs bs)).
Proof. intros. unfold as_freq_cum. apply rows_of_spec. Qed.
Print Assumptions C08_as_freq_rows.

(* nothing_invented for the rows as_freq returns (NaN read as 0): the buckets it leaves out, before the first and
   after the last stamp, hold no usage *)
Theorem C08_as_freq_conserves : forall rs c rest, sorted_rs rs -> incr (c :: rest) ->
  c <= first_stamp rs -> last_stamp rs <= last rest c ->
  (sumQ (map (fun r => oq0 (d_val r)) (as_freq_cum rs (c :: rest))) ==
   sumQ (map (fun r => oq0 (rval r)) (removelast rs)))%Q.
Proof.
  intros rs c rest Hs Hinc Hc Hl.
  rewrite <- (C08_nothing_invented rs c rest Hs Hinc Hc Hl).
  pose proof (f_equal (map (fun t => oq0 (snd t))) (C08_as_freq_rows rs (c :: rest))) as E.
  rewrite !map_map in E. cbn [snd] in E. rewrite E. symmetry.
  apply sumQ_filter_if. intros p _.
  destruct (relevant rs p) eqn:Hr; [symmetry; apply bucket_value_sum|apply irrelevant_empty; assumption].
Qed.
Print Assumptions C08_as_freq_conserves.

(* minute_grid_eq: the code's literal algorithm (1-minute forward-filled series, resample sum / count) gives the
   interval formula the other theorems are stated with *)
Theorem C08_minute_grid_eq : forall rs lo hi, sorted_rs rs -> lo <= hi ->
  (grid_bucket_sum rs lo hi == bucket_sum lo hi (intervals rs))%Q /\
  grid_bucket_count rs lo hi = bucket_count lo hi (intervals rs).
Proof.
  intros rs lo hi Hs Hle. unfold grid_bucket_sum, grid_bucket_count.
  remember (Z.to_nat (hi - lo)) as n eqn:En.
  assert (hi = lo + Z.of_nat n) as -> by (subst n; rewrite Z2Nat.id; lia). clear En Hle.
  (* minute by minute: the grid adds what the next one-minute bucket holds *)
  induction n as [|k [IH1 IH2]].
  - rewrite Z.add_0_r. destruct (bucket_empty (intervals rs) lo) as [E1 E2]. rewrite E1, E2. split; reflexivity.
  - replace (lo + Z.of_nat (S k)) with (lo + Z.of_nat k + 1) by lia.
    destruct (bucket_split (intervals rs) lo (lo + Z.of_nat k) (lo + Z.of_nat k + 1)) as [S1 S2]; try lia.
    destruct (minute_bucket rs (lo + Z.of_nat k) Hs) as [M1 M2].
    cbn [grid_sum grid_count]. rewrite Qred_correct, IH1, IH2, S1, S2, M1, M2. split; reflexivity.
Qed.
Print Assumptions C08_minute_grid_eq.

(* ---- B. days of sub-daily readings (downsample_and_clean_daily_data) ---- *)

(* partial_day: covered for more than half -> covered usage / coverage *)
Theorem C08_partial_day : forall lo hi ivs, lo < hi -> (1 # 2 < coverage lo hi ivs false)%Q ->
  oq_eq (clean_day lo hi ivs false) (Some (bucket_sum lo hi ivs / coverage lo hi ivs false)%Q).
Proof.
  intros lo hi ivs _ H. unfold clean_day, clean_value.
  assert (qltb half (coverage lo hi ivs false) = true) as -> by (apply qltb_true; exact H).
  unfold bucket_value. destruct (bucket_count lo hi ivs =? 0) eqn:E.
  - exfalso. apply Z.eqb_eq in E. rewrite coverage_day, E in H.
    assert ((inject_Z 0 / inject_Z (hi - lo)) == 0)%Q as Hz by (unfold Qdiv; change (inject_Z 0) with 0%Q; ring).
    rewrite Hz in H. discriminate H.
  - cbn [option_map oq_eq]. reflexivity.
Qed.
Print Assumptions C08_partial_day.

(* ... where, for aligned readings, the covered usage is the sum of the readings present in the day *)
Theorem C08_covered_usage_is_sum_of_readings : forall lo hi ivs, lo <= hi -> no_straddle lo hi ivs ->
  (bucket_sum lo hi ivs == readings_in lo hi ivs)%Q /\
  bucket_count lo hi ivs = zsum (map present_len (filter (inside lo hi) ivs)).
Proof. intros lo hi ivs _ Hn. split; [exact (bucket_sum_no_straddle lo hi ivs Hn)|exact (bucket_count_no_straddle lo hi ivs Hn)]. Qed.
Print Assumptions C08_covered_usage_is_sum_of_readings.

(* sparse_day: covered for half or less -> missing (as_freq + the 50 % rule; holds for clean_day itself, while the daily
   class as a whole refutes it: section E) *)
Theorem C08_sparse_day : forall lo hi ivs, (coverage lo hi ivs false <= 1 # 2)%Q -> clean_day lo hi ivs false = None.
Proof.
  intros lo hi ivs H. unfold clean_day, clean_value.
  assert (qltb half (coverage lo hi ivs false) = false) as -> by (apply qltb_false; exact H). reflexivity.
Qed.
Print Assumptions C08_sparse_day.

(* subdaily_full_day: no reading interval straddles the day's boundaries and the day is covered completely ->
   the day's value is the sum of the readings in it; the length of the day (hi - lo) is arbitrary *)
Theorem C08_subdaily_full_day : forall lo hi ivs, lo < hi -> no_straddle lo hi ivs ->
  bucket_count lo hi ivs = hi - lo ->
  oq_eq (clean_day lo hi ivs false) (Some (readings_in lo hi ivs)).
Proof.
  intros lo hi ivs Hlt Hn Hc.
  assert (coverage lo hi ivs false == 1)%Q as Hcov.
  { rewrite coverage_day, Hc. field. apply inject_Z_nonzero. lia. }
  assert (1 # 2 < coverage lo hi ivs false)%Q as Hhalf by (rewrite Hcov; reflexivity).
  apply (oq_eq_trans _ _ _ (C08_partial_day lo hi ivs Hlt Hhalf)). cbn [oq_eq].
  rewrite Hcov, (bucket_sum_no_straddle lo hi ivs Hn). field.
Qed.
Print Assumptions C08_subdaily_full_day.

(* readings on a regular grid (15/30/60 minutes) whose slots are in phase with the day boundaries never straddle *)
Theorem C08_regular_series_aligned : forall ivs step t0 lo hi, 0 < step ->
  (forall iv, In iv ivs -> ihi iv = ilo iv + step /\ (step | ilo iv - t0)) ->
  (step | lo - t0) -> (step | hi - t0) -> no_straddle lo hi ivs.
Proof.
  intros ivs step t0 lo hi Hs Hreg [m Hm] [n Hn] iv Hiv.
  destruct (Hreg iv Hiv) as [Hhi [k Hk]]. split; [lia|].
  (* slot k of the grid against the slots m and n of the two boundaries *)
  destruct (Z_le_gt_dec m k) as [Hmk|Hmk]; destruct (Z_le_gt_dec (k + 1) n) as [Hkn|Hkn].
  - right. right. nia.
  - right. left. nia.
  - left. nia.
  - left. nia.
Qed.
Print Assumptions C08_regular_series_aligned.

(* ---- C. clean_billing_data ---- *)

(* offcycle_dropped: what still carries usage after cleaning is a period of 25..35 (monthly) / 25..70 (bi-monthly)
   whole days with the billed amount of the input ...
   (whole_days cal offs: cal = false counts whole ELAPSED days, cal = true counts them on the local wall clock; the
   theorems hold for both, and which of the two the source follows is read from it on every run:
   gen_day_count_wall_clock, C08_generated_day_count_keeps_valid_period) *)
Theorem C08_offcycle_dropped : forall cal offs g rs iv v, In iv (intervals (clean_billing cal offs g rs)) -> ival iv = Some v ->
  25 <= whole_days cal offs (ilo iv) (ihi iv) <= max_days g /\ In (mkI (ilo iv) (ihi iv) (Some v)) (intervals rs).
Proof.
  intros cal offs g rs iv v Hin Hv. destruct (clean_billing_cases cal offs g rs) as [E|E]; rewrite E in Hin; [destruct Hin|].
  rewrite offcycle_intervals in Hin. apply in_map_iff in Hin. destruct Hin as (iv0 & <- & Hin0).
  unfold filter_iv in *. cbn [ilo ihi ival] in *.
  destruct (valid_len g (whole_days cal offs (ilo iv0) (ihi iv0))) eqn:Ev; [|discriminate].
  split; [apply valid_len_spec; exact Ev|]. rewrite <- Hv. destruct iv0; exact Hin0.
Qed.
Print Assumptions C08_offcycle_dropped.

(* ... every period of valid length keeps its billed amount ... *)
Theorem C08_valid_period_kept : forall cal offs g rs lo hi v, In (mkI lo hi (Some v)) (intervals rs) ->
  25 <= whole_days cal offs lo hi <= max_days g -> In (mkI lo hi (Some v)) (intervals (clean_billing cal offs g rs)).
Proof.
  intros cal offs g rs lo hi v Hin Hd.
  assert (In (mkI lo hi (Some v)) (intervals (offcycle_filter cal offs g rs))) as Hf.
  { rewrite offcycle_intervals. apply in_map_iff. exists (mkI lo hi (Some v)). split; [|exact Hin].
    unfold filter_iv. cbn [ilo ihi ival]. apply valid_len_spec in Hd. rewrite Hd. reflexivity. }
  unfold clean_billing. rewrite (intervals_some_not_all_nan rs lo hi v Hin).
  rewrite (intervals_some_not_all_nan _ lo hi v Hf). exact Hf.
Qed.
Print Assumptions C08_valid_period_kept.

(* ... and an off-cycle period stays in the series as an interval without usage (its days are then missing by
   C08_period_without_usage_is_missing) *)
Theorem C08_offcycle_period_blank : forall cal offs g rs iv, In iv (intervals rs) ->
  ~ (25 <= whole_days cal offs (ilo iv) (ihi iv) <= max_days g) -> clean_billing cal offs g rs <> [] ->
  In (mkI (ilo iv) (ihi iv) None) (intervals (clean_billing cal offs g rs)).
Proof.
  intros cal offs g rs iv Hin Hd Hne. destruct (clean_billing_cases cal offs g rs) as [E|E]; [contradiction|]. rewrite E.
  rewrite offcycle_intervals. apply in_map_iff. exists iv. split; [|exact Hin].
  unfold filter_iv. destruct (valid_len g (whole_days cal offs (ilo iv) (ihi iv))) eqn:Ev; [|reflexivity].
  apply valid_len_spec in Ev. contradiction.
Qed.
Print Assumptions C08_offcycle_period_blank.

(* ---- D. the data classes, end to end ---- *)

(* the billing class is: drop the rows without value, append the closing row (end of the last day + 24 h), clean,
   spread, drop the closing row's bucket, look every local day up.
   The two theorems after it speak of such a cl under hypotheses this one does not supply: sorted_rs cl (by
   clean_billing_sorted it is enough that the readings are sorted and the closing row lies after the last of them)
   and a day q of bs that holds last_stamp cl. *)
Theorem C08_billing_class_spec : forall cal offs elec inf rows bs rs g cl,
  rs = dropna (zero_to_nan elec rows) -> rs <> [] ->
  granularity inf (map stamp rs) BillingBimonthly = Some g -> is_billing g = true ->
  cl = clean_billing cal offs g (rs ++ [(billing_closing bs rows, None)]) -> cl <> [] ->
  billing_class cal offs elec inf rows bs = Days (map (billing_days cl bs) (pairs bs)).
Proof.
  intros cal offs elec inf rows bs rs g cl E Hne Hg Hb Ecl Hcl. unfold billing_class. rewrite <- E.
  destruct rs as [|r rs']; [congruence|]. rewrite Hg, Hb. cbn [negb].
  (* with its let unfolded, billing_closing is literally the closing stamp billing_class computes *)
  unfold billing_closing in Ecl. cbv zeta in Ecl. cbv zeta. rewrite <- Ecl.
  destruct cl as [|x cl']; [congruence|]. reflexivity.
Qed.
Print Assumptions C08_billing_class_spec.

(* billing_period_conserved for the class: a period that carries usage after cleaning, with both ends on local
   midnights (c :: mid tiles it, and is a stretch of the day list bs): all its days are present in df['observed']
   and they add up to the billed amount *)
Theorem C08_billing_class_period_conserved : forall cl bs iv v pre c mid post,
  sorted_rs cl -> In iv (intervals cl) -> ival iv = Some v ->
  bs = pre ++ (c :: mid) ++ post -> incr bs -> c = ilo iv -> last mid c = ihi iv ->
  (exists q, In q (pairs bs) /\ fst q <= last_stamp cl < snd q) ->
  (forall p, In p (pairs (c :: mid)) ->
     In p (pairs bs) /\ billing_days cl bs p = Some (bucket_sum (fst p) (snd p) (intervals cl))) /\
  (sumQ (map (fun p => oq0 (billing_days cl bs p)) (pairs (c :: mid))) == v)%Q.
Proof.
  intros cl bs iv v pre c mid post Hs Hin Hv Ebs Hinc Hc Hl (q & Hq & Hq12).
  assert (incr (c :: mid)) as Hincm.
  { rewrite Ebs in Hinc. apply incr_app_r in Hinc. apply incr_app_l in Hinc. exact Hinc. }
  destruct (C08_billing_period_conserved cl iv v c mid Hs Hin Hv Hincm Hc Hl) as [Hsum Hday].
  assert (forall p, In p (pairs (c :: mid)) ->
            In p (pairs bs) /\ billing_days cl bs p = Some (bucket_sum (fst p) (snd p) (intervals cl))) as Hall.
  { intros p Hp. pose proof (pairs_in_bounds mid c p Hincm Hp) as (Hp1 & Hp2 & Hp3).
    assert (In p (pairs bs)) as Hpb by (rewrite Ebs; apply pairs_sub; exact Hp).
    split; [exact Hpb|]. destruct (Hday p Hp) as [_ <-].
    apply lookup_billing_days; [exact Hinc|].
    apply (day_in_interval_not_last cl bs iv p q); try assumption; lia. }
  split; [exact Hall|].
  rewrite <- Hsum. apply sumQ_ext. intros p Hp. destruct (Hall p Hp) as [_ ->]. reflexivity.
Qed.
Print Assumptions C08_billing_class_period_conserved.

(* offcycle_dropped for the class: the days inside an off-cycle (blanked) period are missing *)
Theorem C08_billing_class_blank_days_missing : forall cl bs iv p,
  sorted_rs cl -> In iv (intervals cl) -> ival iv = None -> incr bs -> In p (pairs bs) ->
  ilo iv <= fst p -> snd p <= ihi iv ->
  (exists q, In q (pairs bs) /\ fst q <= last_stamp cl < snd q /\ p <> q) ->
  billing_days cl bs p = None.
Proof.
  intros cl bs iv p Hs Hin Hv Hinc Hp H1 H2 (q & Hq & Hq12 & _).
  pose proof (pairs_pos bs p Hinc Hp) as Hpp.
  rewrite <- (C08_period_without_usage_is_missing cl iv (fst p) (snd p) Hs Hin Hv) by lia.
  apply lookup_billing_days; [exact Hinc|].
  apply (day_in_interval_not_last cl bs iv p q); assumption.
Qed.
Print Assumptions C08_billing_class_blank_days_missing.

(* the daily class on sub-daily data is downsample_and_clean of what is LEFT AFTER dropna() (and, for electricity,
   after zero readings were made NaN) ... *)
Theorem C08_daily_class_is_downsample_of_dropna : forall elec inf rows bs rs,
  rs = dropna (zero_to_nan elec rows) -> rs <> [] ->
  granularity inf (map stamp rs) Daily = Some Hourly ->
  daily_class elec inf rows bs =
  Days (map (fun b => lookup_day (downsample_and_clean rs bs) (fst b)) (pairs bs)).
Proof.
  intros elec inf rows bs rs E Hne Hg. unfold daily_class. rewrite <- E.
  destruct rs as [|r rs']; [congruence|]. rewrite Hg. reflexivity.
Qed.
Print Assumptions C08_daily_class_is_downsample_of_dropna.

(* ... whose entry for every day but the last one pandas creates is clean_day over those remaining readings *)
Theorem C08_daily_class_day : forall rs bs p q, incr bs ->
  In p (pairs bs) -> relevant rs p = true -> In q (pairs bs) -> relevant rs q = true -> fst p < fst q ->
  lookup_day (downsample_and_clean rs bs) (fst p) = clean_day (fst p) (snd p) (intervals rs) false.
Proof.
  intros rs bs p q Hinc Hp Hrp Hq Hrq Hlt. apply lookup_downsample; [exact Hinc|].
  eapply not_last_row; eassumption.
Qed.
Print Assumptions C08_daily_class_day.

(* ---- E. the statement for the daily class: proved under the guard "no reading is missing", refuted without it ---- *)

(* an instance of the property text: a local day that holds rows, all of them NaN, is missing in df['observed'] *)
Definition C08_daily_class_statement : Prop :=
  forall elec inf rows bs vals j lo hi,
    daily_class elec inf rows bs = Days vals -> nth_error (pairs bs) j = Some (lo, hi) ->
    (exists r, In r rows /\ lo <= stamp r < hi) ->
    (forall r, In r rows -> lo <= stamp r < hi -> rval r = None) ->
    nth_error vals j = Some None.

(* guard: dropna / zero->NaN remove nothing (no reading is missing), regular aligned slots, p is not the final day:
   sparse -> missing, more than half -> readings / coverage, full -> the sum of the day's readings *)
Theorem C08_daily_class_statement_partial : forall elec inf rows bs step t0 p q,
  dropna (zero_to_nan elec rows) = rows -> rows <> [] ->
  granularity inf (map stamp rows) Daily = Some Hourly ->
  incr bs -> In p (pairs bs) -> relevant rows p = true ->
  In q (pairs bs) -> relevant rows q = true -> fst p < fst q ->
  0 < step -> (forall iv, In iv (intervals rows) -> ihi iv = ilo iv + step /\ (step | ilo iv - t0)) ->
  (step | fst p - t0) -> (step | snd p - t0) ->
  let entry := fun b : Z * Z => lookup_day (downsample_and_clean rows bs) (fst b) in
  let ivs := intervals rows in
  let c := coverage (fst p) (snd p) ivs false in
  daily_class elec inf rows bs = Days (map entry (pairs bs)) /\
  ((c <= 1 # 2)%Q -> entry p = None) /\
  ((1 # 2 < c)%Q -> oq_eq (entry p) (Some (readings_in (fst p) (snd p) ivs / c)%Q)) /\
  (bucket_count (fst p) (snd p) ivs = snd p - fst p -> oq_eq (entry p) (Some (readings_in (fst p) (snd p) ivs))).
Proof.
  intros elec inf rows bs step t0 p q Hd Hne Hg Hinc Hp Hrp Hq Hrq Hlt Hstep Hreg Hlo Hhi entry ivs c.
  pose proof (pairs_pos bs p Hinc Hp) as Hpp.
  assert (no_straddle (fst p) (snd p) ivs) as Hns by (eapply C08_regular_series_aligned; eassumption).
  assert (entry p = clean_day (fst p) (snd p) ivs false) as He
    by (unfold entry; eapply C08_daily_class_day; eassumption).
  split; [apply C08_daily_class_is_downsample_of_dropna; [symmetry; exact Hd|exact Hne|exact Hg]|].
  rewrite He. split; [apply C08_sparse_day|]. split.
  - intros Hc. apply (oq_eq_trans _ _ _ (C08_partial_day (fst p) (snd p) ivs Hpp Hc)). cbn [oq_eq].
    rewrite (bucket_sum_no_straddle (fst p) (snd p) ivs Hns). reflexivity.
  - intros Hc. apply C08_subdaily_full_day; assumption.
Qed.
Print Assumptions C08_daily_class_statement_partial.

(* the witness (replayed on the implementation by harness/c08.py, replay_refuted): hourly readings of 2 on
   2024-01-01 (UTC), 24 NaN hours on 2024-01-02, readings of 2 again until 2024-01-04 00:00.  The NaN rows are
   dropped, the 23:00 reading of the first day is spread over the 25 hours up to 2024-01-03 00:00, and the day without
   a single reading comes back as 24/25 * 2 = 1.92 with coverage 1 instead of missing (and the first day, although
   complete, as 46.08 instead of 48). *)
Definition wit_t0 : Z := 28401120.
Definition wit_rows : list reading :=
  map (fun k => (wit_t0 + 60 * Z.of_nat k,
                 if (24 <=? Z.of_nat k) && (Z.of_nat k <? 48) then None else Some 2%Q)) (seq 0 73).
Definition wit_bs : list Z := map (fun k => wit_t0 + 1440 * Z.of_nat k) (seq 0 5).
Definition wit_vals : list (option Q) :=
  match daily_class false NoFreq wit_rows wit_bs with Days v => v | _ => [] end.

Theorem C08_sparse_day_class_refuted : ~ C08_daily_class_statement.
Proof.
  intro H.
  specialize (H false NoFreq wit_rows wit_bs wit_vals 1%nat (wit_t0 + 1440) (wit_t0 + 2880)).
  assert (nth_error wit_vals 1 = Some None) as E.
  { apply H.
    - vm_compute. reflexivity.
    - vm_compute. reflexivity.
    - exists (wit_t0 + 1440, None). split; [|unfold stamp, wit_t0; cbn [fst]; lia].
      unfold wit_rows. apply in_map_iff. exists 24%nat. split; [vm_compute; reflexivity|apply in_seq; lia].
    - assert (forallb (fun r => negb ((wit_t0 + 1440 <=? stamp r) && (stamp r <? wit_t0 + 2880)) || negb (is_some (rval r)))
                      wit_rows = true) as Hall by (vm_compute; reflexivity).
      rewrite forallb_forall in Hall. intros r Hr [H1 H2]. specialize (Hall r Hr).
      apply Z.leb_le in H1. apply Z.ltb_lt in H2. rewrite H1, H2 in Hall. cbn in Hall.
      destruct (rval r); [discriminate|reflexivity]. }
  vm_compute in E. discriminate E.
Qed.
Print Assumptions C08_sparse_day_class_refuted.

(* what the class reports for the witness: days 2024-01-01 .. 2024-01-04 *)
Example C08_witness_values :
  map (option_map Qred) wit_vals = [Some (1152 # 25)%Q; Some (48 # 25)%Q; Some 48%Q; None].
Proof. vm_compute. reflexivity. Qed.

(* ---- F. non-vacuity: concrete states on which the hypotheses above are met ---- *)

(* two billing periods (three reads) over local days of 1440 / 1380 / 1440 ... minutes (a spring-forward day inside period 0) *)
Definition ex_days : list Z := [0; 1440; 2820; 4260; 5700; 7140; 8580; 10020].
Definition ex_bill : list reading := [(0, Some 6%Q); (4260, Some 9%Q); (8580, None)].
Definition ex_iv : interval := mkI 0 4260 (Some 6%Q).

Example C08_nonvacuous_period :
  sorted_rs ex_bill /\ In ex_iv (intervals ex_bill) /\ ival ex_iv = Some 6%Q /\
  incr [0; 1440; 2820; 4260] /\ last [1440; 2820; 4260] 0 = ihi ex_iv /\
  map (fun p => bucket_sum (fst p) (snd p) (intervals ex_bill)) (pairs [0; 1440; 2820; 4260]) =
    [(144 # 71)%Q; (138 # 71)%Q; (144 # 71)%Q] /\
  (sumQ [(144 # 71)%Q; (138 # 71)%Q; (144 # 71)%Q] == 6)%Q.
Proof.
  vm_compute. repeat split. left. reflexivity.
Qed.

Example C08_nonvacuous_nothing_invented :
  sorted_rs ex_bill /\ incr ex_days /\ 0 <= first_stamp ex_bill /\ last_stamp ex_bill <= last (tl ex_days) 0 /\
  map (fun r => d_val r) (as_freq_cum ex_bill ex_days) =
    [Some (144 # 71)%Q; Some (138 # 71)%Q; Some (144 # 71)%Q; Some 3%Q; Some 3%Q; Some 3%Q; None].
Proof. vm_compute. repeat split; discriminate. Qed.

(* hourly readings over a 23-hour day [0, 1380): full, partial (18 of 23 hours) and sparse (11 of 23) *)
Definition ex_hours (present : nat) : list interval :=
  map (fun k => mkI (60 * Z.of_nat k) (60 * Z.of_nat k + 60) (if (k <? present)%nat then Some 2%Q else None)) (seq 0 23).

Example C08_nonvacuous_full_day :
  bucket_count 0 1380 (ex_hours 23) = 1380 - 0 /\ option_map Qred (clean_day 0 1380 (ex_hours 23) false) = Some 46%Q /\
  (forall iv, In iv (ex_hours 23) -> ihi iv = ilo iv + 60 /\ (60 | ilo iv - 0)).
Proof.
  split; [vm_compute; reflexivity|]. split; [vm_compute; reflexivity|].
  intros iv Hiv. unfold ex_hours in Hiv. apply in_map_iff in Hiv. destruct Hiv as (k & <- & _). cbn [ilo ihi].
  split; [reflexivity|]. exists (Z.of_nat k). lia.
Qed.

Example C08_nonvacuous_partial_and_sparse :
  (1 # 2 < coverage 0 1380 (ex_hours 18) false)%Q /\
  oq_eq (clean_day 0 1380 (ex_hours 18) false) (Some (36 / (18 # 23))%Q) /\
  (coverage 0 1380 (ex_hours 11) false <= 1 # 2)%Q /\ clean_day 0 1380 (ex_hours 11) false = None.
Proof. vm_compute. repeat split; discriminate. Qed.

(* clean_billing_data: a 24-day and a 36-day period next to a 30-day one, monthly meter *)
Definition ex_cycle : list reading :=
  [(0, Some 5%Q); (24 * 1440, Some 7%Q); (54 * 1440, Some 8%Q); (90 * 1440, None)].
Example C08_nonvacuous_offcycle :
  clean_billing false [] BillingMonthly ex_cycle =
    [(0, None); (24 * 1440, Some 7%Q); (54 * 1440, None); (90 * 1440, None)] /\
  clean_billing false [] BillingBimonthly ex_cycle =
    [(0, None); (24 * 1440, Some 7%Q); (54 * 1440, Some 8%Q); (90 * 1440, None)].
Proof. split; vm_compute; reflexivity. Qed.

(* a period of 25 calendar days across a spring-forward day (US/Pacific 2024-03-01 .. 2024-03-26; offsets -480 / -420):
   24 whole elapsed days - dropped when cal = false, 25 on the wall clock - kept when cal = true *)
Definition ex_spring : list reading := [(28488000, Some 250%Q); (28523940, Some 300%Q); (28567140, None)].
Definition ex_offs : list (Z * Z) := [(28488000, -480); (28523940, -420); (28567140, -420)].
Example C08_nonvacuous_day_count :
  whole_days false ex_offs 28488000 28523940 = 24 /\ whole_days true ex_offs 28488000 28523940 = 25 /\
  clean_billing false ex_offs BillingMonthly ex_spring = [(28488000, None); (28523940, Some 300%Q); (28567140, None)] /\
  clean_billing true ex_offs BillingMonthly ex_spring = [(28488000, Some 250%Q); (28523940, Some 300%Q); (28567140, None)].
Proof. vm_compute. repeat split. Qed.

(* the literal 1-minute materialisation on the 23-hour day of that series *)
Example C08_nonvacuous_minute_grid :
  sorted_rs ex_bill /\ (grid_bucket_sum ex_bill 1440 2820 == bucket_sum 1440 2820 (intervals ex_bill))%Q /\
  grid_bucket_count ex_bill 1440 2820 = 1380.
Proof.
  assert (sorted_rs ex_bill) as Hs by (cbn; lia).
  destruct (C08_minute_grid_eq ex_bill 1440 2820 Hs) as [Hsum Hcnt]; [lia|].
  split; [exact Hs|]. split; [exact Hsum|]. rewrite Hcnt. reflexivity.
Qed.

(* ---- G. the model's constants and decision tables are the source's own (Generated/ResampleGen.v, regenerated
   from the source by harness/translate_resample.py on every run) ---- *)

(* downsample_and_clean_daily_data keeps / scales a day by the test the source states on dataset.coverage *)
Theorem C08_downsample_rule_is_generated : forall v c,
  clean_value v c =
  if cmpq gen_ds_keep c then (if gen_ds_scaled then option_map (fun x => (x / c)%Q) v else v) else None.
Proof. reflexivity. Qed.
Print Assumptions C08_downsample_rule_is_generated.

(* ... and warns about exactly the days it drops *)
Theorem C08_downsample_warning_complement : forall c, cmpq gen_ds_warn c = negb (cmpq gen_ds_keep c).
Proof. intros c. unfold cmpq, gen_ds_warn, gen_ds_keep. cbn [fst snd]. rewrite negb_involutive. reflexivity. Qed.
Print Assumptions C08_downsample_warning_complement.

(* clean_billing_data: the window of valid period lengths is the source's `(filter_ <op> hi) & (filter_ <op> lo)` *)
Theorem C08_offcycle_window_is_generated : forall g d, valid_len g d = cmpz (gen_hi g) d && cmpz (gen_lo g) d.
Proof. intros g d. unfold valid_len. rewrite andb_comm. destruct g; reflexivity. Qed.
Print Assumptions C08_offcycle_window_is_generated.

(* ... and the off-cycle warning lists exactly the periods the window drops *)
Theorem C08_offcycle_warning_complement : forall g d,
  cmpz (gen_warn_hi g) d || cmpz (gen_warn_lo g) d = negb (valid_len g d).
Proof.
  intros g d. unfold valid_len. rewrite negb_andb, <- !Z.ltb_antisym, orb_comm. destruct g; reflexivity.
Qed.
Print Assumptions C08_offcycle_warning_complement.

(* compute_minimum_granularity is the interpreter of the source's tables: the dict of ranges on the median day count
   (last true key), the if/elif chain on fixed frequencies (first that holds), the MonthBegin/MonthEnd rule *)
Theorem C08_granularity_is_generated_table : forall inf ts dflt, granularity inf ts dflt = granularity_tbl inf ts dflt.
Proof.
  intros inf ts dflt. unfold granularity, granularity_tbl.
  destruct (Nat.leb (length ts) 1); [reflexivity|].
  destruct inf as [|m|n|]; try reflexivity.
  3:{ destruct (n =? 1); reflexivity. }
  - destruct (median2 (deltas ts)) as [m2|]; [|reflexivity]. f_equal.
    unfold gran_by_median, gen_median_rules, in_rule, upper_ok, lower_ok, cmpz. cbn [fold_left fst snd andb].
    change (2 * 1440 * 1) with 2880. change (2 * 1440 * 35) with 100800. change (2 * 1440 * 70) with 201600.
    change (2 * 1440) with 2880. change (2 * 35 * 1440) with 100800. change (2 * 70 * 1440) with 201600.
    destruct (Z.ltb_spec m2 2880); destruct (Z.eqb_spec m2 2880); destruct (Z.leb_spec m2 100800);
      destruct (Z.leb_spec m2 201600); destruct (Z.ltb_spec 2880 m2); destruct (Z.ltb_spec 100800 m2);
      cbn; try reflexivity; lia.
  - unfold gran_by_fixed, gen_fixed_rules, gen_fixed_default. change (30 * 1440) with 43200.
    destruct (m <=? 60); [reflexivity|]. destruct (m <=? 1440); [reflexivity|]. destruct (m <=? 43200); reflexivity.
Qed.
Print Assumptions C08_granularity_is_generated_table.

(* the ranges of the median table exclude one another, so the order of the dict's keys is immaterial *)
Theorem C08_median_table_exclusive : forall m2 r1 r2 pre mid post,
  gen_median_rules = pre ++ r1 :: mid ++ r2 :: post -> in_rule m2 r1 = true -> in_rule m2 r2 = false.
Proof.
  intros m2 r1 r2 pre mid post E H1.
  assert (forall a b : option (cop * Z) * (cop * Z) * gran, In a gen_median_rules -> In b gen_median_rules -> a <> b ->
            in_rule m2 a = true -> in_rule m2 b = false) as Hex.
  { intros a b Ha Hb Hne Hta. apply not_true_is_false. intro Htb.
    unfold gen_median_rules in Ha, Hb. cbn [In] in Ha, Hb.
    (* the four ranges, as inequalities on m2 *)
    destruct Ha as [<-|[<-|[<-|[<-|[]]]]]; destruct Hb as [<-|[<-|[<-|[<-|[]]]]]; try congruence;
      unfold in_rule, upper_ok, lower_ok, cmpz in Hta, Htb; cbn [fst snd andb] in Hta, Htb;
      rewrite ?andb_true_iff, ?Z.ltb_lt, ?Z.leb_le, ?Z.eqb_eq in Hta, Htb; lia. }
  apply (Hex r1 r2); try assumption.
  - rewrite E. apply in_elt.
  - rewrite E, app_comm_cons, app_assoc. apply in_elt.
  - intro Heq. subst r2.
    assert (NoDup gen_median_rules) as Hnd by (unfold gen_median_rules; repeat constructor; cbn; intuition congruence).
    rewrite E in Hnd. apply NoDup_remove_2 in Hnd. apply Hnd. apply in_or_app. right. apply in_or_app. right. left. reflexivity.
Qed.
Print Assumptions C08_median_table_exclusive.

Example C08_nonvacuous_generated :
  cmpq gen_ds_keep (3 # 4) = true /\ cmpq gen_ds_keep (1 # 2) = false /\ cmpq gen_ds_warn (1 # 2) = true /\
  cmpz (gen_hi BillingMonthly) 35 && cmpz (gen_lo BillingMonthly) 35 = true /\
  cmpz (gen_hi BillingMonthly) 36 && cmpz (gen_lo BillingMonthly) 36 = false /\
  cmpz (gen_warn_hi BillingBimonthly) 71 = true /\
  granularity_tbl NoFreq [0; 43200; 87840; 132480] Daily = Some BillingMonthly /\
  granularity_tbl (Fixed 80640) [0; 80640; 161280] Daily = Some BillingBimonthly /\
  in_rule 86400 (Some (CLt, 1), (CLe, 35), BillingMonthly) = true /\
  in_rule 86400 (Some (CLt, 35), (CLe, 70), BillingBimonthly) = false.
Proof. vm_compute. repeat split. Qed.

(* the day count the source uses (wall clock or elapsed) on the 25-calendar-day period across a spring-forward day *)
Example C08_generated_day_count_keeps_valid_period :
  clean_billing gen_day_count_wall_clock ex_offs BillingMonthly ex_spring =
    [(28488000, Some 250%Q); (28523940, Some 300%Q); (28567140, None)].
Proof. vm_compute. reflexivity. Qed.
