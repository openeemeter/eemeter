(* C06 — predictions come back one row per input timestamp, on the real clock.
   Lemmas that several theorems share are in Proofs/DstProofs.v; the models are Model/Dst.v (hourly: clock normalisation
   _get_dst_indices / correct_dst / _transform_dst, _predict, _get_contiguous_datetime) and Model/PredictRows.v
   (daily / billing row accounting); the witnesses and examples are built with Model/DstRun.v (`expand` makes a day of
   (first instant, clock hours, (default usage flag, positions where it differs), date-label error), `zmean`, `zero_regress` instantiate mean2 and regress).

   A frame is a list of local days; a day shows a clock pattern: Reg (24 rows), Short h (the clock skips hour h:
   23 rows), Long h (hour h occurs twice: 25 rows), for ANY h in 0..23 and any arrangement of such days — the
   theorems quantify over all patterns, not over time zones. *)
From Coq Require Import ZArith List Bool Arith Lia Permutation Sorted.
From V Require Import Model.CasesLib Model.Dst Model.PredictRows Model.DstRun Proofs.ListFacts Proofs.DstProofs.
Import ListNotations.

(* _get_dst_indices.  `pol` says which behaviour is modelled (Model/Dst.v: with Dst.as_coded days are recognised by
   their count of non-null usage and looked up by date label, with Dst.repaired by their number of rows and by a mask);
   `realises pol` asks for usage on every row only when non-null usage is what is counted, and for resolvable date labels only
   when labels are looked up.  On such a frame it returns exactly the short days (with the skipped hour) and the
   long days (with the repeated hour) *)
Theorem C06_get_dst_indices_valid : forall pol days pat,
  Forall2 (realises pol) days pat -> forallb kind_ok pat = true -> get_dst_indices pol days = Ok (indices_of pat).
Proof. exact get_dst_indices_valid. Qed.
Print Assumptions C06_get_dst_indices_valid.

(* the indices are a function of the frame's LOCAL clock pattern (hour and null-flag of every row, per local date) —
   the instants do not enter (C06_dst_indices_depend_on_the_zone below shows two zones on the same instants) *)
Theorem C06_dst_indices_function_of_local_clock : forall pol days1 days2,
  map local_view days1 = map local_view days2 -> get_dst_indices pol days1 = get_dst_indices pol days2.
Proof.
  intros pol days1 days2 E. unfold get_dst_indices. rewrite (proj1 (loops_local pol days1 days2 E 0 None)).
  destruct (interp_loop pol 0 days2 None) as [[interp last]|e]; cbn [bind]; [|reflexivity].
  rewrite (proj2 (loops_local pol days1 days2 E 0 last)). reflexivity.
Qed.
Print Assumptions C06_dst_indices_function_of_local_clock.

(* correct_dst: every day ends up with exactly 24 slots: a regular day is untouched, a short day gets one synthesised slot at
   the skipped hour, the two occurrences of a repeated hour are merged into one slot *)
Theorem C06_correct_dst_24 : forall (V : Type) (mean2 : V -> V -> V) pat agg,
  Forall2 (fun k f => length f = rows_expected k) pat agg -> pattern_ok pat = true ->
  exists agg', feature_matrix mean2 agg (indices_of pat) = Ok agg'
               /\ all24 agg' = true /\ rel3 day_fix pat agg agg'.
Proof.
  intros V mean2 pat agg Hshape Hok.
  exact (feature_matrix_ok mean2 pat agg Hshape (pattern_ok_kind_ok _ Hok) (pattern_ok_no_short23 _ Hok)).
Qed.
Print Assumptions C06_correct_dst_24.

(* _transform_dst never fails on 24 slots per day ... *)
Theorem C06_transform_dst_total : forall (V : Type) (mean2 : V -> V -> V) pat pred,
  pattern_ok pat = true -> length pred = 24 * length pat ->
  exists out, transform_dst mean2 pred (indices_of pat) = Ok out.
Proof.
  intros V mean2 pat pred Hok Hlen. destruct (transform_dst_pattern mean2 pat pred Hok Hlen) as (o & E1 & _).
  exists o. exact E1.
Qed.
Print Assumptions C06_transform_dst_total.

(* ... returns one value per clock hour of the frame (23 / 24 / 25 per day) ... *)
Theorem C06_transform_dst_length : forall (V : Type) (mean2 : V -> V -> V) pat pred out,
  pattern_ok pat = true -> length pred = 24 * length pat ->
  transform_dst mean2 pred (indices_of pat) = Ok out -> length out = total_rows pat.
Proof.
  intros V mean2 pat pred out Hok Hlen E.
  destruct (transform_dst_pattern_ok mean2 pat pred out Hok Hlen E) as [E2 _].
  exact (by_day_length mean2 pat pred out (pattern_ok_kind_ok _ Hok) Hlen E2).
Qed.
Print Assumptions C06_transform_dst_length.

(* ... and, day by day (Dst.by_day): a regular day receives its 24 slots, on a short day exactly the synthesised
   slot is removed, on a long day the second occurrence of the repeated hour receives the mean of its neighbours *)
Theorem C06_transform_dst_pointwise : forall (V : Type) (mean2 : V -> V -> V) pat pred out,
  pattern_ok pat = true -> length pred = 24 * length pat ->
  transform_dst mean2 pred (indices_of pat) = Ok out -> by_day mean2 pat pred = Some out.
Proof.
  intros V mean2 pat pred out Hok Hlen E. exact (proj1 (transform_dst_pattern_ok mean2 pat pred out Hok Hlen E)).
Qed.
Print Assumptions C06_transform_dst_pointwise.

(* the fence-post slicing of the source is the insert/delete loop its comment claims it to be *)
Theorem C06_transform_dst_eq_spec : forall (V : Type) (mean2 : V -> V -> V) pat pred out,
  pattern_ok pat = true -> length pred = 24 * length pat ->
  (transform_dst mean2 pred (indices_of pat) = Ok out <-> transform_spec mean2 pred (indices_of pat) = Some out).
Proof.
  intros V mean2 pat pred out Hok Hlen.
  destruct (transform_dst_pattern mean2 pat pred Hok Hlen) as (o & E1 & _ & E3).
  rewrite E1, E3. split; intros H; injection H as ->; reflexivity.
Qed.
Print Assumptions C06_transform_dst_eq_spec.

(* the same for any operation list that is well-formed in the sense of wfv (Proofs/DstProofs.v: in range, each REMOVE at
   or beyond the cursor, each INTERPOLATE strictly beyond it), whatever produced it *)
Theorem C06_loop_equals_slicing : forall (V : Type) (mean2 : V -> V -> V) pred ops vals,
  wfv mean2 pred 0 ops vals -> loop_spec mean2 pred 0%Z ops = Some (slices pred None ops vals).
Proof. intros V. exact (@loop_equals_slicing V). Qed.
Print Assumptions C06_loop_equals_slicing.

(* _get_contiguous_datetime: gap-free hourly index, strictly increasing, consecutive stamps exactly 60 minutes
   apart, starts at the local 00:00 of the first day, and holds exactly the stamps of the hourly grid up to the
   local 23:00 of the last day *)
Theorem C06_contiguous_index : forall s e, (s <= e)%Z ->
  let idx := contiguous_index s e in
  StronglySorted Z.lt idx
  /\ (forall n a b, nth_error idx n = Some a -> nth_error idx (S n) = Some b -> b = a + 60)%Z
  /\ nth_error idx 0 = Some s
  /\ (forall t, In t idx <-> (s <= t <= e /\ (t - s) mod 60 = 0)%Z).
Proof.
  intros s e Hse idx. unfold idx, contiguous_index. replace (e <? s)%Z with false by (symmetry; apply Z.ltb_ge; lia).
  set (n := S (Z.to_nat ((e - s) / 60))).
  assert (Hn : forall k, k < n <-> (s + 60 * Z.of_nat k <= e)%Z).
  { intros k. unfold n. pose proof (Z.div_mod (e - s) 60 ltac:(lia)) as D.
    pose proof (Z.mod_pos_bound (e - s) 60 ltac:(lia)) as B.
    assert (0 <= (e - s) / 60)%Z by (apply Z.div_pos; lia). split; intros Hk; nia. }
  split; [|split; [|split]].
  - clear Hn. generalize 0 as st. induction n as [|m IH]; intros st; cbn [seq map]; constructor; [apply IH|].
    apply Forall_forall. intros y Hy. apply in_map_iff in Hy. destruct Hy as (k & Hk & Hin). subst y.
    apply in_seq in Hin. lia.
  - assert (Hnth : forall k a, nth_error (map (fun k => (s + 60 * Z.of_nat k)%Z) (seq 0 n)) k = Some a ->
                   a = (s + 60 * Z.of_nat k)%Z).
    { intros k a Ha. rewrite nth_error_map in Ha. destruct (nth_error (seq 0 n) k) as [x|] eqn:Ex; [|discriminate].
      assert (Hk : k < n) by (rewrite <- (seq_length n 0); apply nth_error_Some; congruence).
      apply nth_error_nth with (d := 0) in Ex. rewrite seq_nth in Ex by exact Hk. apply Some_inj in Ha. subst. reflexivity. }
    intros k a b Ha Hb. rewrite (Hnth k a Ha), (Hnth (S k) b Hb). lia.
  - unfold n. cbn [seq map nth_error]. f_equal. lia.
  - intros t. rewrite in_map_iff. split.
    + intros (k & Hk & Hin). subst t. apply in_seq in Hin. split.
      * assert (k < n) by lia. apply Hn in H. lia.
      * replace (s + 60 * Z.of_nat k - s)%Z with (Z.of_nat k * 60)%Z by lia. apply Z.mod_mul. lia.
    + intros ((H1 & H2) & H3). exists (Z.to_nat ((t - s) / 60)).
      pose proof (Z.div_mod (t - s) 60 ltac:(lia)) as D. rewrite H3 in D.
      assert (0 <= (t - s) / 60)%Z by (apply Z.div_pos; lia).
      split; [rewrite Z2Nat.id by lia; lia|]. apply in_seq. split; [lia|]. cbn [plus]. apply Hn.
      rewrite Z2Nat.id by lia. lia.
Qed.
Print Assumptions C06_contiguous_index.

(* HourlyModel._predict.  The full statement: whatever the clock pattern, with or without usage, whatever the zone
   does at midnight, predict returns the input index with a value on every row. *)
Definition C06_hourly_statement (pol : policy) : Prop :=
  forall (V : Type) (mean2 : V -> V -> V) (feat : hour_stamp -> V) (regress : list (list V) -> list V),
  (forall agg, length (regress agg) = 24 * length agg) ->
  forall days pat, Forall2 clock_only days pat -> forallb kind_ok pat = true ->
  StronglySorted Z.lt (index_of days) ->
  exists y, hourly_predict mean2 feat regress pol days = Ok (combine (index_of days) (map Some y)).

(* What holds: the statement under the guards `realises pol` (for `as_coded`: usage present on every row, date
   labels resolvable) and `pattern_ok` (see Model/Dst.v).  index out = index in, hence strictly increasing, the
   skipped hour absent and the repeated hour twice (the output carries the input stamps), no NaN introduced by the
   final reindex; the values are by_day of the regression output on the 24-slot matrix. *)
Theorem C06_hourly_predict_index_partial :
  forall (V : Type) (mean2 : V -> V -> V) (feat : hour_stamp -> V) (regress : list (list V) -> list V),
  (forall agg, length (regress agg) = 24 * length agg) ->
  forall pol days pat, Forall2 (realises pol) days pat -> pattern_ok pat = true ->
  StronglySorted Z.lt (index_of days) ->
  exists agg y, hourly_predict mean2 feat regress pol days = Ok (combine (index_of days) (map Some y))
                /\ length y = length (index_of days)
                /\ rel3 day_fix pat (map (fun d => map feat (d_rows d)) days) agg
                /\ by_day mean2 pat (regress agg) = Some y.
Proof.
  intros V mean2 feat regress regress_length pol days pat Hr Hok Hs.
  assert (Hk := pattern_ok_kind_ok _ Hok).
  destruct (hourly_predict_after_correct_dst V mean2 feat regress regress_length pol days pat Hr Hk
              (pattern_ok_no_short23 _ Hok)) as (agg & R & Hlen & E).
  destruct (transform_dst_pattern mean2 pat (regress agg) Hok Hlen) as (y & Et & Eb & _).
  assert (Hy : length y = length (index_of days)).
  { rewrite (index_length days pat (clock_of_realises pol days pat Hr)).
    exact (by_day_length mean2 pat (regress agg) y Hk Hlen Eb). }
  exists agg, y. split; [|split; [exact Hy | split; assumption]].
  rewrite E, Et. cbn [bind]. rewrite Hy, Nat.eqb_refl. cbn [negb]. apply reindex_same; assumption.
Qed.
Print Assumptions C06_hourly_predict_index_partial.

(* after the repairs of D11 and D18 the guards on usage and on date labels disappear: with or without `observed`,
   whatever the zone does at midnight; what remains is `pattern_ok` *)
Theorem C06_hourly_predict_index_repaired :
  forall (V : Type) (mean2 : V -> V -> V) (feat : hour_stamp -> V) (regress : list (list V) -> list V),
  (forall agg, length (regress agg) = 24 * length agg) ->
  forall days pat, Forall2 clock_only days pat -> pattern_ok pat = true ->
  StronglySorted Z.lt (index_of days) ->
  exists agg y, hourly_predict mean2 feat regress repaired days = Ok (combine (index_of days) (map Some y))
                /\ length y = length (index_of days)
                /\ rel3 day_fix pat (map (fun d => map feat (d_rows d)) days) agg
                /\ by_day mean2 pat (regress agg) = Some y.
Proof.
  intros V mean2 feat regress regress_length days pat H.
  apply (C06_hourly_predict_index_partial V mean2 feat regress regress_length repaired).
  apply realises_repaired_of_clock. exact H.
Qed.
Print Assumptions C06_hourly_predict_index_repaired.

(* witnesses against the full statement (each is replayed on the implementation by harness/c06.py) *)
Definition mk_days (u0 : Z) (obs : bool) (locs : list (option err)) (hs : list (list nat)) : list day :=
  (fix go (u : Z) (hs : list (list nat)) (locs : list (option err)) : list day :=
     match hs with
     | [] => []
     | h :: t => expand (u, h, (obs, []), hd None locs) :: go (u + 60 * Z.of_nat (length h))%Z t (tl locs)
     end) u0 hs locs.
Definition outcome_of (pol : policy) (days : list day) : res (list (Z * option Z)) :=
  hourly_predict zmean (fun _ => 0%Z) zero_regress pol days.

(* D11: no usage column (all NaN) across a clock change; `as_coded` detects DST days from the count of non-null usage *)
Definition w_pat_dst : list daykind := [Reg; Short 2; Reg].
Definition w_no_observed : list day := mk_days 0 false [] (map clock_hours w_pat_dst).
Example C06_hourly_refuted_without_observed :
  Forall2 clock_only w_no_observed w_pat_dst /\ forallb kind_ok w_pat_dst = true /\ pattern_ok w_pat_dst = true
  /\ outcome_of as_coded w_no_observed = Err ERagged
  /\ (exists rows, outcome_of d11_repaired w_no_observed = Ok rows /\ length rows = 71)
  /\ exists rows, outcome_of repaired w_no_observed = Ok rows /\ length rows = 71.
Proof. split; [repeat constructor | vm_compute; repeat split]; eexists; split; reflexivity. Qed.

(* D18: the clock changes at local midnight, df.loc["YYYY-MM-DD"] (`as_coded`, `d11_repaired`) cannot resolve the date *)
Definition w_pat_midnight : list daykind := [Reg; Short 0; Reg].
Definition w_midnight : list day := mk_days 0 true [None; Some EKey; None] (map clock_hours w_pat_midnight).
Example C06_hourly_refuted_midnight_change :
  Forall2 clock_only w_midnight w_pat_midnight /\ pattern_ok w_pat_midnight = true
  /\ outcome_of as_coded w_midnight = Err EKey /\ outcome_of d11_repaired w_midnight = Err EKey
  (* after the repair of D18 the hour-0 branch of correct_dst is reached and works *)
  /\ exists rows, outcome_of repaired w_midnight = Ok rows /\ length rows = 71.
Proof. split; [repeat constructor | vm_compute; repeat split]. eexists. split; reflexivity. Qed.

(* a day that skips hour 23 (clock change at 23:00, America/Nuuk since 2023): correct_dst reads feature[23] *)
Definition w_pat_short23 : list daykind := [Reg; Short 23; Reg].
Example C06_hourly_refuted_short_23 :
  Forall2 (realises as_coded) (mk_days 0 true [] (map clock_hours w_pat_short23)) w_pat_short23
  /\ outcome_of as_coded (mk_days 0 true [] (map clock_hours w_pat_short23)) = Err EIndex
  /\ outcome_of repaired (mk_days 0 true [] (map clock_hours w_pat_short23)) = Err EIndex.
Proof. split; [repeat constructor | vm_compute; split; reflexivity]. Qed.

(* a frame that ends on a day repeating hour 23: _transform_dst reads prediction[24 * n] *)
Definition w_pat_long23 : list daykind := [Reg; Long 23].
Example C06_hourly_refuted_long_23_last :
  Forall2 (realises as_coded) (mk_days 0 true [] (map clock_hours w_pat_long23)) w_pat_long23
  /\ outcome_of as_coded (mk_days 0 true [] (map clock_hours w_pat_long23)) = Err EIndex
  /\ outcome_of repaired (mk_days 0 true [] (map clock_hours w_pat_long23)) = Err EIndex.
Proof. split; [repeat constructor | vm_compute; split; reflexivity]. Qed.

(* D19: a 30-minute shift (Australia/Lord_Howe): rows fall on hh:30, the last day of the contiguous index has 23 rows
   (00:30 .. 22:30) and no clock hour is skipped inside 0..22 — correct_dst reads feature[23] *)
Definition w_half_hour_shift : list day :=
  mk_days 0 true [] [seq 0 24; seq 0 2 ++ seq 1 23; seq 0 24; seq 0 23].
Example C06_hourly_refuted_half_hour_shift :
  outcome_of as_coded w_half_hour_shift = Err EIndex /\ outcome_of repaired w_half_hour_shift = Err EIndex.
Proof. vm_compute. split; reflexivity. Qed.

(* The guards on usage and on date labels are necessary in general, not only on the witnesses.
   D11: without usage values EVERY frame containing a short or a long day makes the predict of `as_coded` fail *)
Theorem C06_hourly_without_observed_always_fails :
  forall (V : Type) (mean2 : V -> V -> V) (feat : hour_stamp -> V) (regress : list (list V) -> list V) days pat,
  Forall2 unobserved_clock days pat -> forallb kind_ok pat = true -> existsb is_change pat = true ->
  exists e, hourly_predict mean2 feat regress as_coded days = Err e.
Proof.
  intros V mean2 feat regress days pat H Hk Hc. unfold hourly_predict.
  rewrite (get_dst_indices_unobserved days (no_usage_of_unobserved days pat H)). cbn [bind].
  unfold feature_matrix, correct_dst. cbn [fst snd fold_days bind].
  set (agg := map (fun d => map feat (d_rows d)) days).
  destruct (uniform agg); cbn [bind]; [|eexists; reflexivity].
  assert (Hshape := day_lengths_of_clock V feat days pat (clock_of_unobserved days pat H) Hk).
  rewrite (change_not_all24 V pat agg Hshape Hc). cbn [negb]. eexists. reflexivity.
Qed.
Print Assumptions C06_hourly_without_observed_always_fails.

(* D18: a short or long day whose date label cannot be resolved always makes _get_dst_indices fail as long as rows
   are looked up by label (`as_coded` and `d11_repaired`, i.e. also after the repair of D11) *)
Theorem C06_unresolvable_label_always_fails : forall pol, loc_by_mask pol = false ->
  forall days pat, Forall2 (counted_clock pol) days pat -> forallb kind_ok pat = true ->
  Exists (bad_label is_change) (combine days pat) ->
  exists e, get_dst_indices pol days = Err e.
Proof.
  intros pol Hpol days pat H Hk Hex. unfold get_dst_indices.
  destruct (interp_loop pol 0 days None) as [[interp last]|e] eqn:E1; [|eexists; reflexivity].
  cbn [bind]. destruct (bad_label_split _ Hex) as [Hs|Hl].
  - destruct (proj1 (loops_bad_label pol Hpol days pat H Hk 0 None) Hs) as [e E]. congruence.
  - destruct (proj2 (loops_bad_label pol Hpol days pat H Hk 0 last) Hl) as [e E]. rewrite E. eexists. reflexivity.
Qed.
Print Assumptions C06_unresolvable_label_always_fails.
Example C06_nonvacuous_necessity :
  Forall2 unobserved_clock w_no_observed w_pat_dst /\ existsb is_change w_pat_dst = true
  /\ Forall2 (counted_clock d11_repaired) w_midnight w_pat_midnight
  /\ Forall2 (counted_clock as_coded) w_midnight w_pat_midnight
  /\ Exists (bad_label is_change) (combine w_midnight w_pat_midnight).
Proof.
  split; [repeat constructor|]. split; [reflexivity|]. split; [repeat constructor; discriminate|].
  split; [repeat constructor|].
  apply Exists_cons_tl. apply Exists_cons_hd. split; [reflexivity | discriminate].
Qed.

(* the guard of C06_transform_dst_eq_spec is needed: a day repeating hour 23 directly followed by a day skipping
   hour 0 puts REMOVE and INTERPOLATE on the same index, and slicing and loop differ *)
Example C06_eq_spec_guard_needed :
  let pat := [Long 23; Short 0] in let pred := map Z.of_nat (seq 0 48) in
  transform_dst zmean pred (indices_of pat) <> match transform_spec zmean pred (indices_of pat) with
                                                | Some o => Ok o | None => Err EIndex end.
Proof. vm_compute. discriminate. Qed.

(* non-vacuity: a five-day frame with a short and a long day satisfies every hypothesis above *)
Definition ex_pat : list daykind := [Reg; Short 2; Reg; Long 1; Reg].
Definition ex_days : list day := mk_days 600 true [] (map clock_hours ex_pat).
Example C06_nonvacuous_hourly :
  Forall2 (realises as_coded) ex_days ex_pat /\ pattern_ok ex_pat = true /\ StronglySorted Z.lt (index_of ex_days)
  /\ total_rows ex_pat = 120
  /\ get_dst_indices as_coded ex_days = Ok ([(1, 2)], [(3, 1)])
  /\ exists rows, outcome_of as_coded ex_days = Ok rows /\ map fst rows = index_of ex_days
                  /\ forallb (fun r => match snd r with Some _ => true | None => false end) rows = true.
Proof.
  split; [repeat constructor|]. split; [reflexivity|]. split.
  - replace (index_of ex_days) with (contiguous_index 600 (600 + 60 * 119)) by (vm_compute; reflexivity).
    apply C06_contiguous_index. lia.
  - split; [reflexivity|]. split; [vm_compute; reflexivity|]. eexists. vm_compute. repeat split.
Qed.
Example C06_nonvacuous_correct_dst :
  let agg := map (fun k => map Z.of_nat (clock_hours k)) ex_pat in
  Forall2 (fun k f => length f = rows_expected k) ex_pat agg
  /\ exists agg', feature_matrix zmean agg (indices_of ex_pat) = Ok agg' /\ map (@length Z) agg' = [24; 24; 24; 24; 24]
       /\ nth_error (nth 1 agg' []) 2 = Some 2%Z        (* synthesised slot: mean of hours 1 and 3 *)
       /\ nth_error (nth 3 agg' []) 1 = Some 1%Z.       (* merged slot: the two occurrences of hour 1 *)
Proof. split; [repeat constructor|]. eexists. vm_compute. repeat split. Qed.
Example C06_nonvacuous_transform :
  let pred := map (fun n => (4 * Z.of_nat n)%Z) (seq 0 120) in
  length pred = 24 * length ex_pat
  /\ exists out, transform_dst zmean pred (indices_of ex_pat) = Ok out /\ length out = 120
       /\ nth_error out 25 = Some 100%Z /\ nth_error out 26 = Some 108%Z        (* slot 26 (the synthesised hour) removed *)
       /\ nth_error out 72 = Some 292%Z /\ nth_error out 73 = Some 294%Z /\ nth_error out 74 = Some 296%Z.
Proof. vm_compute. split; [reflexivity|]. eexists. repeat split. Qed.
Example C06_nonvacuous_wfv :
  wfv zmean [0; 4; 8; 12; 16; 20]%Z 0 [(REMOVE, 1); (INTERPOLATE, 4)] [14%Z].
Proof.
  cbn [wfv length]. split; [lia|]. split; [lia|]. split; [lia|]. split; [|exact I].
  exists 12%Z, 16%Z. repeat split.
Qed.

(* DailyModel._predict / BillingModel.predict: one output row per input row (a permutation of the input rows), in
   chronological order — under unique labels and C13's exact cover (every row with finite temperature [and usage] is
   selected by exactly one sub-model); a split that does not partition the calendar is exactly what would duplicate
   or drop rows in the join *)
Theorem C06_daily_predict_perm_sorted :
  forall (V K : Type) (finite : V -> bool) (predict_sub : K -> V -> option V) (member : K -> @drow V -> bool)
         (keys : list K) obs rows,
  NoDup (map d_ts rows) -> exact_cover finite member keys obs rows ->
  let out := daily_predict finite predict_sub member keys obs rows in
  Permutation (map fst out) rows /\ LocallySorted Z.le (map (fun rp => d_ts (fst rp)) out).
Proof.
  intros V K finite predict_sub member keys obs rows Hnd Hcov out. unfold out.
  rewrite (daily_predict_shape finite predict_sub member keys obs rows Hnd Hcov). split.
  - eapply Permutation_trans; [apply Permutation_map; apply predict_sort_perm|].
    rewrite map_app, !map_map. cbn [fst]. rewrite !map_id.
    eapply Permutation_trans; [apply filter_split_perm | apply predict_sort_perm].
  - apply predict_sort_keys_sorted.
Qed.
Print Assumptions C06_daily_predict_perm_sorted.

(* the prediction is finite exactly on the rows with a finite temperature (and a finite usage when usage was supplied);
   the sub-model curve being finite for a finite temperature is the oracle contract (C11/C12) *)
Theorem C06_daily_finite_iff :
  forall (V K : Type) (finite : V -> bool) (predict_sub : K -> V -> option V) (member : K -> @drow V -> bool)
         (keys : list K),
  (forall k t, finite t = true -> exists v, predict_sub k t = Some v /\ finite v = true) ->
  forall obs rows, NoDup (map d_ts rows) -> exact_cover finite member keys obs rows ->
  forall rp, In rp (daily_predict finite predict_sub member keys obs rows) ->
  cell_ok finite (snd rp) = keep finite obs (fst rp).
Proof.
  intros V K finite predict_sub member keys predict_sub_finite obs rows Hnd Hcov rp Hin.
  rewrite (daily_predict_shape finite predict_sub member keys obs rows Hnd Hcov) in Hin.
  apply predict_sort_In in Hin. apply in_app_or in Hin. destruct Hin as [Hin|Hin].
  - apply in_map_iff in Hin. destruct Hin as (r & E & Hr). subst rp. cbn [fst snd].
    apply filter_In in Hr. destruct Hr as [Hr Hk]. rewrite Hk.
    assert (Hc : length (filter (fun k => member k r) keys) = 1).
    { apply Hcov; [|exact Hk]. apply (predict_sort_In d_ts). exact Hr. }
    unfold row_pred. destruct (filter (fun k => member k r) keys) as [|k t]; [discriminate|].
    unfold keep in Hk. apply andb_true_iff in Hk. destruct Hk as [Ht _].
    unfold sub_pred. unfold cell_ok in Ht. destruct (d_temp r) as [t0|]; [|discriminate].
    destruct (predict_sub_finite k t0 Ht) as (v & Ev & Fv). rewrite Ev. cbn [cell_ok]. exact Fv.
  - apply in_map_iff in Hin. destruct Hin as (r & E & Hr). subst rp. cbn [fst snd cell_ok].
    apply filter_In in Hr. destruct Hr as [_ Hk]. apply negb_true_iff in Hk. rewrite Hk. reflexivity.
Qed.
Print Assumptions C06_daily_finite_iff.

(* nothing is lost: a row whose temperature or supplied usage is missing (None = NaN) or present but not finite
   (Some v with finite v = false: +inf / -inf) is a row of the result, with prediction NaN.  (kept = finite, dropped =
   everything else; C06_daily_predict_perm_sorted says the two together are a permutation of the input.) *)
Theorem C06_daily_dropped_rows_kept :
  forall (V K : Type) (finite : V -> bool) (predict_sub : K -> V -> option V) (member : K -> @drow V -> bool)
         (keys : list K) obs rows,
  NoDup (map d_ts rows) -> exact_cover finite member keys obs rows ->
  forall r, In r rows -> keep finite obs r = false ->
  In (r, None) (daily_predict finite predict_sub member keys obs rows).
Proof.
  intros V K finite predict_sub member keys obs rows Hnd Hcov r Hr Hk.
  rewrite (daily_predict_shape finite predict_sub member keys obs rows Hnd Hcov).
  apply predict_sort_In. apply in_or_app. right.
  apply in_map_iff. exists r. split; [reflexivity|]. apply filter_In. split.
  - apply predict_sort_In. exact Hr.
  - rewrite Hk. reflexivity.
Qed.
Print Assumptions C06_daily_dropped_rows_kept.

(* four rows out of order: one without usage, one without temperature, one with an infinite temperature; ex_member
   selects by the parity of the label, so [0; 1] is an exact cover *)
Definition ex_rows : list (@drow bool) :=
  [ {| d_ts := 30; d_temp := Some true; d_obs := Some true |}; {| d_ts := 10; d_temp := Some true; d_obs := None |};
    {| d_ts := 20; d_temp := None; d_obs := Some true |};      {| d_ts := 40; d_temp := Some false; d_obs := Some true |} ].
Definition ex_member (k : nat) (r : @drow bool) : bool := Nat.eqb k (Z.to_nat (d_ts r / 10) mod 2).
Example C06_nonvacuous_daily :
  NoDup (map d_ts ex_rows) /\ exact_cover (fun b : bool => b) ex_member [0; 1] true ex_rows
  /\ map (fun rp => (d_ts (fst rp), cell_ok (fun b : bool => b) (snd rp)))
         (daily_predict (fun b : bool => b) (fun _ t => Some t) ex_member [0; 1] true ex_rows)
     = [(10, false); (20, false); (30, true); (40, false)]%Z.
Proof.
  split; [repeat constructor; cbn; intuition lia|]. split; [|vm_compute; reflexivity].
  intros r Hr Hk. cbn in Hr. destruct Hr as [<-|[<-|[<-|[<-|[]]]]]; try discriminate; reflexivity.
Qed.
(* without the exact cover (here both sub-models select every row) rows are duplicated *)
Example C06_daily_cover_needed :
  map (fun rp => d_ts (fst rp))
      (daily_predict (fun b : bool => b) (fun (_ : nat) t => Some t) (fun _ _ => true) [0; 1] false ex_rows)
  = [10; 10; 30; 30; 20; 40]%Z
  \/ length (daily_predict (fun b : bool => b) (fun (_ : nat) t => Some t) (fun _ _ => true) [0; 1] false ex_rows) <> 4.
Proof. right. vm_compute. discriminate. Qed.
Example C06_nonvacuous_daily_inf :      (* row 40 of ex_rows has an infinite temperature, row 10 a missing usage *)
  keep (fun b : bool => b) true {| d_ts := 40; d_temp := Some false; d_obs := Some true |} = false
  /\ In ({| d_ts := 40; d_temp := Some false; d_obs := Some true |}, None)
        (daily_predict (fun b : bool => b) (fun _ t => Some t) ex_member [0; 1] true ex_rows).
Proof. split; [reflexivity|]. vm_compute. tauto. Qed.

(* the indices depend on the zone (C06_dst_indices_function_of_local_clock: they are a function of the local clock
   pattern, not of the instants): the SAME 72 instants seen in a zone without clock change (America/Phoenix) and in a
   zone that skips hour 2 on the second day (America/Denver; its 72nd row opens a fourth local date) have the same
   first instant, last instant and length, yet different indices; the indices of one applied to the features of the
   other give a ragged matrix (what a cache keyed by the ends and the length of the index does: seeded change C06-4) *)
Definition w_phoenix : list day := mk_days 0 true [] [seq 0 24; seq 0 24; seq 0 24].
Definition w_denver : list day := mk_days 0 true [] [seq 0 24; clock_hours (Short 2); seq 0 24; [0]].
Example C06_dst_indices_depend_on_the_zone :
  index_of w_phoenix = index_of w_denver
  /\ get_dst_indices d11_repaired w_phoenix = Ok ([], [])
  /\ get_dst_indices d11_repaired w_denver = Ok ([(1, 2)], [])
  /\ map local_view w_phoenix <> map local_view w_denver
  /\ feature_matrix zmean (map (fun d => map (fun _ => 0%Z) (d_rows d)) (firstn 3 w_denver)) ([], []) = Err ERagged
  /\ feature_matrix zmean (map (fun d => map (fun _ => 0%Z) (d_rows d)) w_phoenix) ([(1, 2)], []) = Err ERagged.
Proof. vm_compute. repeat split; discriminate. Qed.

Theorem C06_pattern_ok_spelled_out : forall pat, forallb kind_ok pat = true -> no_clash pat = true ->
  pattern_ok pat = negb (has_short23 pat) && negb (ends_long23 pat).
Proof.
  (* the `change` steps below unfold pattern_ok / existsb / last by one constructor only: cbn would go on into the
     tail k' :: p', which has to stay as the induction hypothesis speaks of it *)
  unfold has_short23, ends_long23. induction pat as [|k p IH]; intros Hk Hn; [reflexivity|].
  destruct (kind_ok_cons _ _ Hk) as [Hk1 Hk2].
  cbn [no_clash] in Hn. apply andb_true_iff in Hn. destruct Hn as [Hn1 Hn2].
  specialize (IH Hk2 Hn2).
  destruct p as [|k' p'].
  - destruct k as [|h|h]; cbn [kind_ok] in Hk1; cbn [pattern_ok existsb is_short23 last orb andb negb].
    + reflexivity.
    + apply Nat.ltb_lt in Hk1. rewrite (ltb23_eqb h Hk1). rewrite orb_false_r, !andb_true_r. reflexivity.
    + rewrite Hk1. cbn [andb]. destruct (h =? 23); reflexivity.
  - change (last (k :: k' :: p') Reg) with (last (k' :: p') Reg).
    change (existsb is_short23 (k :: k' :: p')) with (is_short23 k || existsb is_short23 (k' :: p')).
    destruct k as [|h|h]; cbn [kind_ok] in Hk1.
    + cbn [pattern_ok is_short23 orb]. cbn [pattern_ok] in IH. exact IH.
    + apply Nat.ltb_lt in Hk1.
      change (pattern_ok (Short h :: k' :: p')) with ((h <? 23) && pattern_ok (k' :: p')).
      rewrite IH, (ltb23_eqb h Hk1). cbn [is_short23]. rewrite negb_orb, andb_assoc. reflexivity.
    + change (pattern_ok (Long h :: k' :: p')) with
        ((h <? 24) && pattern_ok (k' :: p') &&
         (if h =? 23 then match k' :: p' with [] => false | Short 0 :: _ => false | _ => true end else true)).
      rewrite Hk1, IH. cbn [is_short23 orb andb].
      destruct (h =? 23) eqn:E; [|apply andb_true_r].
      destruct k' as [|h'|h']; try apply andb_true_r.
      cbn [andb negb] in Hn1. destruct h' as [|h']; [discriminate Hn1 | apply andb_true_r].
Qed.
Print Assumptions C06_pattern_ok_spelled_out.

(* The guard of the hourly theorem is exact: for every frame of 23/24/25-hour days (any transition hours) in which
   no day repeating hour 23 is directly followed by a day skipping hour 0 (no_clash), outside the guard pattern_ok
   the modelled predict FAILS — whatever the regression returns: a day that skips hour 23 makes correct_dst fail, a
   frame that ends on a day repeating hour 23 makes _transform_dst fail (known findings C06-F6 / C06-F7) ... *)
Theorem C06_hourly_fails_outside_guard :
  forall (V : Type) (mean2 : V -> V -> V) (feat : hour_stamp -> V) (regress : list (list V) -> list V),
  (forall agg, length (regress agg) = 24 * length agg) ->
  forall pol days pat, Forall2 (realises pol) days pat ->
  forallb kind_ok pat = true -> no_clash pat = true -> pattern_ok pat = false ->
  exists e, hourly_predict mean2 feat regress pol days = Err e.
Proof.
  intros V mean2 feat regress regress_length pol days pat Hr Hk Hn Hp.
  rewrite (C06_pattern_ok_spelled_out pat Hk Hn) in Hp.
  destruct (has_short23 pat) eqn:E23.
  - assert (Hshape := day_lengths_of_clock V feat days pat (clock_of_realises pol days pat Hr) Hk).
    unfold hourly_predict. rewrite (C06_get_dst_indices_valid pol days pat Hr Hk). cbn [bind].
    destruct (feature_matrix_short23 mean2 pat _ Hshape Hk E23) as [e E]. rewrite E. exists e. reflexivity.
  - cbn [negb andb] in Hp. apply negb_false_iff in Hp.
    destruct (hourly_predict_after_correct_dst V mean2 feat regress regress_length pol days pat Hr Hk E23)
      as (agg & _ & Hlen & E).
    destruct (transform_dst_ends_long23 mean2 pat (regress agg) Hp Hlen) as [e Ee].
    rewrite E, Ee. exists e. reflexivity.
Qed.
Print Assumptions C06_hourly_fails_outside_guard.

(* ... so that, together with C06_hourly_predict_index_partial, predict returns rows EXACTLY on the frames of the guard;
   pattern_ok is (C06_pattern_ok_spelled_out) "no day skips hour 23 and the frame does not end on a day repeating hour 23" *)
Theorem C06_hourly_guard_exact :
  forall (V : Type) (mean2 : V -> V -> V) (feat : hour_stamp -> V) (regress : list (list V) -> list V),
  (forall agg, length (regress agg) = 24 * length agg) ->
  forall pol days pat, Forall2 (realises pol) days pat ->
  forallb kind_ok pat = true -> no_clash pat = true -> StronglySorted Z.lt (index_of days) ->
  ((exists rows, hourly_predict mean2 feat regress pol days = Ok rows) <-> pattern_ok pat = true).
Proof.
  intros V mean2 feat regress regress_length pol days pat Hr Hk Hn Hs. split.
  - intros [rows E]. destruct (pattern_ok pat) eqn:Hp; [reflexivity|].
    destruct (C06_hourly_fails_outside_guard V mean2 feat regress regress_length pol days pat Hr Hk Hn Hp) as [e E'].
    congruence.
  - intros Hp.
    destruct (C06_hourly_predict_index_partial V mean2 feat regress regress_length pol days pat Hr Hp Hs)
      as (agg & y & E & _).
    eexists. exact E.
Qed.
Print Assumptions C06_hourly_guard_exact.

(* with `repaired` no condition on usage or on date labels is left *)
Theorem C06_hourly_guard_exact_repaired :
  forall (V : Type) (mean2 : V -> V -> V) (feat : hour_stamp -> V) (regress : list (list V) -> list V),
  (forall agg, length (regress agg) = 24 * length agg) ->
  forall days pat, Forall2 clock_only days pat ->
  forallb kind_ok pat = true -> no_clash pat = true -> StronglySorted Z.lt (index_of days) ->
  ((exists rows, hourly_predict mean2 feat regress repaired days = Ok rows) <-> pattern_ok pat = true).
Proof.
  intros V mean2 feat regress regress_length days pat H.
  apply (C06_hourly_guard_exact V mean2 feat regress regress_length repaired).
  apply realises_repaired_of_clock. exact H.
Qed.
Print Assumptions C06_hourly_guard_exact_repaired.

(* non-vacuity on both sides of the equivalence, and the one adjacency no_clash excludes (it fails too: the slicing
   keeps the slot it should remove and the column assignment sees one value too many) *)
Example C06_nonvacuous_guard_exact :
  (forallb kind_ok ex_pat = true /\ no_clash ex_pat = true /\ pattern_ok ex_pat = true)
  /\ (forallb kind_ok w_pat_short23 = true /\ no_clash w_pat_short23 = true /\ pattern_ok w_pat_short23 = false)
  /\ (forallb kind_ok w_pat_long23 = true /\ no_clash w_pat_long23 = true /\ pattern_ok w_pat_long23 = false)
  /\ (no_clash [Reg; Long 23; Short 0; Reg] = false
      /\ outcome_of repaired (mk_days 0 true [] (map clock_hours [Reg; Long 23; Short 0; Reg])) = Err ELength).
Proof. vm_compute. repeat split. Qed.
