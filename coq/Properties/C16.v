(* C16 — reported fit statistics are the true statistics of the model predictions.
   The model is Model/Metrics.v (exact rationals; every square root is kept as its square:
   [Root neg s] = (-1)^neg sqrt s); the lemmas used here are in Proofs/Metrics{,Real,Quantile,Utils,Report}Proofs.v.
   Two division policies are modelled. [AsCoded] is _safe_divide with the guard "denominator <= min and numerator > 10 min";
   the names without a policy ([safe_divide], [baseline], [baseline_of_rows], [hourly_baseline_metrics]) are that one.
   [Repaired] is "denominator <= min -> None", the statement's rule; Generated/MetricsGen.gen_safe_divide_policy records
   which of the two the source has when the tables are regenerated. Theorems with [pl] hold for both.
   Where the property text fails for a policy, three declarations go together: [C16_x_statement] (a Definition: the text
   as it reads), [C16_x_partial] (the region where it holds) and [C16_x_refuted] (a witness against the full text).
   A theorem is proved here when nothing else uses its proof; it is an [exact] of a lemma of the Proofs files when other
   proofs use that lemma too, or when the lemma is one DESIGN.md names ([hourly_dq_iff], [daily_dq_iff]).
   Proofs/MetricsProofs.v makes [Qred] opaque for every importer: [cbn] / [compute] stop at it (use [Qred_correct]); the
   Examples close because [vm_compute] ignores opacity.
   Every theorem is followed by [Print Assumptions], so that the build log shows what it rests on. *)
From Coq Require Import ZArith QArith Qabs Qreals Reals List Bool Lia Lqa.
From V Require Import Model.Metrics Proofs.ArithFacts Proofs.MetricsProofs Proofs.MetricsRealProofs.
Import ListNotations.
Open Scope Q_scope.

(* a small series used for the non-vacuity examples: observed 1 2 3 4 6, predicted 3/2 3/2 7/2 4 5 *)
Definition ex_d : list (Q * Q) := [(1, 3 # 2); (2, 3 # 2); (3, 7 # 2); (4, 4); (6, 5)].
Definition ex_mn : Q := 1 # 1000.

(* ------------------------------------------------------------------ only finite pairs count *)

Theorem C16_finite_pairs : forall rows o p, In (o, p) (finite_pairs rows) <-> In (Some o, Some p) rows.
Proof.
  induction rows as [|[[a|] [b|]] rows IH]; intros o p; cbn [finite_pairs In]; rewrite ?IH.
  - tauto.
  - split; (intros [H|H]; [left|right; exact H]).
    + injection H as -> ->. reflexivity.
    + injection H as -> ->. reflexivity.
  - intuition discriminate.
  - intuition discriminate.
  - intuition discriminate.
Qed.
Print Assumptions C16_finite_pairs.

Theorem C16_nonfinite_rows_ignored : forall pl a r b p mn, nonfinite r ->
  baseline_of_rows_p pl (a ++ r :: b) p mn = baseline_of_rows_p pl (a ++ b) p mn.
Proof.
  intros pl a r b p mn H. unfold baseline_of_rows_p. rewrite (finite_pairs_nonfinite a r b H). reflexivity.
Qed.
Print Assumptions C16_nonfinite_rows_ignored.

Example C16_nonfinite_example :
  baseline_of_rows [(Some 1, Some 2); (None, Some 5); (Some 3, Some 3)] 1 ex_mn =
  baseline_of_rows [(Some 1, Some 2); (Some 3, Some 3)] 1 ex_mn /\
  baseline_of_rows [(Some 1, Some 2); (Some 3, Some 3)] 1 ex_mn <> None.
Proof. split; [reflexivity|discriminate]. Qed.

(* ------------------------------------------------------------------ identities, for every series
   (and for both division policies) *)

Theorem C16_n_mse_sse : forall pl d p mn, d <> [] ->
  let m := baseline_p pl d p mn in
  b_n m = Z.of_nat (length d) /\ inject_Z (b_n m) * b_mse m == b_sse m /\ b_rmse m = Root false (b_mse m).
Proof. intros pl d p mn H m. split; [reflexivity|]. split; [apply b_n_mse_sse; exact H|reflexivity]. Qed.
Print Assumptions C16_n_mse_sse.

Theorem C16_ddof_rmse_adj : forall pl d p mn, d <> [] ->
  let m := baseline_p pl d p mn in
  b_ddof m = Z.max 1 (b_n m - p) /\ (1 <= b_ddof m)%Z /\
  inject_Z (b_ddof m) * b_rmse_adj_sq m == b_sse m /\ b_rmse_adj m = Root false (b_rmse_adj_sq m).
Proof.
  intros pl d p mn H m. split; [apply ddof_is_max|]. split; [apply ddof_ge_1|].
  split; [apply ddof_rmse_adj_sse|reflexivity].
Qed.
Print Assumptions C16_ddof_rmse_adj.

Theorem C16_ddof_autocorr_ge_1 : forall np p, 1 <= ddof_autocorr_of np p.
Proof.
  intros np p. unfold ddof_autocorr_of. destruct (Qltb (np - inject_Z p) 1) eqn:E; [apply Qle_refl|].
  rewrite Qred_correct. apply Qltb_false_iff. exact E.
Qed.
Print Assumptions C16_ddof_autocorr_ge_1.

Theorem C16_sse_mse_nonneg : forall pl d p mn, d <> [] ->
  0 <= b_sse (baseline_p pl d p mn) /\ 0 <= b_mse (baseline_p pl d p mn) /\ 0 <= b_mae (baseline_p pl d p mn).
Proof.
  intros pl d p mn H. split; [apply sum_sq_nonneg|]. split; [apply b_mse_nonneg|apply b_mae_nonneg].
Qed.
Print Assumptions C16_sse_mse_nonneg.

(* |bias| <= MAE <= RMSE (the second one squared) *)
Theorem C16_bias_mae_rmse : forall pl d p mn, d <> [] ->
  let m := baseline_p pl d p mn in Qabs (b_mbe m) <= b_mae m /\ b_mae m * b_mae m <= b_mse m.
Proof. intros pl d p mn H m. split; [apply b_abs_mbe_le_mae; exact H|apply b_mae_sq_le_mse; exact H]. Qed.
Print Assumptions C16_bias_mae_rmse.

(* var = mean(x^2) - mean^2, and it is not negative *)
Theorem C16_variance_identity : forall l, l <> [] ->
  c_var (column l) == c_sum_sq (column l) / qlen l - c_mean (column l) * c_mean (column l) /\
  0 <= c_var (column l) /\ c_std (column l) = Root false (c_var (column l)).
Proof. intros l H. split; [apply variance_alt; exact H|]. split; [apply variance_nonneg|reflexivity]. Qed.
Print Assumptions C16_variance_identity.

(* 0 <= R^2 <= 1 (Cauchy-Schwarz) *)
Theorem C16_r_squared_bounds : forall pl d p mn r, b_r2 (baseline_p pl d p mn) = Some r -> 0 <= r /\ r <= 1.
Proof. exact b_r2_bounds. Qed.
Print Assumptions C16_r_squared_bounds.

(* 0 <= rho^2 <= 1 for the lag-1 autocorrelation of the residuals *)
Theorem C16_autocorr_bounds : forall pl d p mn neg r2, b_rho (baseline_p pl d p mn) = Some (neg, r2) -> 0 <= r2 /\ r2 <= 1.
Proof. intros pl d p mn neg r2 H. exact (autocorr_bounds _ neg r2 H). Qed.
Print Assumptions C16_autocorr_bounds.

Theorem C16_cauchy_schwarz : forall l : list (Q * Q), sB l * sB l <= sA l * sC l.
Proof. exact cauchy_schwarz. Qed.
Print Assumptions C16_cauchy_schwarz.

(* an accepted n' solves n' (1 + rho) = n (1 - rho) for the residuals' lag-1 autocorrelation *)
Theorem C16_n_prime : forall n neg r2 np,
  nprime_fallback (Some (neg, r2)) = false -> nprime_exact n (Some (neg, r2)) np = true ->
  let r := rho_of_nprime n np in
  r * r == r2 /\ (if neg then r <= 0 else 0 <= r) /\ np * (1 + r) == inject_Z n * (1 - r).
Proof.
  intros n neg r2 np F H r. unfold nprime_exact in H. rewrite F in H.
  rewrite !andb_true_iff, negb_true_iff, Qeq_bool_false, Qeq_bool_iff in H. destruct H as [[H1 H2] H3].
  split; [exact H2|]. split.
  - destruct neg; apply Qle_bool_iff in H3; exact H3.
  - apply nprime_solves. exact H1.
Qed.
Print Assumptions C16_n_prime.

Theorem C16_n_prime_fallback : forall n rho np,
  nprime_fallback rho = true -> nprime_exact n rho np = true -> np == 1.
Proof. intros n rho np F H. unfold nprime_exact in H. rewrite F in H. apply Qeq_bool_iff. exact H. Qed.
Print Assumptions C16_n_prime_fallback.

Example C16_identities_example :
  let m := baseline ex_d 2 ex_mn in
  ex_d <> [] /\ b_n m = 5%Z /\ b_ddof m = 3%Z /\ b_sse m == 7 # 4 /\ b_mse m == 7 # 20 /\
  b_rmse_adj_sq m == 7 # 12 /\ b_mae m == 1 # 2 /\ b_mbe m == 1 # 10 /\
  b_r2 m = Some (3249 # 3589) /\ b_rho m = Some (true, 9 # 55).
Proof. vm_compute. repeat split; try reflexivity; discriminate. Qed.

(* residuals 0 1 0 0: rho = -1/2, n' = 4 (1 + 1/2) / (1 - 1/2) = 12 *)
Example C16_n_prime_example :
  let m := baseline [(1, 1); (2, 1); (3, 3); (4, 4)] 1 ex_mn in
  b_rho m = Some (true, 1 # 4) /\ nprime_fallback (b_rho m) = false /\ nprime_exact (b_n m) (b_rho m) 12 = true /\
  nprime_exact (b_n m) (b_rho m) 11 = false /\
  nprime_fallback (b_rho (baseline [(1, 0); (2, 3); (3, 2)] 1 ex_mn)) = true.
Proof. vm_compute. repeat split; try reflexivity; discriminate. Qed.

(* ------------------------------------------------------------------ ratios *)

(* CVRMSE * mean = RMSE whenever CVRMSE is reported as a root (for the adjusted form and for PNRMSE over the
   interquartile range the same is [sdiv_root_root_inv] at their operands) *)
Theorem C16_cvrmse_times_mean : forall pl d p mn neg s,
  let m := baseline_p pl d p mn in
  b_cvrmse m = Root neg s ->
  s * (c_mean (b_obs m) * c_mean (b_obs m)) == b_mse m /\ neg = Qltb (c_mean (b_obs m)) 0 /\ ~ c_mean (b_obs m) == 0.
Proof.
  intros pl d p mn neg s m H.
  destruct (sdiv_root_root_inv pl _ _ mn _ _ H) as [A [B C]].
  split; [exact B|]. split; [exact C|exact A].
Qed.
Print Assumptions C16_cvrmse_times_mean.

Theorem C16_ratio_root_defined : forall msq den mn neg s,
  safe_divide_root msq den mn = Root neg s ->
  ~ den == 0 /\ s * (den * den) == msq /\ neg = Qltb den 0 /\ (mn < den \/ root_gtb msq (10 * mn) = false).
Proof.
  intros msq den mn neg s H.
  destruct (sdiv_root_root_inv AsCoded _ _ _ _ _ H) as [A [B C]].
  split; [exact A|]. split; [exact B|]. split; [exact C|].
  destruct (safe_divide_root_cases msq den mn) as [[E _]|[G _]]; [rewrite E in H; discriminate H|exact G].
Qed.
Print Assumptions C16_ratio_root_defined.

Example C16_cvrmse_example :
  b_cvrmse (baseline ex_d 2 ex_mn) = Root false (35 # 1024) /\
  b_pnrmse_adj (baseline ex_d 2 ex_mn) = Root false (7 # 48).
Proof. vm_compute. split; reflexivity. Qed.

(* _safe_divide: the exact region where None is returned ... *)
Theorem C16_safe_divide_region : forall num den mn,
  safe_divide num den mn = RNone <-> (den <= mn /\ 10 * mn < num).
Proof. exact safe_divide_none_iff. Qed.
Print Assumptions C16_safe_divide_region.

Theorem C16_safe_divide_number : forall num den mn q,
  safe_divide num den mn = RNum q -> ~ den == 0 /\ q == num / den /\ (mn < den \/ num <= 10 * mn).
Proof.
  intros num den mn q H. destruct (safe_divide_cases num den mn) as [[E _]|[G [[_ E]|[Z E]]]]; rewrite E in H.
  - discriminate H.
  - discriminate H.
  - injection H as <-. split; [exact Z|]. split; [apply Qred_correct|exact G].
Qed.
Print Assumptions C16_safe_divide_number.

(* ... against the statement: "a ratio whose denominator is not safely positive is reported as undefined
   rather than as a number" *)
Definition C16_safe_divide_statement : Prop := forall num den mn, 0 <= mn ->
  safe_divide num den mn = safe_divide_spec num den mn.

(* it holds exactly where the denominator is safely positive or the numerator exceeds 10 * min_denominator *)
Theorem C16_safe_divide_partial : forall num den mn, 0 <= mn ->
  (safe_divide num den mn = safe_divide_spec num den mn <-> (mn < den \/ 10 * mn < num)).
Proof.
  intros num den mn Hmn. unfold safe_divide_spec. destruct (Qle_bool den mn) eqn:E.
  - rewrite safe_divide_none_iff. apply Qle_bool_iff in E.
    split; [intros [_ H]; right; exact H|]. intros [H|H]; [lra|split; assumption].
  - unfold safe_divide. rewrite E. cbn [andb]. apply Qle_bool_false in E.
    destruct (Qeq_bool den 0) eqn:Z; [apply Qeq_bool_iff in Z; lra|].
    split; [intros _; left; exact E|reflexivity].
Qed.
Print Assumptions C16_safe_divide_partial.

Example C16_safe_divide_partial_example :
  safe_divide (1 # 2) (1 # 2000) ex_mn = RNone /\ safe_divide (-5) 2 ex_mn = RNum (-5 # 2) /\
  safe_divide_spec (-5) 2 ex_mn = RNum (-5 # 2).
Proof. vm_compute. repeat split; try reflexivity; discriminate. Qed.

(* witnesses against it under [AsCoded] (harness/c16.py calls _safe_divide on (-5, -1), (-5, 0.0005), (0.005, 0) to tell
   which policy the code under test has) *)
Theorem C16_safe_divide_refuted : ~ C16_safe_divide_statement.
Proof.
  intros H. specialize (H (-5) (1 # 2000) ex_mn ltac:(discriminate)). vm_compute in H. discriminate.
Qed.
Print Assumptions C16_safe_divide_refuted.

Theorem C16_safe_divide_tiny_denominator_refuted : exists num den mn,
  0 < den /\ den <= mn /\ safe_divide num den mn = RNum (-10000).
Proof. exists (-5), (1 # 2000), ex_mn. vm_compute. repeat split; try reflexivity; discriminate. Qed.
Print Assumptions C16_safe_divide_tiny_denominator_refuted.

Theorem C16_safe_divide_negative_denominator_refuted : exists num den mn,
  0 < mn /\ den < 0 /\ safe_divide num den mn = RNum 5 /\
  safe_divide (1 # 200) den mn = RNum (-1 # 200).
Proof. exists (-5), (-1), ex_mn. vm_compute. repeat split; try reflexivity; discriminate. Qed.
Print Assumptions C16_safe_divide_negative_denominator_refuted.

Theorem C16_safe_divide_zero_denominator_refuted : exists num mn,
  0 < mn /\ 0 < num /\ safe_divide num 0 mn = RDivZero 1 /\ safe_divide 0 0 mn = RDivZero 0.
Proof. exists (1 # 200), ex_mn. vm_compute. repeat split; try reflexivity; discriminate. Qed.
Print Assumptions C16_safe_divide_zero_denominator_refuted.

(* the same for the reported CVRMSE: full statement, guard, refutation (a perfect fit of a net-metered
   site: observed = predicted = -1, -3) *)
Definition C16_cvrmse_undefined_statement : Prop := forall d p mn, d <> [] -> 0 <= mn ->
  c_mean (b_obs (baseline d p mn)) <= mn -> b_cvrmse (baseline d p mn) = Undef.

Theorem C16_cvrmse_undefined_partial : forall d p mn, d <> [] -> 0 <= mn ->
  let m := baseline d p mn in
  c_mean (b_obs m) <= mn -> (b_cvrmse m = Undef <-> 10 * mn * (10 * mn) < b_mse m).
Proof.
  intros d p mn Hd Hmn m Hm. change (b_cvrmse m) with (safe_divide_root (b_mse m) (c_mean (b_obs m)) mn).
  rewrite safe_divide_root_undef_iff, root_gtb_true.
  split; [intros [_ [F|F]]; [lra|exact F]|]. intros F. split; [exact Hm|right; exact F].
Qed.
Print Assumptions C16_cvrmse_undefined_partial.

Theorem C16_cvrmse_undefined_refuted : ~ C16_cvrmse_undefined_statement.
Proof.
  intros H.
  assert (L : c_mean (b_obs (baseline [(-1, -1); (-3, -3)] 1 ex_mn)) <= ex_mn) by (vm_compute; discriminate).
  specialize (H [(-1, -1); (-3, -3)] 1%Z ex_mn ltac:(discriminate) ltac:(discriminate) L). vm_compute in H. discriminate.
Qed.
Print Assumptions C16_cvrmse_undefined_refuted.

Example C16_cvrmse_undefined_example :
  b_cvrmse (baseline [(-1, 1); (-3, -1)] 1 ex_mn) = Undef /\
  b_cvrmse (baseline [(-1, -1); (-3, -3)] 1 ex_mn) = Root true 0.
Proof. vm_compute. split; reflexivity. Qed.

(* ------------------------------------------------------------------ hourly model *)

(* the stored baseline metrics are those of the measured (non-interpolated) hours *)
Theorem C16_hourly_metrics_on_measured_rows : forall pl rows rows' p mn,
  measured_rows rows = measured_rows rows' ->
  hourly_baseline_metrics_p pl rows p mn = hourly_baseline_metrics_p pl rows' p mn.
Proof. intros pl rows rows' p mn H. unfold hourly_baseline_metrics_p. rewrite H. reflexivity. Qed.
Print Assumptions C16_hourly_metrics_on_measured_rows.

Theorem C16_hourly_interpolated_ignored : forall pl a o q b p mn,
  hourly_baseline_metrics_p pl (a ++ (o, q, true) :: b) p mn = hourly_baseline_metrics_p pl (a ++ b) p mn.
Proof. intros. unfold hourly_baseline_metrics_p. rewrite !measured_rows_app. reflexivity. Qed.
Print Assumptions C16_hourly_interpolated_ignored.

Theorem C16_hourly_measured_rows : forall rows o q, In (o, q) (measured_rows rows) <-> In (o, q, false) rows.
Proof.
  intros rows o q. unfold measured_rows. rewrite in_map_iff. split.
  - intros [[[a b] f] [E H]]. cbn in E. injection E as -> ->. apply filter_In in H. destruct H as [H F].
    cbn in F. destruct f; [discriminate|exact H].
  - intros H. exists (o, q, false). split; [reflexivity|]. apply filter_In. split; [exact H|reflexivity].
Qed.
Print Assumptions C16_hourly_measured_rows.

Example C16_hourly_measured_example :
  hourly_baseline_metrics [(Some 1, Some 2, false); (Some 9, Some 100, true); (Some 3, Some 3, false)] 1 ex_mn =
  baseline_of_rows [(Some 1, Some 2); (Some 3, Some 3)] 1 ex_mn.
Proof. reflexivity. Qed.

(* disqualified for poor fit exactly when it misses both thresholds *)
Theorem C16_hourly_dq_iff : forall m tcv tpn,
  hourly_disqualified m tcv tpn = true <->
  (~ (b_cvrmse_adj m <> Undef /\ val_ltb (b_cvrmse_adj m) tcv = true) /\
   ~ (b_pnrmse_adj m <> Undef /\ val_ltb (b_pnrmse_adj m) tpn = true)).
Proof. exact hourly_dq_iff. Qed.
Print Assumptions C16_hourly_dq_iff.

(* what "below the threshold" means for a root kept as its square *)
Theorem C16_root_below_threshold : forall neg s t, 0 < t ->
  (val_ltb (Root neg s) t = true <-> (neg = true \/ s < t * t)).
Proof.
  intros neg s t Ht. cbn [val_ltb]. apply Qltb_true_iff in Ht. rewrite Ht. unfold sqr.
  rewrite orb_true_iff, Qltb_true_iff. tauto.
Qed.
Print Assumptions C16_root_below_threshold.

(* against the statement's reading (a ratio over a denominator that is not safely positive is undefined and
   so misses its threshold): full statement, guard, refutation *)
Definition C16_hourly_gate_statement : Prop := forall d p mn tcv tpn, d <> [] -> 0 <= mn ->
  hourly_disqualified (baseline d p mn) tcv tpn = hourly_disqualified_spec (baseline d p mn) mn tcv tpn.

Theorem C16_hourly_gate_partial : forall d p mn tcv tpn, 0 <= mn ->
  let m := baseline d p mn in
  (mn < c_mean (b_obs m) \/ b_cvrmse_adj m = Undef) ->
  (mn < c_iqr (b_obs m) \/ b_pnrmse_adj m = Undef) ->
  hourly_disqualified m tcv tpn = hourly_disqualified_spec m mn tcv tpn.
Proof. intros d p mn tcv tpn Hmn m. apply hourly_gate_p. exact Hmn. Qed.
Print Assumptions C16_hourly_gate_partial.

Example C16_hourly_gate_example :
  let m := baseline ex_d 2 ex_mn in
  ex_mn < c_mean (b_obs m) /\ ex_mn < c_iqr (b_obs m) /\
  hourly_disqualified m (7 # 5) (11 # 5) = false /\ hourly_disqualified m (1 # 10) (1 # 10) = true.
Proof. vm_compute. repeat split; try reflexivity; discriminate. Qed.

(* a flat net-metered series (observed = predicted = -2): both ratios are over denominators that are not
   safely positive; under [AsCoded] CVRMSE_adj is reported as -0 < 1.4 and the model is accepted *)
Theorem C16_hourly_gate_refuted : ~ C16_hourly_gate_statement.
Proof.
  intros H. specialize (H [(-2, -2); (-2, -2)] 1%Z ex_mn (7 # 5) (11 # 5) ltac:(discriminate) ltac:(discriminate)).
  vm_compute in H. discriminate.
Qed.
Print Assumptions C16_hourly_gate_refuted.

(* under [Repaired] (denominator <= min_denominator -> None) the full statements hold *)
Theorem C16_repaired_safe_divide : forall num den mn, sdiv Repaired num den mn = safe_divide_spec num den mn.
Proof. reflexivity. Qed.
Print Assumptions C16_repaired_safe_divide.

Theorem C16_repaired_ratios_undefined : forall d p mn,
  let m := baseline_p Repaired d p mn in
  (c_mean (b_obs m) <= mn ->
     b_nmae m = Undef /\ b_nmbe m = Undef /\ b_cvrmse m = Undef /\ b_cvrmse_adj m = Undef) /\
  (c_iqr (b_obs m) <= mn ->
     b_pnmae m = Undef /\ b_pnmbe m = Undef /\ b_pnrmse m = Undef /\ b_pnrmse_adj m = Undef).
Proof.
  intros d p mn m. unfold m, baseline_p.
  cbn [b_nmae b_nmbe b_cvrmse b_cvrmse_adj b_pnmae b_pnmbe b_pnrmse b_pnrmse_adj b_obs sdiv sdiv_root].
  unfold safe_divide_spec, safe_divide_root_spec.
  split; intros H; apply Qle_bool_iff in H; rewrite H; cbn [ratio_val]; repeat split; reflexivity.
Qed.
Print Assumptions C16_repaired_ratios_undefined.

Theorem C16_repaired_hourly_gate : forall d p mn tcv tpn, 0 <= mn ->
  hourly_disqualified (baseline_p Repaired d p mn) tcv tpn = hourly_disqualified_spec (baseline_p Repaired d p mn) mn tcv tpn.
Proof.
  intros d p mn tcv tpn Hmn. apply hourly_gate_p; [exact Hmn|apply repaired_root_safe_or_undef..].
Qed.
Print Assumptions C16_repaired_hourly_gate.

Example C16_repaired_example :
  b_cvrmse (baseline_p Repaired [(-1, -1); (-3, -3)] 1 ex_mn) = Undef /\
  hourly_disqualified (baseline_p Repaired [(-2, -2); (-2, -2)] 1 ex_mn) (7 # 5) (11 # 5) = true /\
  b_cvrmse (baseline_p Repaired ex_d 2 ex_mn) = b_cvrmse (baseline ex_d 2 ex_mn).
Proof. vm_compute. repeat split; reflexivity. Qed.

(* ------------------------------------------------------------------ daily / billing model *)

Theorem C16_daily_dq_iff : forall resid obs t, 0 <= t -> ~ mean obs == 0 ->
  (daily_disqualified (daily_error resid obs) t = true <->
   (0 < mean obs /\ t * t * (mean obs * mean obs) < d_mse (daily_error resid obs))).
Proof. exact daily_dq_iff. Qed.
Print Assumptions C16_daily_dq_iff.

Theorem C16_daily_dq_zero_mean : forall resid obs t, mean obs == 0 ->
  daily_disqualified (daily_error resid obs) t = negb (Qeq_bool (d_mse (daily_error resid obs)) 0).
Proof.
  intros resid obs t Hm. unfold daily_disqualified, daily_error. cbn [d_cvrmse d_mse]. unfold root_div.
  apply Qeq_bool_iff in Hm. rewrite Hm. destruct (Qeq_bool (Qred (sum_sq resid / qlen resid)) 0); reflexivity.
Qed.
Print Assumptions C16_daily_dq_zero_mean.

Example C16_daily_example :
  let e := daily_error [1; -1; 2; -2] [10; 12; 8; 10] in
  d_mse e == 5 # 2 /\ d_mae e == 3 # 2 /\ d_cvrmse e = Root false (1 # 40) /\
  daily_disqualified e 1 = false /\ daily_disqualified e (1 # 10) = true /\ ~ mean [10; 12; 8; 10] == 0.
Proof. vm_compute. repeat split; try reflexivity; discriminate. Qed.

(* ------------------------------------------------------------------ savings *)

Theorem C16_savings : forall rows,
  let r := reporting rows in
  r_savings r == r_predicted_sum r - r_observed_sum r /\
  r_observed_sum r == rsum (observed_of (finite_pairs rows)) /\
  r_predicted_sum r == rsum (predicted_of (finite_pairs rows)) /\
  r_n r = Z.of_nat (length (finite_pairs rows)).
Proof.
  intros rows r. split; [apply Qred_correct|]. unfold r, reporting. cbn [r_observed_sum r_predicted_sum r_n].
  rewrite !qsum_rsum. repeat split; reflexivity.
Qed.
Print Assumptions C16_savings.

Theorem C16_savings_nonfinite_ignored : forall a r b, nonfinite r -> reporting (a ++ r :: b) = reporting (a ++ b).
Proof. intros a r b H. unfold reporting. rewrite (finite_pairs_nonfinite a r b H). reflexivity. Qed.
Print Assumptions C16_savings_nonfinite_ignored.

Example C16_savings_example :
  r_savings (reporting [(Some 1, Some 2); (None, Some 7); (Some 3, Some (9 # 2))]) == 5 # 2.
Proof. vm_compute. reflexivity. Qed.

(* ------------------------------------------------------------------ what the squares mean (over the reals)
   [Root neg s] stands for (-1)^neg * sqrt s; the model only ever compares and divides squares.
   These theorems tie that to the roots themselves (standard-library Reals axioms). *)

Theorem C16_root_below_threshold_R : forall neg s t, 0 <= s ->
  (val_ltb (Root neg s) t = true <-> (root_R neg s < Q2R t)%R).
Proof. exact val_ltb_root_R. Qed.
Print Assumptions C16_root_below_threshold_R.

Theorem C16_root_above_threshold_R : forall neg s t, 0 <= s ->
  (val_gtb (Root neg s) t = true <-> (Q2R t < root_R neg s)%R).
Proof. exact val_gtb_root_R. Qed.
Print Assumptions C16_root_above_threshold_R.

(* CVRMSE = RMSE / mean(observed), as real numbers, whenever it is reported *)
Theorem C16_cvrmse_is_rmse_over_mean_R : forall pl d p mn, d <> [] -> forall neg s,
  let m := baseline_p pl d p mn in
  b_cvrmse m = Root neg s ->
  (root_R neg s = sqrt (Q2R (b_mse m)) / Q2R (c_mean (b_obs m)))%R /\ Q2R (c_mean (b_obs m)) <> 0%R.
Proof.
  intros pl d p mn _ neg s m H. apply root_div_R. exact (sdiv_root_root_is_root_div pl _ _ mn _ _ H).
Qed.
Print Assumptions C16_cvrmse_is_rmse_over_mean_R.

(* |bias| <= MAE <= RMSE *)
Theorem C16_bias_mae_rmse_R : forall pl d p mn, d <> [] ->
  let m := baseline_p pl d p mn in
  (Rabs (Q2R (b_mbe m)) <= Q2R (b_mae m))%R /\ (Q2R (b_mae m) <= sqrt (Q2R (b_mse m)))%R.
Proof.
  intros pl d p mn Hd m. split.
  - rewrite <- Q2R_abs. apply Qle_Rle. apply b_abs_mbe_le_mae. exact Hd.
  - apply Q2R_le_sqrt; [apply b_mae_nonneg|apply b_mae_sq_le_mse; exact Hd].
Qed.
Print Assumptions C16_bias_mae_rmse_R.

(* |R| <= 1 *)
Theorem C16_r_abs_le_1_R : forall pl d p mn r, b_r2 (baseline_p pl d p mn) = Some r -> (sqrt (Q2R r) <= 1)%R.
Proof.
  intros pl d p mn r H. destruct (b_r2_bounds pl d p mn r H) as [_ B]. apply Qle_Rle in B. rewrite Q2R_1 in B.
  rewrite <- sqrt_1. apply sqrt_le_1_alt. exact B.
Qed.
Print Assumptions C16_r_abs_le_1_R.

(* daily / billing: disqualified exactly when RMSE / mean(observed) > threshold (any threshold) *)
Theorem C16_daily_dq_R : forall resid obs t, resid <> [] -> ~ mean obs == 0 ->
  (daily_disqualified (daily_error resid obs) t = true <->
   (Q2R t < sqrt (Q2R (d_mse (daily_error resid obs))) / Q2R (mean obs))%R).
Proof.
  intros resid obs t _ Hm. unfold daily_disqualified.
  assert (Hmse : 0 <= d_mse (daily_error resid obs)) by apply sum_sq_div_len_nonneg.
  assert (E : d_cvrmse (daily_error resid obs) =
              Root (Qltb (mean obs) 0) (Qred (d_mse (daily_error resid obs) / sqr (mean obs))))
    by (apply root_div_nonzero; exact Hm).
  rewrite E, (val_gtb_root_R _ _ t (root_div_sq_nonneg _ _ _ _ Hmse E)), (proj1 (root_div_R _ _ _ _ E)).
  reflexivity.
Qed.
Print Assumptions C16_daily_dq_R.

Example C16_root_R_example :
  val_ltb (Root false (1 # 4)) (3 # 5) = true /\ val_ltb (Root false (1 # 4)) (1 # 2) = false /\
  val_gtb (Root true (1 # 4)) (-3 # 5) = true /\ val_gtb (Root true (1 # 4)) (-1 # 2) = false /\ 0 <= 1 # 4.
Proof. vm_compute. repeat split; try reflexivity; discriminate. Qed.

(* ==================================================================================================
   Beyond the property's statement: order statistics, MAPE and the pure helpers of opendsm/common/utils.py, modelled
   as coded and characterised by theorems (Model/MetricsUtils.v; lemmas in Proofs/MetricsQuantileProofs.v and
   Proofs/MetricsUtilsProofs.v). *)
From Coq Require Import Qminmax.
From V Require Import Model.MetricsUtils Proofs.MetricsQuantileProofs Proofs.MetricsUtilsProofs.

(* ------------------------------------------------------------------ quantiles (np.quantile, "linear") *)

(* min <= q <= max *)
Theorem C16_quantile_between_min_and_max : forall l a b L U, l <> [] -> (0 < b)%Z -> (0 <= a <= b)%Z ->
  (forall x, In x l -> L <= x /\ x <= U) -> L <= quantile l a b /\ quantile l a b <= U.
Proof. exact quantile_bounds. Qed.
Print Assumptions C16_quantile_between_min_and_max.

(* monotone in p *)
Theorem C16_quantile_monotone : forall l a1 a2 b, l <> [] -> (0 < b)%Z -> (0 <= a1 <= a2)%Z -> (a2 <= b)%Z ->
  quantile l a1 b <= quantile l a2 b.
Proof. exact quantile_mono. Qed.
Print Assumptions C16_quantile_monotone.

Theorem C16_iqr_nonneg : forall l, l <> [] -> 0 <= iqr l.
Proof. intros l Hl. apply (quantile_spread_nonneg l 1 3 4); [exact Hl|lia..]. Qed.
Print Assumptions C16_iqr_nonneg.

Theorem C16_range_5_95_nonneg : forall l, l <> [] -> 0 <= range_5_95 l.
Proof. intros l Hl. apply (quantile_spread_nonneg l 1 19 20); [exact Hl|lia..]. Qed.
Print Assumptions C16_range_5_95_nonneg.

Theorem C16_median_between_min_and_max : forall l L U, l <> [] ->
  (forall x, In x l -> L <= x /\ x <= U) -> L <= median l /\ median l <= U.
Proof. exact median_bounds. Qed.
Print Assumptions C16_median_between_min_and_max.

Example C16_quantile_example :
  quantile [5; 1; 4; 2; 9] 1 4 == 2 /\ quantile [5; 1; 4; 2; 9] 3 4 == 5 /\ iqr [5; 1; 4; 2; 9] == 3 /\
  quantile [1; 2; 3; 4] 1 2 == 5 # 2 /\ range_5_95 [0; 10; 20; 30; 40] == 36.
Proof. vm_compute. repeat split; reflexivity. Qed.

(* ------------------------------------------------------------------ median_absolute_deviation *)

(* MAD_scaled = MAD_k * median(|x - median x|) *)
Theorem C16_mad_definition : forall k l,
  median_absolute_deviation k l None == k * median (map (fun x => Qabs (x - median l)) l) /\
  (forall mu, median_absolute_deviation k l (Some mu) == k * median (map (fun x => Qabs (x - mu)) l)).
Proof. intros k l. split; [reflexivity|intros mu; reflexivity]. Qed.
Print Assumptions C16_mad_definition.

Theorem C16_mad_nonneg : forall k l mu, 0 <= k -> l <> [] -> 0 <= median_absolute_deviation k l mu.
Proof.
  intros k l mu Hk Hl. apply Qmult_le_0_compat; [exact Hk|apply mad_about_nonneg; exact Hl].
Qed.
Print Assumptions C16_mad_nonneg.

Theorem C16_mad_at_most_largest_deviation : forall l D, l <> [] ->
  (forall x, In x l -> Qabs (x - median l) <= D) -> 0 <= mad l /\ mad l <= D.
Proof. intros l D Hl HD. exact (mad_about_bounds l (median l) D Hl HD). Qed.
Print Assumptions C16_mad_at_most_largest_deviation.

Example C16_mad_example :
  median_absolute_deviation (3 # 2) [1; 2; 3; 4; 100] None == 3 # 2 /\
  median_absolute_deviation (3 # 2) [1; 2; 3; 4; 100] (Some 2) == 3 # 2 /\ mad [7; 7; 7] == 0.
Proof. vm_compute. repeat split; reflexivity. Qed.

(* ------------------------------------------------------------------ MAPE *)

Theorem C16_mape_undefined_iff : forall d mn, mape_of d mn = Undef <-> (forall r, In r d -> Qabs (fst r) < mn).
Proof.
  intros d mn. rewrite mape_of_rows. pose proof (mape_rows_In d mn) as I.
  destruct (mape_rows d mn) as [|r0 nz].
  - split; [intros _|reflexivity]. intros r Hr.
    destruct (Qlt_le_dec (Qabs (fst r)) mn) as [L|L]; [exact L|]. destruct (proj2 (I r) (conj Hr L)).
  - split; [discriminate|]. intros H. destruct (proj1 (I r0) (or_introl eq_refl)) as [I1 I2].
    specialize (H r0 I1). lra.
Qed.
Print Assumptions C16_mape_undefined_iff.

Theorem C16_mape_is_mean_abs_pct_error : forall d mn q, mape_of d mn = Num q ->
  mape_rows d mn <> [] /\
  q * qlen (mape_rows d mn) == rsum (map (fun r => Qabs ((fst r - snd r) / fst r)) (mape_rows d mn)) /\ 0 <= q.
Proof.
  intros d mn q H. rewrite mape_of_rows in H.
  destruct (mape_rows d mn) as [|r0 nz] eqn:E; [discriminate|].
  pose proof (qlen_pos _ (r0 :: nz) ltac:(discriminate)) as Pn.
  set (n := qlen (r0 :: nz)) in *. set (l := map (fun r => Qabs ((fst r - snd r) / fst r)) (r0 :: nz)) in *.
  injection H as <-. split; [discriminate|].
  assert (Pl : 0 <= rsum l) by (apply rsum_map_nonneg; intros r; apply Qabs_nonneg).
  rewrite Qred_correct, qsum_rsum. split; [field; lra|apply Qdiv_nonneg; lra].
Qed.
Print Assumptions C16_mape_is_mean_abs_pct_error.

Example C16_mape_example :
  mape_of [(2, 1); (4, 5); (0, 3)] ex_mn = Num (3 # 8) /\ mape_of [(0, 1)] ex_mn = Undef.
Proof. vm_compute. split; reflexivity. Qed.

(* ------------------------------------------------------------------ OoM *)

(* floor: 10^k <= |x| < 10^(k+1) *)
Theorem C16_oom_floor : forall x k, ~ x == 0 -> oom OFloor x = Some k ->
  qpow10 k <= Qabs x /\ Qabs x < qpow10 (k + 1).
Proof. exact oom_floor_sound. Qed.
Print Assumptions C16_oom_floor.

Theorem C16_oom_ceil : forall x c, ~ x == 0 -> oom OCeil x = Some c ->
  exists k, oom OFloor x = Some k /\ ((c = k /\ Qabs x == qpow10 k) \/ (c = (k + 1)%Z /\ qpow10 k < Qabs x)).
Proof.
  intros x c Hx H. destruct (oom_decade OCeil x c Hx H) as [k [F R]]. cbv iota in R. exists k. split; [exact F|].
  destruct (oom_floor_sound x k Hx F) as [F1 _].
  destruct (Qeq_bool (Qabs x) (qpow10 k)) eqn:E; injection R as <-.
  - left. split; [reflexivity|apply Qeq_bool_iff; exact E].
  - right. split; [reflexivity|]. apply Qeq_bool_false in E. apply Qnot_le_lt. intros L. apply E.
    apply Qle_antisym; assumption.
Qed.
Print Assumptions C16_oom_ceil.

(* round: the decade k when log10|x| < k + 1/2 (x^2 < 10^(2k+1)), k + 1 otherwise *)
Theorem C16_oom_round : forall x r, ~ x == 0 -> oom ORound x = Some r ->
  exists k, oom OFloor x = Some k /\
    ((r = k /\ Qabs x * Qabs x < qpow10 (2 * k + 1)) \/ (r = (k + 1)%Z /\ qpow10 (2 * k + 1) <= Qabs x * Qabs x)).
Proof.
  intros x r Hx H. destruct (oom_decade ORound x r Hx H) as [k [F R]]. cbv iota in R. exists k. split; [exact F|].
  destruct (Qltb (Qabs x * Qabs x) (qpow10 (2 * k + 1))) eqn:E; injection R as <-.
  - left. split; [reflexivity|apply Qltb_true_iff; exact E].
  - right. split; [reflexivity|apply Qltb_false_iff; exact E].
Qed.
Print Assumptions C16_oom_round.

Theorem C16_oom_zero : forall m x, x == 0 -> oom m x = Some 1%Z.
Proof. intros m x H. unfold oom. apply Qeq_bool_iff in H. rewrite H. reflexivity. Qed.
Print Assumptions C16_oom_zero.

Example C16_oom_example :
  oom OFloor 1000 = Some 3%Z /\ oom OFloor (9999 # 10) = Some 2%Z /\ oom OCeil 1000 = Some 3%Z /\
  oom OCeil 1001 = Some 4%Z /\ oom ORound (316 # 100) = Some 0%Z /\ oom ORound (317 # 100) = Some 1%Z /\
  oom OFloor (-1 # 4000) = Some (-4)%Z /\ oom OFloor (1 # 10 ^ 320) = Some (-320)%Z /\ ~ 1000 == 0.
Proof.
  do 7 (split; [reflexivity|]). split; [|discriminate].
  (* this value is [qpow10 (-320)] as written: no search through 320 powers of ten *)
  change (1 # 10 ^ 320) with (qpow10 (-320)). apply oom_floor_pow10. now split.
Qed.

(* ------------------------------------------------------------------ RoundToSigFigs *)

(* as coded: an integer number of units 1/mags = 10^(OoM_round(x) - p + 1), within half a unit of x *)
Theorem C16_round_sig_as_coded : forall x p r, round_sig x p = Some r ->
  exists m j, sig_mags x p = Some m /\ 0 < m /\ r * m == inject_Z j /\ Qabs (r - x) <= (1 # 2) / m.
Proof. exact round_sig_as_coded. Qed.
Print Assumptions C16_round_sig_as_coded.

(* Facts about the code as it stands (not statements of property C16: RoundToSigFigs has no caller in the
   package and the pinned test tests/daily_model/utilities/test_utils.py::test_RoundToSigFigs asserts the coded
   behaviour, 5678.1234 -> 5680 for p = 4).  The docstring, read literally ("rounds x to p significant
   figures"), would mean: within half a unit of the p-th significant digit, and idempotent: *)
Definition C16_round_sig_docstring_reading_figures : Prop := forall x p r u, ~ x == 0 -> (1 <= p)%Z ->
  round_sig x p = Some r -> sig_unit_spec x p = Some u -> Qabs (r - x) <= u / 2.
Definition C16_round_sig_docstring_reading_idempotent : Prop := forall x p r, (1 <= p)%Z ->
  round_sig x p = Some r -> round_sig r p = Some r.

(* the coded function agrees with that reading exactly for mantissas below sqrt(10), where round and floor
   of log10|x| coincide *)
Theorem C16_round_sig_figures_docstring_reading_partial : forall x p r u k, ~ x == 0 ->
  oom ORound x = Some k -> oom OFloor x = Some k ->
  round_sig x p = Some r -> sig_unit_spec x p = Some u -> Qabs (r - x) <= u / 2.
Proof.
  intros x p r u k Hx HR HF H U. destruct (round_sig_as_coded x p r H) as [m [j [M [Pm [_ C]]]]].
  unfold sig_mags in M. rewrite (proj2 (Qeq_bool_false x 0) Hx), HR in M. injection M as <-.
  unfold sig_unit_spec in U. rewrite HF in U. injection U as <-.
  replace (p - 1 - k)%Z with (- (k - p + 1))%Z in C by lia.
  pose proof (qpow10_pos (k - p + 1)) as Pu. rewrite qpow10_opp in C.
  assert (E : (1 # 2) / / qpow10 (k - p + 1) == qpow10 (k - p + 1) / 2) by (field; lra).
  rewrite E in C. exact C.
Qed.
Print Assumptions C16_round_sig_figures_docstring_reading_partial.

(* observation: above sqrt(10) the code keeps p - 1 figures (3.5 -> 0 for p = 1), and a value that rounding
   moves across sqrt(10)*10^k changes when the function is applied again (3.16 -> 3.2 -> 3.0 for p = 2) *)
Theorem C16_round_sig_figures_docstring_reading_fails_above_sqrt10 : exists x p r u,
  ~ x == 0 /\ (1 <= p)%Z /\ round_sig x p = Some r /\ sig_unit_spec x p = Some u /\ u / 2 < Qabs (r - x).
Proof. exists (35 # 10), 1%Z, 0, 1. vm_compute. repeat split; try reflexivity; discriminate. Qed.
Print Assumptions C16_round_sig_figures_docstring_reading_fails_above_sqrt10.

Theorem C16_round_sig_twice_differs_across_sqrt10 : exists x p r r',
  (1 <= p)%Z /\ round_sig x p = Some r /\ round_sig r p = Some r' /\ ~ r' == r.
Proof. exists (316 # 100), 2%Z, (16 # 5), 3. vm_compute. repeat split; try reflexivity; discriminate. Qed.
Print Assumptions C16_round_sig_twice_differs_across_sqrt10.

Example C16_round_sig_example :
  round_sig (12345678 # 10000) 3 = Some 1230 /\ round_sig (56781234 # 10000) 4 = Some 5680 /\
  round_sig 0 3 = Some 0 /\ round_sig 25 1 = Some 20 /\ round_sig (314 # 100) 2 = Some (31 # 10) /\
  oom ORound (314 # 100) = oom OFloor (314 # 100).
Proof. vm_compute. repeat split; reflexivity. Qed.

(* ------------------------------------------------------------------ np_clip *)

Theorem C16_clip : forall x lo hi, lo <= hi ->
  exists r, clip (Some x) lo hi = Some r /\ lo <= r /\ r <= hi /\ r == Qmin (Qmax x lo) hi.
Proof. exact clip_value. Qed.
Print Assumptions C16_clip.

Theorem C16_clip_idempotent_nan_preserved : forall a lo hi, lo <= hi ->
  match clip a lo hi with Some r => clip (Some r) lo hi = Some r | None => a = None end.
Proof.
  intros [x|] lo hi H; [|reflexivity]. destruct (clip_value x lo hi H) as [r [E [A [B _]]]]. rewrite E.
  unfold clip. rewrite (proj2 (Qltb_false_iff r lo) A), (proj2 (Qltb_false_iff hi r) B). reflexivity.
Qed.
Print Assumptions C16_clip_idempotent_nan_preserved.

Example C16_clip_example :
  clip (Some 5) 0 3 = Some 3 /\ clip (Some (-5)) 0 3 = Some 0 /\ clip (Some 2) 0 3 = Some 2 /\
  clip None 0 3 = None /\ clip (Some 1) 3 0 = Some 3 /\ 0 <= 3.
Proof. vm_compute. repeat split; try reflexivity; discriminate. Qed.

(* ------------------------------------------------------------------ fast_std (squared) *)

(* no weights (or one weight), no mean: the population variance, np.std(x)^2 *)
Theorem C16_fast_std_plain : forall l w, fast_var l None None = variance l /\ fast_var l (Some [w]) None = variance l.
Proof. intros l w. split; reflexivity. Qed.
Print Assumptions C16_fast_std_plain.

(* a given mean: (1/n) sum (x - mu)^2 = variance + (mean - mu)^2 >= 0 *)
Theorem C16_fast_std_given_mean : forall l mu, l <> [] ->
  fast_var l None (Some mu) == variance l + (mean l - mu) * (mean l - mu) /\ 0 <= fast_var l None (Some mu).
Proof.
  intros l mu H. pose proof (fast_var_given_mean l mu H) as E. split; [exact E|]. rewrite E.
  pose proof (variance_nonneg l). pose proof (sqr_nonneg (mean l - mu)) as S. unfold sqr in S. lra.
Qed.
Print Assumptions C16_fast_std_given_mean.

Example C16_fast_std_example :
  fast_var [1; 2; 4; 7] None None == 21 # 4 /\ fast_var [1; 2; 4; 7] None (Some 3) == 11 # 2 /\
  fast_var [1; 2; 4; 7] (Some [3 # 4; 3 # 4; 3 # 4; 3 # 4]) None == 21 # 4 /\
  fast_var [1; 2; 4; 7] (Some [1 # 10; 2 # 10; 3 # 10; 4 # 10]) None == 101 # 15 /\
  fast_var [1; 2; 4; 7] (Some [1; 2; 3; 4]) (Some 3) == 146 # 15.
Proof. vm_compute. repeat split; reflexivity. Qed.

(* ------------------------------------------------------------------ t_stat / unc_factor plumbing *)

Theorem C16_t_stat_arguments : forall alpha n,
  t_args alpha n 1 = Some (1 - alpha, (n - 1)%Z) /\ t_args alpha n 2 = Some (1 - alpha / 2, (n - 1)%Z) /\
  (forall tail, tail <> 1%Z -> tail <> 2%Z -> t_args alpha n tail = None).
Proof.
  intros alpha n. split; [reflexivity|]. split; [reflexivity|]. intros tail H1 H2. unfold t_args.
  rewrite (proj2 (Z.eqb_neq tail 1) H1), (proj2 (Z.eqb_neq tail 2) H2). reflexivity.
Qed.
Print Assumptions C16_t_stat_arguments.

Theorem C16_t_stat_percentile_range : forall alpha n tail pc d, 0 < alpha -> alpha < 1 ->
  t_args alpha n tail = Some (pc, d) -> 0 < pc /\ pc < 1 /\ d = (n - 1)%Z.
Proof.
  intros alpha n tail pc d A0 A1 H. unfold t_args in H.
  destruct (tail =? 1)%Z; [injection H as <- <-; repeat split; lra|].
  destruct (tail =? 2)%Z; [injection H as <- <-|discriminate].
  assert (E : alpha / 2 == alpha * (1 # 2)) by field. rewrite E. repeat split; lra.
Qed.
Print Assumptions C16_t_stat_percentile_range.

(* unc_factor = base + root: root^2 * n = t^2 with the sign of t; base = 0 for "CI", t for "PI" *)
Theorem C16_unc_factor : forall t n i b neg s, (0 < n)%Z -> unc_factor t n i = Some (b, Root neg s) ->
  s * inject_Z n == t * t /\ neg = Qltb t 0 /\ (i = CI -> b == 0) /\ (i = PI -> b == t).
Proof.
  intros t n i b neg s Hn H. pose proof (inject_Z_pos n Hn) as Pn.
  assert (E : Qred (sqr t / inject_Z n) * inject_Z n == t * t) by (rewrite Qred_correct; unfold sqr; field; lra).
  unfold unc_factor in H. destruct i; try discriminate; injection H as <- <- <-.
  - split; [exact E|]. split; [reflexivity|]. split; [reflexivity|discriminate].
  - split; [exact E|]. split; [reflexivity|]. split; [discriminate|reflexivity].
Qed.
Print Assumptions C16_unc_factor.

Example C16_unc_factor_example :
  unc_factor 2 4 PI = Some (2, Root false 1) /\ unc_factor 2 4 CI = Some (0, Root false 1) /\
  unc_factor 2 4 OtherInterval = None /\ t_args (1 # 10) 10 2 = Some (19 # 20, 9%Z) /\ t_args (1 # 10) 10 3 = None.
Proof. vm_compute. repeat split; reflexivity. Qed.

(* ==================================================================================================
   Savings uncertainty (ReportingMetrics.total_savings_uncertainty, fsu, predicted_data_point_unc) computed by the
   model itself - month count M, frequency factor, ASHRAE approximation factor - over the constants that
   harness/translate_metrics.py reads off the source on every run (Generated/MetricsGen.v); scipy's t quantile stays
   an input. *)
From V Require Import Generated.MetricsGen Model.MetricsReport Proofs.MetricsReportProofs.

(* U^2 = (factor * E * t)^2 * cvrmse_autocorr_adj^2 * n / (m n') * (1 + K / n'), with the sign of factor * E * t * cv *)
Theorem C16_total_savings_uncertainty : forall f M E t neg s n m np neg' s',
  total_savings_uncertainty f M E t (Root neg s) n m np = Root neg' s' ->
  (0 < m)%Z /\ 0 < np /\
  s' == sqr (freq_factor f M * E * t) * s * (inject_Z n / (inject_Z m * np) * (1 + gen_approx_const / np)) /\
  neg' = xorb neg (Qltb (freq_factor f M * E * t) 0).
Proof.
  intros f M E t neg s n m np neg' s' H. unfold total_savings_uncertainty in H.
  destruct ((0 <? m)%Z && Qltb 0 np) eqn:G; [|discriminate]. injection H as <- <-.
  rewrite andb_true_iff, Z.ltb_lt, Qltb_true_iff in G. destruct G as [Gm Gn].
  split; [exact Gm|]. split; [exact Gn|]. split; [apply Qred_correct|reflexivity].
Qed.
Print Assumptions C16_total_savings_uncertainty.

Theorem C16_total_savings_uncertainty_undefined : forall f M E t cv n m np,
  total_savings_uncertainty f M E t cv n m np = Undef <->
  ((forall neg s, cv <> Root neg s) \/ (m <= 0)%Z \/ np <= 0).
Proof.
  intros f M E t cv n m np. unfold total_savings_uncertainty. destruct cv as [q|neg s| | |b].
  2: { destruct ((0 <? m)%Z && Qltb 0 np) eqn:G.
       - rewrite andb_true_iff, Z.ltb_lt, Qltb_true_iff in G. split; [discriminate|].
         intros [H|[H|H]]; [destruct (H neg s eq_refl)|lia|lra].
       - rewrite andb_false_iff, Z.ltb_ge, Qltb_false_iff in G. split; [intros _; right; exact G|reflexivity]. }
  all: split; [intros _; left; intros; discriminate|reflexivity].
Qed.
Print Assumptions C16_total_savings_uncertainty_undefined.

(* fsu * savings = U *)
Theorem C16_fsu : forall neg s sv neg' s', fsu (Root neg s) sv = Root neg' s' ->
  ~ sv == 0 /\ s' * (sv * sv) == s /\ neg' = xorb neg (Qltb sv 0).
Proof.
  intros neg s sv neg' s' H. unfold fsu in H. destruct (Qeq_bool sv 0) eqn:Z.
  - destruct (Qeq_bool s 0); discriminate.
  - injection H as <- <-. apply Qeq_bool_false in Z. split; [exact Z|]. split; [|reflexivity].
    rewrite Qred_correct. unfold sqr. field. exact Z.
Qed.
Print Assumptions C16_fsu.

Theorem C16_fsu_zero_savings : forall neg s sv, sv == 0 -> fsu (Root neg s) sv = if Qeq_bool s 0 then NaN else Inf neg.
Proof. intros neg s sv H. unfold fsu. apply Qeq_bool_iff in H. rewrite H. reflexivity. Qed.
Print Assumptions C16_fsu_zero_savings.

(* predicted_data_point_unc^2 * m = U^2 *)
Theorem C16_predicted_data_point_unc : forall neg s m neg' s', predicted_data_point_unc (Root neg s) m = Root neg' s' ->
  (0 < m)%Z /\ s' * inject_Z m == s /\ neg' = neg.
Proof.
  intros neg s m neg' s' H. unfold predicted_data_point_unc in H. destruct ((0 <? m)%Z) eqn:E; [|discriminate].
  injection H as <- <-. apply Z.ltb_lt in E. pose proof (inject_Z_pos m E) as P.
  split; [exact E|]. split; [|reflexivity]. rewrite Qred_correct. field. lra.
Qed.
Print Assumptions C16_predicted_data_point_unc.

(* M never exceeds 12 *)
Theorem C16_month_count : forall rows months, (forall x, In x months -> (1 <= x <= 12)%Z) ->
  (0 <= month_count rows months <= 12)%Z.
Proof.
  intros rows months H. unfold month_count. split; [lia|].
  assert (L : (length (nodup Z.eq_dec (finite_months rows months)) <= length months_1_12)%nat).
  { apply NoDup_incl_length; [apply NoDup_nodup|]. intros x Hx. apply nodup_In in Hx. apply finite_months_in in Hx.
    specialize (H x Hx). unfold months_1_12. cbn [In]. lia. }
  cbn [months_1_12 length] in L. lia.
Qed.
Print Assumptions C16_month_count.

(* only rows with two finite cells have their month counted *)
Theorem C16_month_count_nonfinite_ignored : forall a r b ma mr mb, nonfinite r -> length a = length ma ->
  finite_months (a ++ r :: b) (ma ++ mr :: mb) = finite_months (a ++ b) (ma ++ mb).
Proof.
  intros a r b ma mr mb Hr Hl. rewrite !finite_months_app by exact Hl. rewrite (finite_months_nonfinite r b mr mb Hr). reflexivity.
Qed.
Print Assumptions C16_month_count_nonfinite_ignored.

Example C16_uncertainty_example :
  let rows := [(Some 10, Some 12); (None, Some 3); (Some 20, Some 21); (Some 30, Some 30)] in
  let u := reporting_uncertainty Daily rows [1; 1; 2; 3]%Z 2 (Root false (1 # 100)) 100 50 in
  u_M u = 3%Z /\ u_total u = Root false (337071660471 # 2500000000) /\
  u_fsu u = Root false (37452406719 # 2500000000) /\ u_point u = Root false (112357220157 # 2500000000) /\
  month_count rows [1; 1; 2; 3]%Z = month_count [(Some 10, Some 12); (Some 20, Some 21); (Some 30, Some 30)] [1; 2; 3]%Z /\
  u_total (reporting_uncertainty Hourly rows [1; 1; 2; 3]%Z 2 Undef 100 50) = Undef.
Proof. vm_compute. repeat split; reflexivity. Qed.

(* ---- obligations over the regenerated constants (closed by computation on what the source says NOW) ---- *)

(* every (field, numerator, denominator) entry of the source's _safe_divide table denotes the value the model reports
   for that field: nmae = mae / mean(observed), pnrmse_adj = rmse_adj / iqr(observed), ... *)
Theorem C16_source_ratio_table_is_the_model : forall pl d p mn np,
  let m := baseline_p pl d p mn in
  forall e, In e gen_ratio_table -> ratio_entry_value pl m np p mn e = ratio_field_value pl m np p mn (fst (fst e)).
Proof.
  intros pl d p mn np m e H. cbn [gen_ratio_table In] in H.
  repeat (destruct H as [<-|H]; [reflexivity|]). contradiction.
Qed.
Print Assumptions C16_source_ratio_table_is_the_model.

(* the constants the hand-written model builds in are the ones in the source (the ten fields of
   Model/MetricsReport.modelled_constants) *)
Theorem C16_source_constants_are_the_modelled_ones : constants_eqb generated_constants modelled_constants = true.
Proof. vm_compute. reflexivity. Qed.
Print Assumptions C16_source_constants_are_the_modelled_ones.

(* the ASHRAE constant is 2, and the frequency factor is positive and strictly increasing in M = 1 .. 12 for daily and
   billing data *)
Theorem C16_source_uncertainty_constants : gen_approx_const == 2 /\ factor_table_ok = true /\
  gen_confidence_default == 9 # 10 /\ gen_t_tail_default == 2.
Proof. vm_compute. repeat split; reflexivity. Qed.
Print Assumptions C16_source_uncertainty_constants.

Example C16_source_constants_example :
  freq_factor Hourly 7 == 63 # 50 /\ freq_factor Daily 12 == 557 # 400 /\ freq_factor Billing 1 == 48669 # 50000 /\
  length gen_ratio_table = 10%nat.
Proof. vm_compute. repeat split; reflexivity. Qed.
