(* C20 — baseline and reporting windows never leak across the intervention.
   The model is Model/Windows.v.  Proofs/WindowsProofs.v holds the definitions the statements below are written
   with (sorted, baseline_before, baseline_start_limit, baseline_selection, gap_end, ... and the reporting twins)
   and says what an [Ok] result consists of (baseline_rows, baseline_warnings, ...: the rows are [blank_last] of a
   [window] of the input), which is where the proofs below start from. *)
From Coq Require Import ZArith List Bool Lia.
From V Require Import Model.Windows Proofs.WindowsProofs.
From V Require Import Model.WindowsSrc Proofs.WindowsSrcProofs Generated.WindowsGen.
Import ListNotations.
Open Scope Z_scope.

Theorem C20_baseline_no_leak : forall o data rows we ws e,
  get_baseline_data o data = Ok rows we ws -> b_end o = Some e ->
  forall r, In r rows -> ts r <= e.
Proof.
  intros o data rows we ws e H He r Hr. rewrite (baseline_rows _ _ _ _ _ H) in Hr.
  exact (blank_window_hi _ _ _ _ _ Hr He).
Qed.
Print Assumptions C20_baseline_no_leak.

(* no row earlier than max_days before the effective end; the effective end is the requested
   end unless ignore_billing_period_gap_for_day_count moves it onto the last reading before it *)
Theorem C20_baseline_not_too_early : forall o data rows we ws e m,
  get_baseline_data o data = Ok rows we ws ->
  b_end o = Some e -> b_max_days o = Some m -> b_overshoot o = false ->
  exists eff, baseline_end_limit o (baseline_before o data) = Some eff /\
    (b_ignore_gap o = false -> eff = e) /\
    forall r, In r rows -> eff - m * DAY <= ts r.
Proof.
  intros o data rows we ws e m H He Hm Hov. rewrite (baseline_rows _ _ _ _ _ H).
  destruct (baseline_end_limit_some o (baseline_before o data) e He) as [eff [E Heff]].
  exists eff. split; [exact E|]. split.
  - intros Hig. destruct Heff as [->|[Hig' _]]; [reflexivity | congruence].
  - intros r Hr. apply (blank_window_lo _ _ _ _ _ Hr).
    rewrite (baseline_start_limit_max_days o data eff m E Hm), Hov. reflexivity.
Qed.
Print Assumptions C20_baseline_not_too_early.

Theorem C20_baseline_effective_end : forall o data e eff, sorted data ->
  b_end o = Some e -> baseline_before o data <> [] ->
  baseline_end_limit o (baseline_before o data) = Some eff ->
  (eff = e \/ (b_ignore_gap o = true /\ In eff (map ts data) /\ eff <= e /\
               forall r, In r data -> ts r <= e -> ts r <= eff)).
Proof.
  intros o data e eff Hs He Hne H.
  destruct (baseline_end_limit_some o (baseline_before o data) e He) as [eff' [E Heff]].
  rewrite E in H. injection H as <-. destruct Heff as [->|[Hig ->]]; [left; reflexivity|].
  right. split; [exact Hig|]. unfold baseline_before in *. rewrite He in *.
  destruct (last_before_spec data e e Hs Hne) as (H1 & H2 & H3). repeat split; assumption.
Qed.
Print Assumptions C20_baseline_effective_end.

(* with overshoot allowed no row lies before the reading nearest to the max_days boundary, among the readings
   at or before the end *)
Theorem C20_baseline_overshoot_nearest : forall o data rows we ws e m, sorted data ->
  get_baseline_data o data = Ok rows we ws ->
  b_end o = Some e -> b_max_days o = Some m -> b_overshoot o = true ->
  exists eff n, baseline_end_limit o (baseline_before o data) = Some eff /\
    In n (map ts data) /\ n <= e /\
    (forall r, In r data -> ts r <= e -> Z.abs (n - (eff - m * DAY)) <= Z.abs (ts r - (eff - m * DAY))) /\
    forall r, In r rows -> n <= ts r.
Proof.
  intros o data rows we ws e m Hs H He Hm Hov.
  pose proof (baseline_before_nonempty _ _ _ _ _ H) as Hbefore. rewrite (baseline_rows _ _ _ _ _ H).
  destruct (baseline_end_limit_some o (baseline_before o data) e He) as [eff [E _]].
  (* the start limit is the label nearest to the boundary among those at or before the end *)
  pose proof (baseline_start_limit_max_days o data eff m E Hm) as Hlim. rewrite Hov in Hlim.
  unfold baseline_before in Hlim, Hbefore. rewrite He in Hlim, Hbefore.
  destruct (nearest_slice_to e data (eff - m * DAY) Hs Hbefore) as (rn & En & Hrn & Hle & Hmin).
  exists eff, (ts rn). split; [exact E|]. split; [apply in_map; exact Hrn|]. split; [exact Hle|]. split; [exact Hmin|].
  intros r Hr. apply (blank_window_lo _ _ _ _ _ Hr). rewrite Hlim. exact En.
Qed.
Print Assumptions C20_baseline_overshoot_nearest.

Theorem C20_reporting_no_leak : forall o data rows we ws s,
  get_reporting_data o data = Ok rows we ws -> r_start o = Some s ->
  forall r, In r rows -> s <= ts r.
Proof.
  intros o data rows we ws s H He r Hr. rewrite (reporting_rows _ _ _ _ _ H) in Hr.
  exact (blank_window_lo _ _ _ _ _ Hr He).
Qed.
Print Assumptions C20_reporting_no_leak.

Theorem C20_reporting_not_too_late : forall o data rows we ws s m,
  get_reporting_data o data = Ok rows we ws ->
  r_start o = Some s -> r_max_days o = Some m -> r_overshoot o = false ->
  exists eff, reporting_start_limit o (reporting_after o data) = Some eff /\
    (r_ignore_gap o = false -> eff = s) /\
    forall r, In r rows -> ts r <= eff + m * DAY.
Proof.
  intros o data rows we ws s m H He Hm Hov. rewrite (reporting_rows _ _ _ _ _ H).
  destruct (reporting_start_limit_some o (reporting_after o data) s He) as [eff [E Heff]].
  exists eff. split; [exact E|]. split.
  - intros Hig. destruct Heff as [->|[Hig' _]]; [reflexivity | congruence].
  - intros r Hr. apply (blank_window_hi _ _ _ _ _ Hr).
    rewrite (reporting_end_limit_max_days o data eff m E Hm), Hov. reflexivity.
Qed.
Print Assumptions C20_reporting_not_too_late.

Theorem C20_reporting_effective_start : forall o data s eff, sorted data ->
  r_start o = Some s -> reporting_after o data <> [] ->
  reporting_start_limit o (reporting_after o data) = Some eff ->
  (eff = s \/ (r_ignore_gap o = true /\ In eff (map ts data) /\ s <= eff /\
               forall r, In r data -> s <= ts r -> eff <= ts r)).
Proof.
  intros o data s eff Hs He Hne H.
  destruct (reporting_start_limit_some o (reporting_after o data) s He) as [eff' [E Heff]].
  rewrite E in H. injection H as <-. destruct Heff as [->|[Hig ->]]; [left; reflexivity|].
  right. split; [exact Hig|]. unfold reporting_after in *. rewrite He in *.
  destruct (first_after_spec data s s Hs Hne) as (H1 & H2 & H3). repeat split; assumption.
Qed.
Print Assumptions C20_reporting_effective_start.

Theorem C20_reporting_overshoot_nearest : forall o data rows we ws s m, sorted data ->
  get_reporting_data o data = Ok rows we ws ->
  r_start o = Some s -> r_max_days o = Some m -> r_overshoot o = true ->
  exists eff n, reporting_start_limit o (reporting_after o data) = Some eff /\
    In n (map ts data) /\ s <= n /\
    (forall r, In r data -> s <= ts r -> Z.abs (n - (eff + m * DAY)) <= Z.abs (ts r - (eff + m * DAY))) /\
    forall r, In r rows -> ts r <= n.
Proof.
  intros o data rows we ws s m Hs H He Hm Hov.
  pose proof (reporting_after_nonempty _ _ _ _ _ H) as Hafter. rewrite (reporting_rows _ _ _ _ _ H).
  destruct (reporting_start_limit_some o (reporting_after o data) s He) as [eff [E _]].
  (* the end limit is the label nearest to the boundary among those at or after the start *)
  pose proof (reporting_end_limit_max_days o data eff m E Hm) as Hlim. rewrite Hov in Hlim.
  unfold reporting_after in Hlim, Hafter. rewrite He in Hlim, Hafter.
  destruct (nearest_slice_from s data (eff + m * DAY) Hs Hafter) as (rn & En & Hrn & Hle & Hmin).
  exists eff, (ts rn). split; [exact E|]. split; [apply in_map; exact Hrn|]. split; [exact Hle|]. split; [exact Hmin|].
  intros r Hr. apply (blank_window_hi _ _ _ _ _ Hr). rewrite Hlim. exact En.
Qed.
Print Assumptions C20_reporting_overshoot_nearest.

(* a contiguous slice of the input, values unchanged apart from the final row being blanked *)
Theorem C20_baseline_contiguous_unchanged : forall o data rows we ws, sorted data ->
  get_baseline_data o data = Ok rows we ws ->
  exists pre body l post, data = pre ++ (body ++ [l]) ++ post /\ rows = body ++ [blank l].
Proof.
  intros o data rows we ws Hs H. rewrite (baseline_rows _ _ _ _ _ H).
  apply blank_window_contiguous; [exact Hs | exact (baseline_window_nonempty _ _ _ _ _ H)].
Qed.
Print Assumptions C20_baseline_contiguous_unchanged.

Theorem C20_reporting_contiguous_unchanged : forall o data rows we ws, sorted data ->
  get_reporting_data o data = Ok rows we ws ->
  exists pre body l post, data = pre ++ (body ++ [l]) ++ post /\ rows = body ++ [blank l].
Proof.
  intros o data rows we ws Hs H. rewrite (reporting_rows _ _ _ _ _ H).
  apply blank_window_contiguous; [exact Hs | exact (reporting_window_nonempty _ _ _ _ _ H)].
Qed.
Print Assumptions C20_reporting_contiguous_unchanged.

(* "A gap between the requested limits and the data is always reported as a warning", read as: a warning exactly
   when there is a gap.  Proved below: one direction for all options (gap_sound), both when the option that moves the
   limit is off (gap_warned_partial); the four gap_refuted theorems each give an input, with that option on, where
   there is a gap and no warning. *)
Definition C20_baseline_gap_statement : Prop := forall o data rows we ws, sorted data ->
  get_baseline_data o data = Ok rows we ws ->
  (we = true <-> gap_end (b_end o) data) /\ (ws = true <-> gap_start (b_start o) data).
Definition C20_reporting_gap_statement : Prop := forall o data rows we ws, sorted data ->
  get_reporting_data o data = Ok rows we ws ->
  (we = true <-> gap_end (r_end o) data) /\ (ws = true <-> gap_start (r_start o) data).

(* never a spurious warning, whatever the options *)
Theorem C20_baseline_gap_sound : forall o data rows we ws, sorted data ->
  get_baseline_data o data = Ok rows we ws ->
  (we = true -> gap_end (b_end o) data) /\ (ws = true -> gap_start (b_start o) data).
Proof.
  intros o data rows we ws Hs H.
  pose proof (baseline_args _ _ _ _ _ H) as Ha. pose proof (baseline_before_nonempty _ _ _ _ _ H) as Hbefore.
  destruct (baseline_warnings _ _ _ _ _ H) as [-> ->]. split.
  - apply (warn_end_sound _ _ _ Hs). intros e el He El. left.
    destruct (C20_baseline_effective_end o data e el Hs He Hbefore El) as [->|(_ & _ & Hle & _)]; lia.
  - apply (warn_start_sound _ _ _ Hs). intros s sl Hst Sl.
    rewrite (baseline_start_limit_given o data s Ha Hst) in Sl.
    destruct (moved_limit_target_or_label _ None (b_end o) data _ _ Hs Sl) as [->|Hin]; [left; lia | right; exact Hin].
Qed.
Print Assumptions C20_baseline_gap_sound.

Theorem C20_reporting_gap_sound : forall o data rows we ws, sorted data ->
  get_reporting_data o data = Ok rows we ws ->
  (we = true -> gap_end (r_end o) data) /\ (ws = true -> gap_start (r_start o) data).
Proof.
  intros o data rows we ws Hs H.
  pose proof (reporting_args _ _ _ _ _ H) as Ha. pose proof (reporting_after_nonempty _ _ _ _ _ H) as Hafter.
  destruct (reporting_warnings _ _ _ _ _ H) as [-> ->]. split.
  - apply (warn_end_sound _ _ _ Hs). intros e el He El.
    rewrite (reporting_end_limit_given o data e Ha He) in El.
    destruct (moved_limit_target_or_label _ (r_start o) None data _ _ Hs El) as [->|Hin]; [left; lia | right; exact Hin].
  - apply (warn_start_sound _ _ _ Hs). intros s sl Hst Sl. left.
    destruct (C20_reporting_effective_start o data s sl Hs Hst Hafter Sl) as [->|(_ & _ & Hle & _)]; lia.
Qed.
Print Assumptions C20_reporting_gap_sound.

(* the equivalence for a limit holds when the option that moves that limit onto the data is off *)
Theorem C20_baseline_gap_warned_partial : forall o data rows we ws, sorted data ->
  get_baseline_data o data = Ok rows we ws ->
  (b_ignore_gap o = false -> (we = true <-> gap_end (b_end o) data)) /\
  (b_overshoot o = false -> (ws = true <-> gap_start (b_start o) data)).
Proof.
  intros o data rows we ws Hs H. pose proof (baseline_args _ _ _ _ _ H) as Ha.
  pose proof (window_nonempty_data _ _ _ (baseline_window_nonempty _ _ _ _ _ H)) as Hne.
  destruct (baseline_warnings _ _ _ _ _ H) as [-> ->]. split.
  - intros Hig. apply (warn_end_iff _ _ _ Hs Hne). intros e He.
    unfold baseline_end_limit. rewrite He, Hig. reflexivity.
  - intros Hov. apply (warn_start_iff _ _ _ Hs Hne). intros s Hst.
    rewrite (baseline_start_limit_given o data s Ha Hst), Hov. reflexivity.
Qed.
Print Assumptions C20_baseline_gap_warned_partial.

Theorem C20_reporting_gap_warned_partial : forall o data rows we ws, sorted data ->
  get_reporting_data o data = Ok rows we ws ->
  (r_overshoot o = false -> (we = true <-> gap_end (r_end o) data)) /\
  (r_ignore_gap o = false -> (ws = true <-> gap_start (r_start o) data)).
Proof.
  intros o data rows we ws Hs H. pose proof (reporting_args _ _ _ _ _ H) as Ha.
  pose proof (window_nonempty_data _ _ _ (reporting_window_nonempty _ _ _ _ _ H)) as Hne.
  destruct (reporting_warnings _ _ _ _ _ H) as [-> ->]. split.
  - intros Hov. apply (warn_end_iff _ _ _ Hs Hne). intros e He.
    rewrite (reporting_end_limit_given o data e Ha He), Hov. reflexivity.
  - intros Hig. apply (warn_start_iff _ _ _ Hs Hne). intros s Hst.
    unfold reporting_start_limit. rewrite Hst, Hig. reflexivity.
Qed.
Print Assumptions C20_reporting_gap_warned_partial.

(* with the option on, a gap goes unreported: one input per limit and function.  The same inputs are in
   corpus/C20.json, from where harness/c20.py replays them on the implementation (known findings C20-K1..K4) *)
Definition two_rows : list row := [(0, [Some 1]); (DAY, [Some 2])].
Lemma two_rows_sorted : sorted two_rows.
Proof. repeat constructor. Qed.
Lemma two_rows_gap_end : gap_end (Some (5 * DAY)) two_rows.
Proof. exists (5 * DAY). split; [reflexivity|]. intros r [<-|[<-|[]]]; reflexivity. Qed.
Lemma two_rows_gap_start : gap_start (Some (- DAY)) two_rows.
Proof. exists (- DAY). split; [reflexivity|]. intros r [<-|[<-|[]]]; reflexivity. Qed.

Theorem C20_baseline_end_gap_refuted : exists o data rows ws,
  sorted data /\ get_baseline_data o data = Ok rows false ws /\ gap_end (b_end o) data.
Proof.
  exists {| b_start := None; b_end := Some (5 * DAY); b_max_days := Some 30; b_overshoot := false;
            b_n_over := None; b_ignore_gap := true |}, two_rows, [(0, [Some 1]); (DAY, [None])], false.
  split; [exact two_rows_sorted|]. split; [vm_compute; reflexivity | exact two_rows_gap_end].
Qed.
Print Assumptions C20_baseline_end_gap_refuted.

Theorem C20_baseline_start_gap_refuted : exists o data rows we,
  sorted data /\ get_baseline_data o data = Ok rows we false /\ gap_start (b_start o) data.
Proof.
  exists {| b_start := Some (- DAY); b_end := None; b_max_days := None; b_overshoot := true;
            b_n_over := None; b_ignore_gap := false |}, two_rows, [(0, [Some 1]); (DAY, [None])], false.
  split; [exact two_rows_sorted|]. split; [vm_compute; reflexivity | exact two_rows_gap_start].
Qed.
Print Assumptions C20_baseline_start_gap_refuted.

Theorem C20_reporting_end_gap_refuted : exists o data rows ws,
  sorted data /\ get_reporting_data o data = Ok rows false ws /\ gap_end (r_end o) data.
Proof.
  exists {| r_start := None; r_end := Some (5 * DAY); r_max_days := None; r_overshoot := true;
            r_ignore_gap := false |}, two_rows, [(0, [Some 1]); (DAY, [None])], false.
  split; [exact two_rows_sorted|]. split; [vm_compute; reflexivity | exact two_rows_gap_end].
Qed.
Print Assumptions C20_reporting_end_gap_refuted.

Theorem C20_reporting_start_gap_refuted : exists o data rows we,
  sorted data /\ get_reporting_data o data = Ok rows we false /\ gap_start (r_start o) data.
Proof.
  exists {| r_start := Some (- DAY); r_end := None; r_max_days := Some 30; r_overshoot := false;
            r_ignore_gap := true |}, two_rows, [(0, [Some 1]); (DAY, [None])], false.
  split; [exact two_rows_sorted|]. split; [vm_compute; reflexivity | exact two_rows_gap_start].
Qed.
Print Assumptions C20_reporting_start_gap_refuted.

(* non-vacuity of the guarded equivalences: a gap that *is* reported *)
Example C20_gap_reported_example :
  get_baseline_data {| b_start := None; b_end := Some (5 * DAY); b_max_days := Some 30; b_overshoot := false;
                       b_n_over := None; b_ignore_gap := false |} two_rows
  = Ok [(0, [Some 1]); (DAY, [None])] true false.
Proof. vm_compute. reflexivity. Qed.

(* total outcome: the dedicated error exactly when the selection has no complete row *)
Theorem C20_baseline_outcome : forall o data,
  match get_baseline_data o data with
  | ErrValue => b_args_ok o = false
  | ErrNoData => b_args_ok o = true /\ forall r, In r (baseline_selection o data) -> complete r = false
  | Ok _ _ _ => b_args_ok o = true /\ exists r, In r (baseline_selection o data) /\ complete r = true
  end.
Proof.
  intros o data. rewrite get_baseline_data_unfold. apply window_result_outcome.
  intros E. unfold baseline_selection. rewrite E. destruct (baseline_start_limit o data); reflexivity.
Qed.
Print Assumptions C20_baseline_outcome.

Theorem C20_reporting_outcome : forall o data,
  match get_reporting_data o data with
  | ErrValue => r_args_ok o = false
  | ErrNoData => r_args_ok o = true /\ forall r, In r (reporting_selection o data) -> complete r = false
  | Ok _ _ _ => r_args_ok o = true /\ exists r, In r (reporting_selection o data) /\ complete r = true
  end.
Proof.
  intros o data. rewrite get_reporting_data_unfold. apply window_result_outcome.
  intros E. unfold reporting_selection. rewrite E. destruct (reporting_end_limit o data); reflexivity.
Qed.
Print Assumptions C20_reporting_outcome.

(* two concrete runs on a sorted ten-day series: a baseline with max_days and overshoot, a reporting period with
   max_days and the ignore-gap option *)
Definition ex_data : list row :=
  map (fun k => (k * DAY, [Some k])) [0; 1; 2; 3; 4; 5; 6; 7; 8; 9].
Definition ex_bopts := {| b_start := None; b_end := Some (5 * DAY + DAY / 2); b_max_days := Some 2;
                          b_overshoot := true; b_n_over := None; b_ignore_gap := false |}.
Example C20_nonvacuous_baseline :
  sorted ex_data /\
  get_baseline_data ex_bopts ex_data = Ok [(4 * DAY, [Some 4]); (5 * DAY, [None])] false false.
Proof.
  split; [repeat constructor | vm_compute; reflexivity].
Qed.
Definition ex_ropts := {| r_start := Some (2 * DAY - 1); r_end := None; r_max_days := Some 3;
                          r_overshoot := false; r_ignore_gap := true |}.
Example C20_nonvacuous_reporting :
  get_reporting_data ex_ropts ex_data =
  Ok [(2 * DAY, [Some 2]); (3 * DAY, [Some 3]); (4 * DAY, [Some 4]); (5 * DAY, [None])] false false.
Proof. vm_compute. reflexivity. Qed.

(* consequences on the model of the source facts recorded in Model/WindowsSrc.v (elapsed-day arithmetic, the
   `is not None` guard, inclusive slices, the tolerance comparison, the boundary lookup) *)
Theorem C20_max_days_counts_elapsed_days : forall o before e m,
  b_end o = Some e -> b_ignore_gap o = false -> b_max_days o = Some m ->
  baseline_start_target o before = Some (e - m * DAY).
Proof.
  intros o before e m He Hi Hm. unfold baseline_start_target, baseline_end_limit.
  rewrite He, Hi, Hm. reflexivity.
Qed.
Print Assumptions C20_max_days_counts_elapsed_days.

Theorem C20_max_days_counts_elapsed_days_reporting : forall o after s m,
  r_start o = Some s -> r_ignore_gap o = false -> r_max_days o = Some m ->
  reporting_end_target o after = Some (s + m * DAY).
Proof.
  intros o after s m Hs Hi Hm. unfold reporting_end_target, reporting_start_limit.
  rewrite Hs, Hi, Hm. reflexivity.
Qed.
Print Assumptions C20_max_days_counts_elapsed_days_reporting.

(* max_days = 0 is a limit like any other (the guard is `is not None`) *)
Theorem C20_max_days_zero_is_a_limit : forall o before e,
  b_end o = Some e -> b_ignore_gap o = false -> b_max_days o = Some 0 ->
  baseline_start_target o before = Some e.
Proof.
  intros o before e He Hi Hm. rewrite (C20_max_days_counts_elapsed_days o before e 0 He Hi Hm). f_equal. lia.
Qed.
Print Assumptions C20_max_days_zero_is_a_limit.

Theorem C20_slices_keep_both_bounds : forall e d r,
  (In r (slice_to e d) <-> In r d /\ cmpz CLe (ts r) e = true) /\
  (In r (slice_from e d) <-> In r d /\ cmpz CLe e (ts r) = true).
Proof. intros e d r. unfold cmpz. rewrite Z.leb_le, Z.leb_le. split; [apply In_slice_to | apply In_slice_from]. Qed.
Print Assumptions C20_slices_keep_both_bounds.

Theorem C20_overshoot_tolerance_test : forall o before e n,
  b_end o = Some e -> b_ignore_gap o = true -> b_n_over o = Some n ->
  baseline_end_limit o before =
    if cmpz (w_overshoot_tolerance_cmp modelled_wsrc) (e - n * DAY) (last_ts before e)
    then Some (last_ts before e) else Some e.
Proof. intros o before e n He Hi Hn. unfold baseline_end_limit. rewrite He, Hi, Hn. reflexivity. Qed.
Print Assumptions C20_overshoot_tolerance_test.

Example C20_modelled_facts_nonvacuous :
  day_ns (w_day_unit modelled_wsrc) = Some DAY /\ lookup_fn (w_boundary_lookup modelled_wsrc) = nearest /\
  day_ns WallClockDays = None.
Proof. split; [exact modelled_day_unit_l | split; [exact modelled_lookup_l | reflexivity]]. Qed.

(* tie to the source: Generated/WindowsGen.v is regenerated on every run; an edit of the day arithmetic, of a slice,
   of a comparison operator, of a max_days guard, of the boundary lookup, of the blanking or of the empty-selection
   errors changes it - or makes the translator fail closed - and breaks this obligation and no other *)
Theorem C20_source_facts_are_the_modelled_ones : gen_wsrc = modelled_wsrc.
Proof. vm_compute. reflexivity. Qed.
Print Assumptions C20_source_facts_are_the_modelled_ones.
