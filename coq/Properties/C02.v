(* C02 — using a model or a data object never changes it (no hidden side effects).
   Models: Model/HourlyState.v (the hourly model as a state machine over the fields predict touches),
   Model/Store.v (caller-owned frames, private frames of data objects and hand-outs as locations; list ownership in
   fit), Model/Gate.v (life cycle of daily / billing / hourly model objects, shared with C04).
   Which side-effecting statements the source contains is a configuration (hcfg, cfg, sharing, the `copies` flag).  The
   four main statements (`*_statement`) are proved for the configurations without the offending statements and, as
   `*_iff`, for no others; configurations with one of them (`ascoded_cfg`, `caltrack_ascoded`, `memo_cfg`, ...) refute
   them by the witnesses that harness/c02.py replays on the implementation from corpus/C02.json.  Nothing here speaks
   of the configuration of the source itself: Generated/C02Gen.v holds it, regenerated on every run, and the
   correspondence cases of harness/c02coq.py run the models under it.
   Suffix `_partial`: what still holds for configurations beyond the pure one.
   Not modelled: whether a pandas operation returns a view or a copy is runtime behaviour; the models state ownership,
   the harness observes real in-place writes. *)
From Coq Require Import ZArith List Bool.
From V Require Import Model.Gate Model.HourlyState Model.Store Model.Objects.
From V Require Import Proofs.GateProofs Proofs.SideEffectProofs Proofs.HourlyStateProofs Proofs.StoreProofs Proofs.ObjectsProofs.
Import ListNotations.

(* ================= predict() never alters a fitted model; its result does not depend on earlier predictions ===== *)

(* hourly model — full statements, for a configuration cfg of the source *)
Definition C02_predict_pure_statement (cfg : hcfg) : Prop :=
  forall fill s d, abs (fst (predict_step cfg fill s d)) = abs s /\
                   snd (predict_step cfg fill s d) = spec_predict fill s d.

Definition C02_history_independent_statement (cfg : hcfg) : Prop :=
  forall s ops d fill, snd (predict_step cfg fill (hrun cfg s ops) d) = snd (predict_step cfg fill s d).

(* refinement to the pure specification when none of the four writes is in the source *)
Theorem C02_predict_pure : C02_predict_pure_statement pure_cfg.
Proof.
  intros fill s d. unfold predict_step. cbn [fst snd]. rewrite next_state_pure. split; reflexivity.
Qed.
Print Assumptions C02_predict_pure.

Theorem C02_history_independent : C02_history_independent_statement pure_cfg.
Proof. intros s ops d fill. apply history_independent_guarded; reflexivity. Qed.
Print Assumptions C02_history_independent.

(* ... and only then: each of the four writes alone breaks it *)
Theorem C02_predict_pure_iff : forall cfg, C02_predict_pure_statement cfg <->
  (assigns_back cfg = false /\ appends_warning cfg = false /\ extends_features cfg = false /\ writes_other_state cfg = false).
Proof.
  intros cfg. split.
  - intros H. apply state_unchanged_iff. intros fill s d. apply abs_inj, H.
  - intros (Ha & Hw & He & Ho) fill s d. unfold predict_step. cbn [fst snd]. split.
    + f_equal. apply state_unchanged_iff. tauto.
    + apply predict_out_spec; assumption.
Qed.
Print Assumptions C02_predict_pure_iff.

Theorem C02_history_independent_iff : forall cfg, C02_history_independent_statement cfg <->
  (assigns_back cfg = false /\ extends_features cfg = false /\ writes_other_state cfg = false).
Proof.
  intros cfg. split.
  - intros H. destruct (rerun_history_off cfg (H _ _ _ _)) as [Ha Ho].
    repeat split; [exact Ha | apply extends_features_history_off, H | exact Ho].
  - intros (Ha & He & Ho) s ops d fill. apply history_independent_guarded; assumption.
Qed.
Print Assumptions C02_history_independent_iff.

(* a cache or any other state outside the document that the fitted-predict path writes (say a lookup of repaired
   tables keyed by the month/day combinations only): to_json() stays the same, but neither statement survives *)
Definition memo_cfg : hcfg :=
  {| assigns_back := false; appends_warning := false; extends_features := false; writes_other_state := true |}.
Theorem C02_unmodelled_state_write_refuted :
  ~ C02_predict_pure_statement memo_cfg /\ ~ C02_history_independent_statement memo_cfg.
Proof.
  split; intros H.
  - apply C02_predict_pure_iff in H. destruct H as (_ & _ & _ & H). discriminate.
  - apply C02_history_independent_iff in H. destruct H as (_ & _ & H). discriminate.
Qed.
Print Assumptions C02_unmodelled_state_write_refuted.

(* the configuration with the three assignments of `ascoded_cfg` violates both *)
Theorem C02_predict_pure_ascoded_refuted : ~ C02_predict_pure_statement ascoded_cfg.
Proof. intros H. apply C02_predict_pure_iff in H. destruct H as [H _]. discriminate. Qed.
Print Assumptions C02_predict_pure_ascoded_refuted.

(* the witnesses: a table learned for January and February, a January week predicted first, then January+February
   without observed usage (the February label is forward-filled from January instead of the fitted one) *)
Theorem C02_history_independent_ascoded_refuted :
  snd (predict_step ascoded_cfg w_fill (hrun ascoded_cfg w_state [HPredict w_jan w_fill]) w_janfeb) =
    HPred 3 [((1, 0), Some 0); ((2, 0), Some 0)]%Z 0%Z /\
  snd (predict_step ascoded_cfg w_fill w_state w_janfeb) = HPred 3 [((1, 0), Some 0); ((2, 0), Some 1)]%Z 0%Z /\
  clusters (hrun ascoded_cfg w_state [HPredict w_jan w_fill]) = [((1, 0), Some 0)]%Z /\
  ~ C02_history_independent_statement ascoded_cfg.
Proof.
  split; [vm_compute; reflexivity|]. split; [vm_compute; reflexivity|]. split; [vm_compute; reflexivity|].
  intros H. apply C02_history_independent_iff in H. destruct H as [H _]. discriminate.
Qed.
Print Assumptions C02_history_independent_ascoded_refuted.

(* what every configuration without writes to unmodelled state satisfies: a reporting set that covers exactly the fitted (month, day) combinations
   (a full year), without a GHI column the model ignores and without a new supplemental column, leaves the model alone *)
Theorem C02_predict_covering_partial : forall cfg fill s d, writes_other_state cfg = false -> covers s d -> next_state cfg fill s d = s.
Proof.
  intros cfg fill [t f w h] d Ho (Hn & Hk & Hc & Hg & Hs). cbn [clusters ts_features warnings hidden] in *.
  unfold next_state. rewrite Ho. destruct (missing_features _ d); [reflexivity|]. cbn [clusters ts_features warnings hidden].
  rewrite (covering_keeps_table fill t d Hn Hk Hc). rewrite Hs, app_nil_r.
  assert (Hw : (appends_warning cfg && ds_ghi d && negb (mem GHI f)) = false).
  { destruct (ds_ghi d); [rewrite (Hg eq_refl)|]; destruct (appends_warning cfg); reflexivity. }
  rewrite Hw. destruct (assigns_back cfg), (extends_features cfg); reflexivity.
Qed.
Print Assumptions C02_predict_covering_partial.

(* the warning list alone does not influence later predictions *)
Theorem C02_history_independent_partial : forall cfg s ops d fill,
  assigns_back cfg = false -> extends_features cfg = false -> writes_other_state cfg = false ->
  snd (predict_step cfg fill (hrun cfg s ops) d) = snd (predict_step cfg fill s d).
Proof. exact history_independent_guarded. Qed.
Print Assumptions C02_history_independent_partial.

(* the table a call works with never contains a cluster label fit did not learn, in all three branches (nothing
   missing / nearest profile, given the oracle's contract: it returns a label of a known row / unstack-ffill-bfill-stack) *)
Theorem C02_corrected_no_new_label : forall fill t d t',
  (forall c, In (fill c) (labels_of (reindex t (ds_combos d)))) ->
  corrected fill t d = Some t' -> incl (labels_of t') (labels_of t).
Proof.
  intros fill t d t' Hf H. unfold corrected in H.
  pose proof (labels_reindex t (ds_combos d)) as R.
  destruct (negb (has_missing (reindex t (ds_combos d)))).
  - inversion H; subst. exact R.
  - destruct (ds_observed d).
    + destruct (has_known (reindex t (ds_combos d))); [|discriminate]. inversion H; subst.
      eapply incl_tran; [apply labels_fill_nearest, Hf | exact R].
    + inversion H; subst. eapply incl_tran; [apply labels_fill_unstacked | exact R].
Qed.
Print Assumptions C02_corrected_no_new_label.

(* daily / billing (and the gate part of hourly): predict is the identity on the model object, and after any history of
   predictions and store/load cycles the outcome is that of the fresh object *)
Theorem C02_gate_predict_pure : forall poor f s d i, fst (Gate.step poor f s (OPredict d i)) = s.
Proof. reflexivity. Qed.
Print Assumptions C02_gate_predict_pure.

Theorem C02_gate_history_independent : forall poor f ops s d i, no_fit ops = true ->
  predict f (fst (Gate.run poor f s ops)) d i = predict f s d i.
Proof. intros poor f ops s d i H. apply predict_same_view, gate_run_no_fit_keeps_view, H. Qed.
Print Assumptions C02_gate_history_independent.

(* ================= several model objects in one process: "all interleavings with fits of other meters" =========== *)

(* fitting, using or storing other model objects never changes what an object serialises to *)
Definition C02_other_objects_statement (g : sharing) : Prop :=
  forall ops w j y, nth_error (w_objs w) j = Some y -> (forall v, ~ In (WFit j v) ops) ->
  serial g (wrun g w ops) j = serial g w j.

Theorem C02_other_objects_untouched : C02_other_objects_statement no_sharing.
Proof. exact (others_unchanged no_sharing (fun _ => eq_refl)). Qed.
Print Assumptions C02_other_objects_untouched.

(* ... exactly when no model class keeps per-fit state in a class-level container that instances fill in place *)
Theorem C02_other_objects_iff : forall g, C02_other_objects_statement g <-> (forall c, g c = None).
Proof.
  intros g. split; [|exact (others_unchanged g)].
  intros H c. destruct (g c) as [r|] eqn:E; [|reflexivity]. exfalso.
  apply (shared_reaches_other g c r E).
  apply (H [WFit 1 5%Z] (two c) 0 {| o_class := c; o_own := 0%Z |} eq_refl).
  intros v [Q|[]]. discriminate.
Qed.
Print Assumptions C02_other_objects_iff.

(* a class-level `error = {...}` on DailyModel (BillingModel inherits it): fitting a billing model on another meter
   rewrites the document of a daily model that is only being used *)
Definition daily_error_at_class_level (c : mclass) : option mclass :=
  match c with MDaily | MBilling => Some MDaily | MHourly => None end.

Theorem C02_other_objects_class_level_refuted :
  (let w := wrun daily_error_at_class_level {| w_objs := []; w_class := fun _ => 0%Z |}
                 [WNew MDaily; WFit 0 1%Z; WNew MBilling] in
   serial daily_error_at_class_level w 0 = Some 1%Z /\
   serial daily_error_at_class_level (wrun daily_error_at_class_level w [WFit 1 2%Z; WPredict 0]) 0 = Some 2%Z) /\
  ~ C02_other_objects_statement daily_error_at_class_level.
Proof.
  split; [vm_compute; split; reflexivity|].
  intros H. pose proof (proj1 (C02_other_objects_iff daily_error_at_class_level) H MDaily) as Q. discriminate Q.
Qed.
Print Assumptions C02_other_objects_class_level_refuted.

Example C02_nonvacuous_objects :
  let w := wrun no_sharing {| w_objs := []; w_class := fun _ => 0%Z |}
                [WNew MDaily; WFit 0 1%Z; WNew MBilling; WFit 1 2%Z; WPredict 0; WNew MDaily; WFit 2 3%Z; WStore 1] in
  serial no_sharing w 0 = Some 1%Z /\ serial no_sharing w 1 = Some 2%Z /\ serial no_sharing w 2 = Some 3%Z.
Proof. vm_compute. repeat split; reflexivity. Qed.

(* ================= fit() and predict() never modify the data objects; the data classes never modify the caller's
   frames; frames handed out are independent copies ================= *)

Definition C02_caller_frames_statement (g : cfg) : Prop :=
  forall ops s l f, content s l = Some f -> (forall v, ~ In (SMutate l v) ops) -> content (Store.run g s ops) l = Some f.

Definition C02_objects_statement (g : cfg) : Prop :=
  forall ops s l x, wf s -> nth_error (cells s) l = Some x -> is_obj (own x) = true ->
  content (Store.run g s ops) l = Some (val x).

(* a frame (of the caller, of an object, handed out) that the caller does not write into itself is never changed by
   constructors, from_series, .df, fit, predict, when no constructor writes into its argument *)
Theorem C02_caller_frames_untouched : forall g, ctors_copy g -> C02_caller_frames_statement g.
Proof.
  intros g Hg ops s l f H N. apply run_untargeted; [exact H|].
  intros o Ho T. destruct o as [f0|c e src|c e [m|] t|a o|o|o|l0 v]; cbn in T; try contradiction.
  - destruct T as [_ T]. rewrite (proj1 (Hg c)) in T. discriminate.
  - destruct T as [_ T]. rewrite (proj2 (Hg c)) in T. discriminate.
  - subst l0. exact (N v Ho).
Qed.
Print Assumptions C02_caller_frames_untouched.

(* ... and exactly then *)
Theorem C02_caller_frames_iff : forall g, C02_caller_frames_statement g <-> ctors_copy g.
Proof.
  intros g. split; [|apply C02_caller_frames_untouched].
  intros H c.
  (* a store of two frames with zero readings, both held by the caller; W: no operation but the caller's own write
     can put the normalised frame in place of the first.  Each constructor flag, if set, gives such an operation *)
  set (s := {| cells := [{| own := Caller; val := zf |}; {| own := Caller; val := zf |}]; held := [0; 1] |}).
  assert (W : forall o, (forall v, o <> SMutate 0 v) -> in_place g s o <> Some (0, normalise c true zf)).
  { intros o No E.
    assert (Q : content (Store.run g s [o]) 0 = Some zf).
    { apply H; [reflexivity|]. intros v [->|[]]. exact (No v eq_refl). }
    rewrite run_one, step_content, E in Q by (cbn; auto).
    apply (normalise_zf c). cbn [Nat.eqb] in Q. congruence. }
  split.
  - destruct (init_writes_arg (g c)) eqn:E; [|reflexivity]. exfalso.
    apply (W (SInit c true 0)); [discriminate|]. cbn. rewrite E. reflexivity.
  - destruct (series_writes_arg (g c)) eqn:E; [|reflexivity]. exfalso.
    apply (W (SSeries c true (Some 0) 1)); [discriminate|]. cbn. rewrite E. reflexivity.
Qed.
Print Assumptions C02_caller_frames_iff.

(* the private frame of a data object is never changed, whatever the caller does with the frames it holds, when EVERY
   frame accessor of every data class (.df, .billing_df, any other) builds a new copy at each access *)
Theorem C02_objects_untouched : forall g, df_copies g -> C02_objects_statement g.
Proof.
  intros g Hg ops s l x W Hx Ho. unfold content.
  rewrite (proj2 (run_keeps_object g ops s l x Hg W Hx Ho)). reflexivity.
Qed.
Print Assumptions C02_objects_untouched.

(* ... and exactly then *)
Theorem C02_objects_iff : forall g, C02_objects_statement g <-> df_copies g.
Proof.
  intros g. split; [|apply C02_objects_untouched].
  intros H c a. destruct (handout_copies (g c) a) eqn:E; [reflexivity|]. exfalso.
  (* one object; the accessor hands out the private frame itself, the caller writes into it *)
  set (s := {| cells := [{| own := Obj c; val := plain |}]; held := [] |}).
  assert (Q : content (Store.run g s [SDf a 0; SMutate 0 7%Z]) 0 = Some plain).
  { apply (H _ s 0 {| own := Obj c; val := plain |}); [intros l [] | reflexivity | reflexivity]. }
  rewrite run_cons, run_one in Q.
  assert (S1 : Store.step g s (SDf a 0) = {| cells := cells s; held := [0] |}).
  { unfold Store.step. cbn. rewrite E. reflexivity. }
  rewrite S1, step_content in Q by (cbn; auto). discriminate Q.
Qed.
Print Assumptions C02_objects_iff.

(* `.df` creates a new location holding the same content; writing into one location changes no other *)
Theorem C02_handout_is_fresh : forall g s a o x c, nth_error (cells s) o = Some x -> own x = Obj c -> handout_copies (g c) a = true ->
  content (Store.step g s (SDf a o)) (length (cells s)) = Some (val x) /\
  In (length (cells s)) (held (Store.step g s (SDf a o))) /\
  forall l, l < length (cells s) -> content (Store.step g s (SDf a o)) l = content s l.
Proof.
  intros g s a o x c Hx Ho Hc.
  assert (C : created g s (SDf a o) = Some (Hand, val x, true)) by (cbn; rewrite Hx, Ho, Hc; reflexivity).
  split; [|split].
  - unfold content. rewrite (step_new_cell g s _ _ _ _ C). reflexivity.
  - rewrite step_held, C. apply in_or_app. right. left. reflexivity.
  - intros l Hl. apply step_content, Hl.
Qed.
Print Assumptions C02_handout_is_fresh.

Theorem C02_write_changes_one_location : forall g s l v m, m <> l -> m < length (cells s) ->
  content (Store.step g s (SMutate l v)) m = content s m.
Proof.
  intros g s l v m N Hm. rewrite step_content by assumption. cbn [in_place].
  destruct (holds s l); [|reflexivity]. destruct (nth_error (cells s) l); cbn; [|reflexivity].
  destruct (Nat.eqb l m) eqn:Q; [apply Nat.eqb_eq in Q; subst; contradiction | reflexivity].
Qed.
Print Assumptions C02_write_changes_one_location.

Theorem C02_fit_predict_write_no_frame : forall g s o l, l < length (cells s) ->
  content (Store.step g s (SPredict o)) l = content s l /\ content (Store.step g s (SFit o)) l = content s l.
Proof. intros. split; rewrite step_content by assumption; reflexivity. Qed.
Print Assumptions C02_fit_predict_write_no_frame.

(* a configuration in which the CalTRACK hourly data classes write into the frame they are given and hand out their
   stored frame through every accessor; the other six classes copy.  (Of the source, Generated/C02Gen.v says: these two
   classes copy in the constructor and expose `.df` as a plain attribute.) *)
Definition caltrack_ascoded (c : dclass) : ccfg :=
  match c with
  | CaltrackB | CaltrackR => {| init_writes_arg := true; series_writes_arg := false; handout_copies := fun _ => false |}
  | _ => safe_ccfg
  end.

Theorem C02_caller_frames_caltrack_refuted :
  content (Store.run caltrack_ascoded empty [SNew zf; SInit CaltrackB true 0]) 0 <> Some zf /\
  ~ C02_caller_frames_statement caltrack_ascoded.
Proof.
  split; [vm_compute; discriminate|].
  intros H. apply C02_caller_frames_iff in H. destruct (H CaltrackB) as [H1 _]. discriminate.
Qed.
Print Assumptions C02_caller_frames_caltrack_refuted.

Theorem C02_objects_caltrack_refuted :
  content (Store.run caltrack_ascoded (with_object caltrack_ascoded CaltrackR) [SDf ADf 1; SMutate 1 7%Z]) 1 <>
    content (with_object caltrack_ascoded CaltrackR) 1 /\
  ~ C02_objects_statement caltrack_ascoded.
Proof.
  split; [vm_compute; discriminate|].
  intros H. pose proof (proj1 (C02_objects_iff caltrack_ascoded) H CaltrackR ADf) as Q. discriminate Q.
Qed.
Print Assumptions C02_objects_caltrack_refuted.

(* a second accessor turned into a cached property (billing_df computed once, the same stored frame handed out at every
   access; `.df` still copies): the caller's write into what it was handed changes the data object *)
Definition billing_df_cached (c : dclass) : ccfg :=
  match c with
  | BillingB | BillingR =>
      {| init_writes_arg := false; series_writes_arg := false;
         handout_copies := fun a => match a with ABillingDf => false | _ => true end |}
  | _ => safe_ccfg
  end.

Theorem C02_objects_cached_accessor_refuted :
  content (Store.run billing_df_cached (with_object billing_df_cached BillingR) [SDf ABillingDf 1; SMutate 1 7%Z]) 1 <>
    content (with_object billing_df_cached BillingR) 1 /\
  content (Store.run billing_df_cached (with_object billing_df_cached BillingR) [SDf ADf 1; SMutate 2 7%Z]) 1 =
    content (with_object billing_df_cached BillingR) 1 /\
  ~ C02_objects_statement billing_df_cached.
Proof.
  split; [vm_compute; discriminate|]. split; [vm_compute; reflexivity|].
  intros H. pose proof (proj1 (C02_objects_iff billing_df_cached) H BillingR ABillingDf) as Q. discriminate Q.
Qed.
Print Assumptions C02_objects_cached_accessor_refuted.

(* fit(): the model takes over the data object's warning / disqualification lists; the poor-fit disqualification
   appended afterwards reaches the data object exactly when the lists are shared instead of copied *)
Definition C02_fit_does_not_write_data_statement (copies : bool) : Prop :=
  forall poor data, l_data (fit_lists copies poor data) = data.

Theorem C02_fit_does_not_write_data : C02_fit_does_not_write_data_statement true.
Proof. intros poor data. reflexivity. Qed.
Print Assumptions C02_fit_does_not_write_data.

Theorem C02_fit_does_not_write_data_iff : forall copies, C02_fit_does_not_write_data_statement copies <-> copies = true.
Proof.
  intros copies. split.
  - intros H. destruct copies; [reflexivity|]. specialize (H true []). cbn in H. discriminate.
  - intros ->. exact C02_fit_does_not_write_data.
Qed.
Print Assumptions C02_fit_does_not_write_data_iff.

Theorem C02_fit_lists_agree_with_gate : forall poor f s d i copies, snd (fit poor f s d i) = Fitted ->
  m_dq (fst (fit poor f s d i)) = l_model (fit_lists copies (poor d) (d_dq d)).
Proof.
  intros poor f s d i copies. rewrite fit_lists_model.
  destruct (fit_spec poor f s d i); cbn [fst snd]; try discriminate. intros _. assumption.
Qed.
Print Assumptions C02_fit_lists_agree_with_gate.

(* ================= non-vacuity ================= *)

(* a fitted table of 2 months x 2 days; a reporting set covering it is `covers`; a week of January and March days is not *)
Definition ex_state : hstate :=
  {| clusters := [((1, 0), Some 0); ((1, 5), Some 1); ((2, 0), Some 0); ((2, 5), Some 2)]%Z;
     ts_features := [TEMPERATURE]; warnings := [5%Z]; hidden := 0%Z |}.
Definition ex_full : dsum :=
  {| ds_id := 9; ds_combos := [(1, 0); (1, 5); (2, 0); (2, 5)]%Z; ds_observed := true; ds_columns := [TEMPERATURE];
     ds_supp := []; ds_late_exc := false |}.
Definition ex_week : dsum :=
  {| ds_id := 8; ds_combos := [(1, 5); (3, 0)]%Z; ds_observed := false; ds_columns := [TEMPERATURE; GHI];
     ds_supp := []; ds_late_exc := false |}.

Example C02_nonvacuous_hourly :
  covers ex_state ex_full /\
  next_state ascoded_cfg w_fill ex_state ex_full = ex_state /\
  (* a week with a month fit never saw, without observed usage: the table is replaced by the 2 x 2 grid filled from
     the one known cell, the GHI warning is appended; the pure configuration computes the same prediction and keeps the model *)
  next_state ascoded_cfg w_fill ex_state ex_week =
    {| clusters := [((1, 0), Some 1); ((1, 5), Some 1); ((3, 0), Some 1); ((3, 5), Some 1)]%Z;
       ts_features := [TEMPERATURE]; warnings := [5; MISMATCH_WARNING]%Z; hidden := 0%Z |} /\
  next_state pure_cfg w_fill ex_state ex_week = ex_state /\
  predict_out ascoded_cfg w_fill ex_state ex_week = HPred 8 [((1, 5), Some 1); ((3, 0), Some 1)]%Z 0%Z /\
  predict_out pure_cfg w_fill ex_state ex_week = predict_out ascoded_cfg w_fill ex_state ex_week.
Proof.
  split.
  - unfold covers. split; [|split; [reflexivity|split; [reflexivity|split; [discriminate|reflexivity]]]].
    cbn. repeat (constructor; [cbn; intuition congruence|]). constructor.
  - split; [vm_compute; reflexivity|]. split; [vm_compute; reflexivity|]. split; [vm_compute; reflexivity|].
    split; vm_compute; reflexivity.
Qed.

Example C02_nonvacuous_store :
  (* a caller frame with zero readings -> a daily baseline object (copying class) -> .df -> the caller writes into the
     hand-out and into its own frame: the object's frame stays; with the CalTRACK class the constructor already changed
     the caller's frame *)
  let ops := [SNew zf; SInit DailyB true 0; SDf ADf 1; SMutate 2 9%Z; SMutate 0 8%Z; SPredict 1] in
  let s := Store.run (fun _ => safe_ccfg) empty ops in
  content s 1 = Some (normalise DailyB true zf) /\ content s 0 = Some (bump zf 8%Z) /\
  content s 2 = Some (bump (normalise DailyB true zf) 9%Z) /\ content s 3 = Some (normalise DailyB true zf) /\
  wf s /\ ctors_copy (fun _ => safe_ccfg) /\ df_copies (fun _ => safe_ccfg) /\
  content (Store.run caltrack_ascoded empty [SNew zf; SInit CaltrackB true 0]) 0 = Some (normalise CaltrackB true zf).
Proof.
  cbv zeta. split; [vm_compute; reflexivity|]. split; [vm_compute; reflexivity|]. split; [vm_compute; reflexivity|].
  split; [vm_compute; reflexivity|]. split.
  { intros l Hl. vm_compute in Hl. destruct Hl as [<-|[<-|[<-|[]]]]; vm_compute; eauto. }
  split; [intros c; split; reflexivity|]. split; [intros c a; reflexivity|]. vm_compute; reflexivity.
Qed.

Example C02_nonvacuous_gate :
  let d := {| d_id := 1; d_kind := Baseline Daily; d_dq := []; d_tz := 3; d_ghi := false |}%Z in
  let r := {| d_id := 2; d_kind := Reporting Daily; d_dq := []; d_tz := 3; d_ghi := false |}%Z in
  let s := fst (Gate.run (fun _ => false) Daily (unfitted false) [OFit d false]) in
  fitted s = true /\ no_fit [OPredict r false; OReload; OPredict d false] = true /\
  predict Daily (fst (Gate.run (fun _ => false) Daily s [OPredict r false; OReload; OPredict d false])) r false = Frame /\
  l_data (fit_lists false true [4%Z]) = [4%Z; POOR_FIT].
Proof. vm_compute. repeat split; reflexivity. Qed.
