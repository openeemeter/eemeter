(* C05 — the counterfactual never depends on reporting-period consumption.
   The models are Model/Rows.v + Model/PredictRows.v (daily / billing row pipeline), Model/HourlyFlow.v (hourly pipeline,
   DST stages of Model/Dst.v) and Model/CounterfactualFlows.v (relations, CalTRACK hourly flow).  The lemmas about
   the models are in Proofs/CounterfactualProofs.v and Proofs/HourlyFlowProofs.v, among them statements more general than a
   theorem here (without a hypothesis the fixed statement carries, or for two policies); a theorem here is `exact` of a
   lemma or a short combination of lemmas.
   Names: _ni (non-interference) = the result is the same for two inputs that differ in the usage column only;
   _partial = under a stated extra guard, for the code before the repair named in the comment; _refuted = a witness on
   which the statement fails (or its negation).  C05-Kn are the findings of /verif/known_findings.json and /verif/known_findings.d/C05.json; C05-n.diff the
   proposed repairs in /verif/proposed-fixes/. *)
From Coq Require Import ZArith QArith List Bool Arith.
From V Require Import Model.Resample Model.TempAgg.
From V Require Import Generated.ObservedReadsGen Model.ReadSites.
From V Require Import Model.Dst Model.DstRun Model.Rows Model.PredictRows Model.HourlyFlow Model.CounterfactualFlows
                      Model.CounterfactualRun Proofs.ListFacts Proofs.CounterfactualProofs Proofs.HourlyFlowProofs.
Import ListNotations.

(* ================================================================== daily / billing ======================= *)

(* Full statement: two reporting frames with the same index, segments and temperatures — the usage columns may be
   anything (scaled, shuffled, partly / entirely NaN, +-inf) or absent on either side, and the masking policies may
   differ —: every index label that carries a prediction in both runs carries the same one. *)
Definition C05_daily_statement : Prop :=
  forall (A : Type) (f : Z -> A -> A) pol pol' has_obs has_obs' (rows rows' : list (row A)),
    NoDup (map (@ts A) rows) -> same_weather_calendar_rows rows rows' ->
    forall t p p', predicted_at (predict_rows f pol has_obs rows) t p ->
                   predicted_at (predict_rows f pol' has_obs' rows') t p' -> p = p'.

Theorem C05_daily_ni : C05_daily_statement.
Proof.
  intros A f pol pol' ho ho' rows rows' Hnd E t p p' H H'. apply predicted_at_iff in H, H'.
  destruct H as [r [te [Hr [Ht [_ [Et ->]]]]]], H' as [r' [te' [Hr' [Ht' [_ [Et' ->]]]]]].
  assert (Ev : wc_of r = wc_of r').
  { apply (same_view_lookup _ _ _ (@ts A) wc_of rows rows' (fun x y Hxy => f_equal (fun v => fst (fst v)) Hxy) Hnd E r r' Hr Hr').
    congruence. }
  unfold wc_of in Ev. injection Ev as _ Es Ete. congruence.
Qed.
Print Assumptions C05_daily_ni.

(* a label is predicted exactly when its temperature is finite and (usage column supplied) its usage is finite;
   the value is the curve of the row's segment at its temperature: nothing else enters *)
Theorem C05_daily_prediction_is_curve : forall (A : Type) (f : Z -> A -> A) pol has_obs (rows : list (row A)) t p,
  predicted_at (predict_rows f pol has_obs rows) t p <->
  exists r te, In r rows /\ ts r = t /\ complete has_obs r = true /\ temp r = V te /\ p = f (seg r) te.
Proof. exact predicted_at_iff. Qed.
Print Assumptions C05_daily_prediction_is_curve.

(* omitting the usage column loses no prediction (duplicated index labels or not: the proof does not use the NoDup hypothesis) *)
Theorem C05_daily_absent_superset : forall (A : Type) (f : Z -> A -> A) pol pol' (rows rows' : list (row A)),
  NoDup (map (@ts A) rows) -> same_weather_calendar_rows rows rows' ->
  forall t p, predicted_at (predict_rows f pol true rows) t p -> predicted_at (predict_rows f pol' false rows') t p.
Proof. intros A f pol pol' rows rows' _. exact (daily_absent_superset A f pol pol' rows rows'). Qed.
Print Assumptions C05_daily_absent_superset.

(* the alterations the property names are instances of the relation *)
Theorem C05_daily_alterations_keep_weather : forall (A : Type) (rows : list (row A)),
  same_weather_calendar_rows rows (blank_rows rows) /\
  (forall g, same_weather_calendar_rows rows (map_obs g rows)) /\
  (forall cells, same_weather_calendar_rows rows (replace_obs cells rows)).
Proof.
  intros A rows. unfold same_weather_calendar_rows. split; [|split].
  - unfold blank_rows. rewrite map_map. apply map_ext. reflexivity.
  - intros g. unfold map_obs. rewrite map_map. apply map_ext. reflexivity.
  - intros cells. revert cells.
    induction rows as [|r rows IH]; intros [|c cs]; cbn [replace_obs map]; try reflexivity; f_equal; apply IH.
Qed.
Print Assumptions C05_daily_alterations_keep_weather.

(* the same over the pipeline with explicit routing (`_meter_segment`) and left join (Model/PredictRows.v), under
   C13's exact cover and calendar-only routing *)
Theorem C05_daily_pipeline_ni : forall (V K : Type) (finite : V -> bool) (predict_sub : K -> V -> option V)
    (member : K -> @drow V -> bool) (keys : list K),
  (forall k r r', d_ts r = d_ts r' -> member k r = member k r') ->
  forall obs obs' (rows rows' : list (@drow V)),
    NoDup (map d_ts rows) -> same_weather_calendar_drows rows rows' ->
    exact_cover finite member keys obs rows ->
    forall r p r' p',
      In (r, Some p) (daily_predict finite predict_sub member keys obs rows) ->
      In (r', Some p') (daily_predict finite predict_sub member keys obs' rows') ->
      d_ts r = d_ts r' -> p = p'.
Proof.
  intros V K finite predict_sub member keys Hmem obs obs' rows rows' Hnd E Hcov r p r' p' H H' Et.
  (* each prediction comes from a sub-model that selects a kept row r2 / r2' with the label of r / r' *)
  destruct (predicted_origin finite predict_sub member keys _ _ _ _ H)
    as [k [r2 [t [Hk [Hr2 [Hk2 [Hm [E2 [Ht Hp]]]]]]]]].
  destruct (predicted_origin finite predict_sub member keys _ _ _ _ H')
    as [k' [r2' [t' [Hk' [Hr2' [Hk2' [Hm' [E2' [Ht' Hp']]]]]]]]].
  (* same label, so same temperature; routing reads the calendar only, so by the exact cover the same sub-model *)
  assert (Ev : dwc_of r2 = dwc_of r2').
  { apply (same_view_lookup _ _ _ d_ts dwc_of rows rows'); auto; [|congruence].
    intros x y Hxy. unfold dwc_of in Hxy. injection Hxy as Hxy _. exact Hxy. }
  unfold dwc_of in Ev. injection Ev as Ets Etemp.
  assert (t = t') by congruence. subst t'.
  assert (k = k').
  { apply (filter_one K (fun k => member k r2) keys k k'); auto.
    rewrite (Hmem k' r2 r2' Ets). exact Hm'. }
  subst k'. congruence.
Qed.
Print Assumptions C05_daily_pipeline_ni.

(* non-vacuity: three days, usage scaled / one day blanked / absent; day 0 is predicted in every run with the value 150 *)
Definition ex_rows : list (row Z) := [mkrow 0 1 (V 50) (V 10); mkrow 1 2 (V 60) (V 20); mkrow 2 1 NaN (V 30)]%Z.
Definition ex_curve (s t : Z) : Z := (s * 100 + t)%Z.
Example C05_daily_nonvacuous :
  NoDup (map (@ts Z) ex_rows) /\
  predicted_at (predict_rows ex_curve MaskOff true ex_rows) 0%Z 150%Z /\
  predicted_at (predict_rows ex_curve MaskOff true (map_obs (Z.mul 3) ex_rows)) 0%Z 150%Z /\
  predicted_at (predict_rows ex_curve MaskOff true (replace_obs [V 5; NaN; V 1] ex_rows)) 0%Z 150%Z /\
  predicted_at (predict_rows ex_curve MaskOff false (blank_rows ex_rows)) 0%Z 150%Z /\
  (* the blanked day is no longer predicted: blanking removes predictions, it never changes one *)
  (forall p, ~ predicted_at (predict_rows ex_curve MaskOff true (replace_obs [V 5; NaN; V 1] ex_rows)) 1%Z p).
Proof.
  split; [repeat constructor; cbn; intuition discriminate|].
  repeat split; try (eexists; split; [vm_compute; left; reflexivity | split; reflexivity]).
  intros p [o [Ho [Ht Hp]]]. vm_compute in Ho.
  destruct Ho as [<-|[<-|[<-|[]]]]; cbn in Ht, Hp; discriminate.
Qed.

(* ================================================================== daily data class: temperature of a meter day == *)

(* with the meter-day index a function of the stamps of the frame, the stage (index + TempAgg aggregation) is a function of
   weather and calendar only *)
Theorem C05_daily_stage_ni : forall day_index tol (a b : list frow), same_weather_frows a b ->
  daily_stage day_index tol a = daily_stage day_index tol b.
Proof.
  intros day_index tol a b H. unfold daily_stage. rewrite (stamps_ni a b H), (same_weather_temps_of a b H). reflexivity.
Qed.
Print Assumptions C05_daily_stage_ni.

(* whatever the two meter-day indexes are (usage supplied / blank / another null pattern): a meter day that is in both and
   is followed by the same meter day in both gets the same temperature row — usage can only act through the index *)
Theorem C05_daily_window_ni : forall tol temps idx idx' lo r r' hi,
  NoDup idx -> NoDup idx' ->
  In (lo, r) (day_temps tol idx temps) -> In (lo, r') (day_temps tol idx' temps) ->
  next_in idx lo hi -> next_in idx' lo hi -> r = r'.
Proof.
  intros tol temps idx idx' lo r r' hi Hn Hn' H H' N N'.
  destruct (rows_for_entry _ _ _ _ _ H) as [h1 [N1 ->]]. destruct (rows_for_entry _ _ _ _ _ H') as [h2 [N2 ->]].
  rewrite (next_in_unique idx lo h1 hi Hn N1 N), (next_in_unique idx' lo h2 hi Hn' N2 N'). reflexivity.
Qed.
Print Assumptions C05_daily_window_ni.

(* the index as coded reads which rows carry a reading: unchanged when the same rows do (scaled, negated, shuffled) *)
Theorem C05_daily_stage_as_coded_partial : forall fc tol (a b : list frow), same_weather_frows a b ->
  same_usage_presence a b -> daily_stage_as_coded fc tol a = daily_stage_as_coded fc tol b.
Proof.
  intros fc tol a b H P. unfold daily_stage_as_coded. unfold same_usage_presence in P.
  rewrite (stamps_ni a b H), (same_weather_temps_of a b H), P. reflexivity.
Qed.
Print Assumptions C05_daily_stage_as_coded_partial.

(* refutation for the unchanged code (finding C05-K4): hourly weather from 06:00 of day 0, one reading per day at midnight
   of days 1 to 4; blanking the reading of day 2 puts that day's filler row at 06:00 (the clock of the first row of the
   frame), and day 1 — whose own reading is untouched — now averages 30 hours instead of 24 *)
Definition k4_frame (blank2 : bool) : list frow :=
  map (fun k => let s := (360 + 60 * Z.of_nat k)%Z in
                (s, (if (s mod 1440 =? 0)%Z && negb (blank2 && (s =? 2880)%Z) then Some 1%Q else None),
                 Some (inject_Z ((s / 60) mod 24)))) (seq 0 96).
Theorem C05_daily_stage_as_coded_refuted : exists (a b : list frow) r r',
  same_weather_frows a b /\
  In (1440%Z, r) (daily_stage_as_coded FrameStart None a) /\ In (1440%Z, r') (daily_stage_as_coded FrameStart None b) /\
  t_notnull r = Some 24%Z /\ t_notnull r' = Some 30%Z.
Proof.
  exists (k4_frame false), (k4_frame true). eexists. eexists.
  split; [vm_compute; reflexivity|].
  split; [vm_compute; right; left; reflexivity|]. split; [vm_compute; right; left; reflexivity|].
  split; reflexivity.
Qed.
Print Assumptions C05_daily_stage_as_coded_refuted.

(* with the filler days on the readings' clock (C05-4.diff) the same witness keeps day 1's window *)
Example C05_daily_stage_reading_clock_witness :
  meter_index_as_coded FrameStart (map f_stamp (k4_frame true))
     (map (fun r => match f_obs r with Some _ => true | None => false end) (k4_frame true)) = [360; 1440; 3240; 4320; 5760]%Z /\
  meter_index_as_coded ReadingClock (map f_stamp (k4_frame true))
     (map (fun r => match f_obs r with Some _ => true | None => false end) (k4_frame true)) = [0; 1440; 2880; 4320; 5760]%Z /\
  exists r, In (1440%Z, r) (daily_stage_as_coded ReadingClock None (k4_frame true)) /\ t_notnull r = Some 24%Z.
Proof.
  split; [vm_compute; reflexivity|]. split; [vm_compute; reflexivity|].
  eexists. split; [vm_compute; right; left; reflexivity | reflexivity].
Qed.

(* ================================================================== hourly ================================ *)

(* Full statement for a given way of counting the rows of a date: for every instantiation of the oracles, every stored
   cluster table that covers the (month, weekday) combinations of the reporting frame (the property's guard) and every
   pair of frames that differ only in the usage column: the two runs agree — every stamp predicted in both carries
   the same value, and if one run raises so does the other. *)
Definition C05_hourly_statement (pol : policy) : Prop :=
  forall (W O F C Y : Type) (K : oracles W O F C Y) (t : table) (fr fr' : frame W O),
    same_weather_calendar fr fr' -> covers t fr = true ->
    agree (hourly_flow K pol t fr) (hourly_flow K pol t fr').

(* with the rows of a date counted (the repair of /verif/proposed-fixes/C05-1.diff) it is a theorem *)
Theorem C05_hourly_ni_count_rows : forall pol, count_rows pol = true -> C05_hourly_statement pol.
Proof.
  intros pol Hp W O F C Y K t fr fr' H Hc. apply hourly_flow_eq_agree. apply hourly_flow_ni_count_rows; assumption.
Qed.
Print Assumptions C05_hourly_ni_count_rows.

(* any way of counting, in particular count_rows = false (non-null usage cells of a date counted): the whole result is
   unchanged under the guard the code forces — the tests count == 23 and count == 25 come out the same for every date *)
Theorem C05_hourly_ni_partial : forall (W O F C Y : Type) (K : oracles W O F C Y) pol t (fr fr' : frame W O),
  same_weather_calendar fr fr' -> covers t fr = true ->
  map (dst_trigger pol) fr = map (dst_trigger pol) fr' ->
  hourly_flow K pol t fr = hourly_flow K pol t fr'.
Proof. intros W O F C Y K. exact (hourly_flow_ni K). Qed.
Print Assumptions C05_hourly_ni_partial.

(* ... which holds when both usage columns have no gap (what HourlyReportingData hands over whenever the caller's
   column holds at least one value: it interpolates the rest) — scaled, shuffled, partly blanked *)
Theorem C05_hourly_ni_fully_observed_partial : forall (W O F C Y : Type) (K : oracles W O F C Y) pol t (fr fr' : frame W O),
  same_weather_calendar fr fr' -> covers t fr = true -> fully_observed fr = true -> fully_observed fr' = true ->
  hourly_flow K pol t fr = hourly_flow K pol t fr'.
Proof.
  intros W O F C Y K pol t fr fr' H Hc F1 F2. apply hourly_flow_ni; [exact H | exact Hc|].
  apply triggers_fully_observed; assumption.
Qed.
Print Assumptions C05_hourly_ni_fully_observed_partial.

(* ... and when usage is blanked or omitted on a frame none of whose dates has 23 or 25 rows (either way of counting:
   the proof does not use the hypothesis on the policy) *)
Theorem C05_hourly_ni_blank_regular_partial : forall (W O F C Y : Type) (K : oracles W O F C Y) pol t (fr fr' : frame W O),
  count_rows pol = false ->
  same_weather_calendar fr fr' -> covers t fr = true -> fully_observed fr = true -> blank fr' = true ->
  no_short_long fr = true ->
  hourly_flow K pol t fr = hourly_flow K pol t fr'.
Proof. intros W O F C Y K pol t fr fr' _. exact (hourly_flow_ni_blank_regular K pol t fr fr'). Qed.
Print Assumptions C05_hourly_ni_blank_regular_partial.

(* ... and two frames without any usable usage value (all NaN vs omitted) agree for EVERY stored table, covered or not *)
Theorem C05_hourly_ni_both_blank : forall (W O F C Y : Type) (K : oracles W O F C Y) pol t (fr fr' : frame W O),
  same_weather_calendar fr fr' -> blank fr = true -> blank fr' = true ->
  hourly_flow K pol t fr = hourly_flow K pol t fr'.
Proof.
  intros W O F C Y K pol t fr fr' H B B'.
  apply hourly_flow_from_stages; [exact H| |apply cluster_stage_blank_ni; assumption].
  apply dst_stage_ext; [reflexivity | exact H|].
  destruct (count_rows pol) eqn:Hp; [apply triggers_count_rows; assumption|].
  apply (triggers_eq_of_dates pol pol fr fr' H). intros d d' Hd Hd' _.
  rewrite (trigger_blank pol fr d Hp B Hd), (trigger_blank pol fr' d' Hp B' Hd'). reflexivity.
Qed.
Print Assumptions C05_hourly_ni_both_blank.

(* the repair changes nothing for frames with a complete usage column *)
Theorem C05_hourly_repair_conservative : forall (W O F C Y : Type) (K : oracles W O F C Y) pol pol' t (fr : frame W O),
  loc_by_mask pol = loc_by_mask pol' ->
  fully_observed fr = true -> hourly_flow K pol t fr = hourly_flow K pol' t fr.
Proof.
  intros W O F C Y K pol pol' t fr Hm F1. unfold hourly_flow.
  rewrite (dst_stage_ext pol pol' fr fr Hm eq_refl); [reflexivity|].
  exact (triggers_fully_observed pol pol' fr fr eq_refl F1 F1).
Qed.
Print Assumptions C05_hourly_repair_conservative.

(* stage by stage: where usage can enter *)
Theorem C05_hourly_cluster_stage_ni : forall (W O F C Y : Type) (K : oracles W O F C Y) t (fr fr' : frame W O),
  same_weather_calendar fr fr' -> covers t fr = true -> cluster_stage K t fr = cluster_stage K t fr'.
Proof. intros W O F C Y K. exact (cluster_stage_ni K). Qed.
Print Assumptions C05_hourly_cluster_stage_ni.

Theorem C05_hourly_everything_else_ni : forall (W O F C Y : Type) (K : oracles W O F C Y) pol t (fr fr' : frame W O),
  same_weather_calendar fr fr' -> dst_stage pol fr = dst_stage pol fr' ->
  cluster_stage K t fr = cluster_stage K t fr' -> hourly_flow K pol t fr = hourly_flow K pol t fr'.
Proof. intros W O F C Y K. exact (hourly_flow_from_stages K). Qed.
Print Assumptions C05_hourly_everything_else_ni.

(* ---- refutation of the full statement for count_observed (finding C05-K1; replayed on the implementation from
   corpus/C05.json): three dates, the middle one a 23-hour day (the clock skips 02:00); with usage present the short
   day is found and 71 rows are predicted, with usage blanked / omitted it goes unnoticed and np.array() raises *)
Definition w_days : list hfday :=
  [(0, seq 0 24, 3, 5, None); (1440, clock_hours (Short 2), 3, 6, None); (2820, seq 0 24, 3, 0, None)]%Z.
Definition w_table : table := [((3, 5), 0); ((3, 6), 1); ((3, 0), 0)]%Z.
Definition w_observed : frame unit unit := mk_frame w_days [(true, []); (true, []); (true, [])].
Definition w_blank : frame unit unit := mk_frame w_days [].

Theorem C05_hourly_ni_refuted : exists (t : table) (fr fr' : frame unit unit),
  same_weather_calendar fr fr' /\ covers t fr = true /\
  (exists out, hourly_flow unit_oracles count_observed t fr = Ok out /\ length out = 71%nat) /\
  hourly_flow unit_oracles count_observed t fr' = Err ERagged.
Proof.
  exists w_table, w_observed, w_blank. split; [vm_compute; reflexivity|]. split; [vm_compute; reflexivity|].
  split; [eexists; split; [vm_compute; reflexivity | reflexivity] | vm_compute; reflexivity].
Qed.
Print Assumptions C05_hourly_ni_refuted.

Theorem C05_hourly_statement_as_coded_refuted : ~ C05_hourly_statement count_observed.
Proof.
  intros H. destruct C05_hourly_ni_refuted as [t [fr [fr' [S [Cv [[out [Ho _]] He]]]]]].
  specialize (H unit unit Z unit Z unit_oracles t fr fr' S Cv). rewrite Ho, He in H. exact H.
Qed.
Print Assumptions C05_hourly_statement_as_coded_refuted.

(* non-vacuity of the guarded theorems and of the repaired statement: on the same witness the repaired counting
   predicts the 71 rows on both sides *)
Example C05_hourly_count_rows_witness :
  same_weather_calendar w_observed w_blank /\ covers w_table w_observed = true /\
  hourly_flow unit_oracles count_rows_only w_table w_observed = hourly_flow unit_oracles count_rows_only w_table w_blank /\
  (exists out, hourly_flow unit_oracles count_rows_only w_table w_blank = Ok out /\ length out = 71%nat) /\
  fully_observed w_observed = true /\ blank w_blank = true /\ no_short_long w_observed = false.
Proof.
  repeat split; try (vm_compute; reflexivity). eexists; split; [vm_compute; reflexivity | reflexivity].
Qed.

Definition r_days : list hfday := [(0, seq 0 24, 6, 2, None); (1440, seq 0 24, 6, 3, None)]%Z.
Example C05_hourly_blank_regular_witness :
  let fr := mk_frame r_days [(true, []); (true, [])] in
  let fr' := mk_frame r_days [] in
  same_weather_calendar fr fr' /\ covers [((6, 2), 0); ((6, 3), 1)]%Z fr = true /\ fully_observed fr = true /\
  blank fr' = true /\ no_short_long fr = true /\
  exists out, hourly_flow unit_oracles count_observed [((6, 2), 0); ((6, 3), 1)]%Z fr' = Ok out /\ length out = 48%nat.
Proof.
  repeat split; try (vm_compute; reflexivity). eexists; split; [vm_compute; reflexivity | reflexivity].
Qed.

(* ---- a model object that is used for several reporting sets ---- *)
Definition C05_hourly_reuse_statement (pol : policy) (sp : state_policy) : Prop :=
  forall (W O F C Y : Type) (K : oracles W O F C Y) (t : table) (history : list (frame W O)) (fr fr' : frame W O),
    same_weather_calendar fr fr' -> covers t fr = true ->
    agree (hourly_flow_after K pol sp t history fr) (hourly_flow_after K pol sp t history fr').

(* with the corrected table kept local to the call (C05-2.diff) and the rows counted: a theorem *)
Theorem C05_hourly_reuse_ni_repaired : forall pol, count_rows pol = true -> C05_hourly_reuse_statement pol KeepLocal.
Proof.
  intros pol Hp W O F C Y K t history fr fr' H Hc. unfold hourly_flow_after. rewrite table_after_all_keep_local.
  apply (C05_hourly_ni_count_rows pol Hp); assumption.
Qed.
Print Assumptions C05_hourly_reuse_ni_repaired.

(* any state policy, so also StoreBack: the guard has to hold for the table the model holds NOW, not the fitted one *)
Theorem C05_hourly_reuse_ni_partial : forall (W O F C Y : Type) (K : oracles W O F C Y) pol sp t history (fr fr' : frame W O),
  same_weather_calendar fr fr' -> covers (table_after_all K sp t history) fr = true ->
  map (dst_trigger pol) fr = map (dst_trigger pol) fr' ->
  hourly_flow_after K pol sp t history fr = hourly_flow_after K pol sp t history fr'.
Proof. intros W O F C Y K pol sp t history fr fr' H Hc T. unfold hourly_flow_after. apply hourly_flow_ni; assumption. Qed.
Print Assumptions C05_hourly_reuse_ni_partial.

(* what does hold under StoreBack when an object is used again: a second reporting set on the SAME calendar
   (the paired runs of the check on one object) is predicted as by the freshly fitted model *)
Theorem C05_hourly_reuse_same_calendar : forall (W O F C Y : Type) (K : oracles W O F C Y) pol sp t (fr fr' : frame W O),
  covers t fr = true -> same_weather_calendar fr fr' ->
  hourly_flow_after K pol sp t [fr] fr' = hourly_flow K pol t fr'.
Proof.
  intros W O F C Y K pol sp t fr fr' Hc H. unfold hourly_flow_after. cbn [table_after_all]. destruct sp; [|reflexivity].
  unfold hourly_flow. rewrite (cluster_stage_stored_back K t fr fr' Hc H). reflexivity.
Qed.
Print Assumptions C05_hourly_reuse_same_calendar.

(* refutation for StoreBack (finding C05-K2): the fitted table knows February and May; after one prediction for
   a February day the model only knows February, and a May day then raises when usage is supplied (no known load
   shape to compare with) but is predicted when usage is omitted — even with the DST counting repaired *)
Definition u_table : table := [((2, 1), 0); ((5, 3), 1)]%Z.
Definition u_feb : frame unit unit := mk_frame [(0, seq 0 24, 2, 1, None)]%Z [(true, [])].
Definition u_may_days : list hfday := [(144000, seq 0 24, 5, 3, None)]%Z.
Theorem C05_hourly_reuse_refuted : forall pol, ~ C05_hourly_reuse_statement pol StoreBack.
Proof.
  intros pol H.
  specialize (H unit unit Z unit Z unit_oracles u_table [u_feb] (mk_frame u_may_days [(true, [])]) (mk_frame u_may_days [])).
  assert (S : same_weather_calendar (mk_frame u_may_days [(true, [])]) (mk_frame u_may_days [])) by (vm_compute; reflexivity).
  assert (Cv : covers u_table (mk_frame u_may_days [(true, [])]) = true) by (vm_compute; reflexivity).
  specialize (H S Cv). destruct pol as [[|] [|]]; vm_compute in H; exact H.
Qed.
Print Assumptions C05_hourly_reuse_refuted.

Example C05_hourly_reuse_witness :
  hourly_flow_after unit_oracles count_rows_only StoreBack u_table [u_feb] (mk_frame u_may_days [(true, [])]) = Err EValue /\
  (exists out, hourly_flow_after unit_oracles count_rows_only StoreBack u_table [u_feb] (mk_frame u_may_days []) = Ok out /\ length out = 24%nat) /\
  (exists out, hourly_flow_after unit_oracles count_rows_only KeepLocal u_table [u_feb] (mk_frame u_may_days [(true, [])]) = Ok out /\ length out = 24%nat).
Proof.
  split; [vm_compute; reflexivity|].
  split; eexists; (split; [vm_compute; reflexivity | reflexivity]).
Qed.

(* ================================================================== hourly: the data class in front of predict === *)

(* the frame handed to the model has the same weather and calendar whatever the usage cells of the caller's records are:
   which record of a repeated time stamp survives is decided by the index alone (keep the first), the contiguous index
   is a function of the selected index, every column is gap-filled from its own values *)
Theorem C05_hourly_data_stage_ni : forall (Wc W O : Type) (w_empty : Wc -> bool)
    (calendar : list Z -> list (list cal_stamp * option err)) (fill_w : list (option Wc) -> list W)
    (fill_o : list (option O) -> list (option O)) (a b : list (rec Wc O)),
  same_records_but_usage a b ->
  same_weather_calendar (data_stage w_empty calendar fill_w fill_o KeepFirst a)
                        (data_stage w_empty calendar fill_w fill_o KeepFirst b).
Proof. exact @data_stage_ni. Qed.
Print Assumptions C05_hourly_data_stage_ni.

(* ... and the zero rule of electricity data in front of it touches the usage cell only *)
Theorem C05_hourly_public_stage_ni : forall (Wc W O : Type) (is_zero : O -> bool) (w_nan : Wc) (w_empty : Wc -> bool)
    (calendar : list Z -> list (list cal_stamp * option err)) (fill_w : list (option Wc) -> list W)
    (fill_o : list (option O) -> list (option O)) elec elec' (a b : list (rec Wc O)),
  same_records_but_usage a b ->
  same_weather_calendar (public_stage is_zero w_nan w_empty calendar fill_w fill_o ZeroUsageCell elec KeepFirst a)
                        (public_stage is_zero w_nan w_empty calendar fill_w fill_o ZeroUsageCell elec' KeepFirst b).
Proof.
  intros Wc W O is_zero w_nan w_empty calendar fill_w fill_o elec elec' a b H. unfold public_stage. apply data_stage_ni.
  unfold same_records_but_usage in *. rewrite !zero_rec_view. exact H.
Qed.
Print Assumptions C05_hourly_public_stage_ni.

(* Full statement from the caller's records to the predictions, for a zero rule, a way of selecting among repeated stamps
   and a way of counting the rows of a date (electricity or not) *)
Definition C05_hourly_public_statement (zp : zero_policy) (dp : dedup_policy) (pol : policy) : Prop :=
  forall (Wc W O F C Y : Type) (K : oracles W O F C Y) (is_zero : O -> bool) (w_nan : Wc) (w_empty : Wc -> bool)
         (calendar : list Z -> list (list cal_stamp * option err)) (fill_w : list (option Wc) -> list W)
         (fill_o : list (option O) -> list (option O)) (elec : bool) (t : table) (a b : list (rec Wc O)),
    same_records_but_usage a b ->
    covers t (public_stage is_zero w_nan w_empty calendar fill_w fill_o zp elec dp a) = true ->
    agree (hourly_flow K pol t (public_stage is_zero w_nan w_empty calendar fill_w fill_o zp elec dp a))
          (hourly_flow K pol t (public_stage is_zero w_nan w_empty calendar fill_w fill_o zp elec dp b)).

Theorem C05_hourly_public_ni : forall pol, count_rows pol = true ->
  C05_hourly_public_statement ZeroUsageCell KeepFirst pol.
Proof.
  intros pol Hp Wc W O F C Y K is_zero w_nan w_empty calendar fill_w fill_o elec t a b H Hc.
  apply (C05_hourly_ni_count_rows pol Hp); [apply C05_hourly_public_stage_ni; exact H | exact Hc].
Qed.
Print Assumptions C05_hourly_public_ni.

(* selection that looks at the usage cell (records without any reading discarded before the de-duplication) breaks it,
   however the rows are counted: with usage the meter record survives and the hour is predicted from a gap-filled
   temperature (0), without usage the weather record survives (70) *)
Theorem C05_hourly_public_refuted_drop_empty : forall zp pol, ~ C05_hourly_public_statement zp DropEmptyKeepFirst pol.
Proof.
  intros zp pol H.
  specialize (H (option Z) Z unit Z unit Z (weather_oracles unit) (fun _ => false) None temp_empty one_day_calendar fill_zero
                (fun l => l) false [((6, 2), 0)]%Z (witness_recs (Some tt)) (witness_recs None)).
  assert (S : same_records_but_usage (witness_recs (Some tt)) (witness_recs None)) by (vm_compute; reflexivity).
  specialize (H S).
  assert (Cv : covers [((6, 2), 0)]%Z (public_stage (fun _ : unit => false) None temp_empty one_day_calendar fill_zero (fun l => l)
                                          zp false DropEmptyKeepFirst (witness_recs (Some tt))) = true)
    by (destruct zp; vm_compute; reflexivity).
  specialize (H Cv).
  (* for every zero rule and way of counting both runs succeed, and hour 0 is predicted 0 on one side, 70 on the other *)
  destruct zp; destruct pol as [[|] [|]]; vm_compute in H;
    specialize (H 0%Z 0%Z 70%Z (or_introl eq_refl) (or_introl eq_refl)); discriminate.
Qed.
Print Assumptions C05_hourly_public_refuted_drop_empty.

(* a zero rule that blanks the whole record breaks it as well: an electricity reading of exactly 0 wipes
   the temperature of its hour (gap-filled: 0), any other reading leaves it (50) *)
Theorem C05_hourly_public_refuted_zero_row : forall dp pol, ~ C05_hourly_public_statement ZeroWholeRow dp pol.
Proof.
  intros dp pol H.
  specialize (H (option Z) Z Z Z unit Z (weather_oracles Z) (Z.eqb 0) None temp_empty one_day_calendar fill_zero
                (fun l => l) true [((6, 2), 0)]%Z (zero_recs 0) (zero_recs 5)).
  assert (S : same_records_but_usage (zero_recs 0) (zero_recs 5)) by (vm_compute; reflexivity).
  specialize (H S).
  assert (Cv : covers [((6, 2), 0)]%Z (public_stage (Z.eqb 0) None temp_empty one_day_calendar fill_zero (fun l => l)
                                          ZeroWholeRow true dp (zero_recs 0)) = true)
    by (destruct dp; vm_compute; reflexivity).
  specialize (H Cv). destruct pol as [counted by_mask]. destruct counted.
  - (* rows counted: both runs succeed, and hour 0 is predicted 0 on one side, 50 on the other *)
    destruct dp; destruct by_mask; vm_compute in H;
      specialize (H 0%Z 0%Z 50%Z (or_introl eq_refl) (or_introl eq_refl)); discriminate.
  - (* usage cells counted: the run with the reading of 0 raises, the other one predicts *)
    destruct dp; destruct by_mask; vm_compute in H; exact H.
Qed.
Print Assumptions C05_hourly_public_refuted_zero_row.

Example C05_hourly_public_witness :
  (exists out, hourly_flow (weather_oracles unit) count_rows_only [((6, 2), 0)]%Z (witness_stage KeepFirst (witness_recs (Some tt))) = Ok out
               /\ In (0%Z, Some 0%Z) out) /\
  (exists out, hourly_flow (weather_oracles unit) count_rows_only [((6, 2), 0)]%Z (witness_stage KeepFirst (witness_recs None)) = Ok out
               /\ In (0%Z, Some 0%Z) out) /\
  (exists out, hourly_flow (weather_oracles unit) count_rows_only [((6, 2), 0)]%Z (witness_stage DropEmptyKeepFirst (witness_recs None)) = Ok out
               /\ In (0%Z, Some 70%Z) out) /\
  (* zero rule: on the usage cell only, a reading of 0 and a reading of 5 give the same 50 degrees; on the whole row not *)
  (exists out, hourly_flow (weather_oracles Z) count_rows_only [((6, 2), 0)]%Z (zero_stage_witness ZeroUsageCell (zero_recs 0)) = Ok out
               /\ In (0%Z, Some 50%Z) out) /\
  (exists out, hourly_flow (weather_oracles Z) count_rows_only [((6, 2), 0)]%Z (zero_stage_witness ZeroWholeRow (zero_recs 0)) = Ok out
               /\ In (0%Z, Some 0%Z) out).
Proof. repeat split; eexists; (split; [vm_compute; reflexivity | left; reflexivity]). Qed.

(* ================================================================== CalTRACK hourly ======================= *)

(* the predicted column is a function of index, calendar and temperature; only the uncertainty column reads usage *)
Theorem C05_caltrack_ni : forall (T O Y U : Type) (row_pred : Z -> Z -> option T -> option Y)
    (unc_of : Z -> list O -> nat -> option U) (rows rows' : list (@crow T O)),
  same_weather_calendar_crows rows rows' ->
  map (fun o => (co_utc o, co_pred o)) (caltrack_predict row_pred unc_of rows) =
  map (fun o => (co_utc o, co_pred o)) (caltrack_predict row_pred unc_of rows').
Proof.
  intros T O Y U row_pred unc_of rows rows' E. unfold caltrack_predict. rewrite !map_map. cbn [co_utc co_pred].
  apply (map_eq_of_view cwc_of E). intros r r' _ _ Er. unfold cwc_of in Er.
  injection Er as -> -> -> ->. reflexivity.
Qed.
Print Assumptions C05_caltrack_ni.

(* non-vacuity, and the one column that does depend on usage *)
Definition ex_crows (o : option Z) : list (@crow Z Z) :=
  [{| c_utc := 0; c_month := 1; c_how := 3; c_temp := Some 40; c_obs := o |};
   {| c_utc := 60; c_month := 1; c_how := 4; c_temp := None; c_obs := Some 2 |}]%Z.
Definition ex_pred (m h : Z) (t : option Z) : option Z := option_map (fun x => (m + h + x)%Z) t.
Definition ex_unc (m : Z) (l : list Z) (n : nat) : option Z := Some (fold_right Z.add 0%Z l).
Example C05_caltrack_nonvacuous :
  same_weather_calendar_crows (ex_crows (Some 5%Z)) (ex_crows None) /\
  map (fun o => (co_utc o, co_pred o)) (caltrack_predict ex_pred ex_unc (ex_crows None)) = [(0%Z, Some 44%Z); (60%Z, None)] /\
  map (@co_unc Z Z) (caltrack_predict ex_pred ex_unc (ex_crows (Some 5%Z))) <>
  map (@co_unc Z Z) (caltrack_predict ex_pred ex_unc (ex_crows None)).
Proof. repeat split; try (vm_compute; reflexivity). vm_compute. discriminate. Qed.

(* the clock from_series labels the rows on: with the repair it never depends on whether a meter series is supplied; as coded
   it does not when the feed is in UTC or on the meter's clock (the exact guard), and does otherwise (finding C05-K7) *)
Theorem C05_caltrack_index_zone_ni : forall m m' w, index_zone WeatherClock m w = index_zone WeatherClock m' w.
Proof. reflexivity. Qed.
Print Assumptions C05_caltrack_index_zone_ni.

Theorem C05_caltrack_index_zone_partial : forall mz w, (w = 0 \/ w = mz)%Z ->
  index_zone UnionToUtc (Some mz) w = index_zone UnionToUtc None w.
Proof.
  intros mz w [->| ->]; cbn [index_zone].
  - destruct (mz =? 0)%Z eqn:E; [apply Z.eqb_eq in E; exact E | reflexivity].
  - rewrite Z.eqb_refl. reflexivity.
Qed.
Print Assumptions C05_caltrack_index_zone_partial.

Theorem C05_caltrack_index_zone_refuted : exists mz w,
  index_zone UnionToUtc (Some mz) w <> index_zone UnionToUtc None w.
Proof. exists 1%Z, 2%Z. vm_compute. discriminate. Qed.
Print Assumptions C05_caltrack_index_zone_refuted.

(* ================================================================== which columns the predict paths read ============
   Generated/ObservedReadsGen.v (see Model/ReadSites.v) lists every mention of the column "observed" and every NaN-sensitive
   whole-frame operation on the predict paths of the source as it is now. *)

(* every mention of the usage column on a predict path is a site the models account for (Model/ReadSites.v), with no more
   occurrences than accounted: a new read of `observed` breaks this obligation *)
Theorem C05_observed_reads_accounted : accounted declared_reads observed_reads = true.
Proof. vm_compute. reflexivity. Qed.
Print Assumptions C05_observed_reads_accounted.

(* ... and so is every whole-frame operation that looks at the NaN pattern of all columns (dropna, mask, where, isnull,
   count, fillna, ...), e.g. a dropna before the de-duplication or a mask on the whole record *)
Theorem C05_frame_ops_accounted : accounted declared_frame_ops frame_ops = true.
Proof. vm_compute. reflexivity. Qed.
Print Assumptions C05_frame_ops_accounted.

(* tie to the flow models: every site through which usage is an input at predict time belongs to a stage that the family's
   model has (hourly: cluster_stage, zero_rec, blank frames, fill_o; CalTRACK: zero rule, absent column, c_obs; daily /
   billing: complete) — the stages the non-interference theorems above quantify over; all other sites are not inputs *)
Theorem C05_usage_inputs_are_modelled :
  inputs_modelled declared_reads observed_reads = true /\ inputs_modelled declared_frame_ops frame_ops = true.
Proof. split; vm_compute; reflexivity. Qed.
Print Assumptions C05_usage_inputs_are_modelled.

(* non-vacuity: the generated tables are not empty and contain the sites the hourly theorems are about; a read added to a
   function that already has some is NOT accounted for *)
Example C05_reads_nonvacuous :
  (0 < length observed_reads)%nat /\ (0 < length frame_ops)%nat /\
  stage_of declared_reads ex_cluster_load = Some ClusterRepair /\
  stage_of declared_reads ex_normalize_one_more = None /\
  stage_of declared_reads ex_predict_read = None /\
  stage_of declared_frame_ops ex_set_data_dropna = None /\
  stage_of declared_frame_ops ex_set_data_mask = None.
Proof. repeat split; vm_compute; auto with arith. Qed.
