(* C15 — a building that follows the model is recovered by the fit.          LEVEL: PARTIAL (see below)

   The lemmas are in Proofs/RecoveryProofs.v, the definitions in Model/Recovery.v (one text over the
   numeric dictionary: here at the reals [RNum]; at binary64 [FNum] the same text evaluates every fitted model inside
   coqc, harness/c15.py) and Model/DailyCurve.v (the stored sub-model document and its curve, shared with C11).

   What is NOT a theorem here, and cannot be with this technique: that the optimiser (NLopt DIRECT + SBPLX on an
   adaptive-loss elastic-net objective, C code and spline look-ups) converges.  There is no Gallina model of "the fit".
   The property is therefore claimed PARTIAL.  What the theorems carry:

     in sample      C15_certificate_bound, C15_noise_bound, C15_rmse_from_certificate, C15_in_sample_partial:
                    whatever produced the fitted values f, if  SSE(f,y) <= SSE(g,y) + s  (the fit is at most s worse
                    than the generating curve g on the observed usage y; s is MEASURED on every sampled fit) and the
                    noise is at most 1 %, then  RMSE(f,g) <= 0.02 RMS(g) + sqrt(s/n) ; so the statement's 5 % holds as
                    soon as  0.02 RMS(g) + sqrt(s/n) <= 0.05 mean(y).
     feasibility    C15_generator_document: the generating building, written as a stored document, evaluates to the
                    generating curve and its two loads at every temperature (so the truth is a point of the model
                    family the optimiser searches); C15_generator_in_box / C15_family_feasible: that point lies in the
                    box the code hands to the optimiser (balance-point rows from the n-th smallest / largest
                    temperature, intercept row from the 1 %-99 % usage quantiles), given a month of days in each regime.
     no load        C15_flat_has_no_load, C15_no_heating_slope_no_heating_load, C15_no_cooling_slope_no_cooling_load:
                    a stored model without a heating (cooling) slope reports zero heating (cooling) load at every
                    temperature.
     decisions      C15_nrmse_decision, C15_load_decision: the square-root-free tests evaluated in binary64 on every
                    fitted model are the statement's inequalities.

     final box      C15_segment_bounds, C15_month_of_days_suffices, C15_get_bnds_row, C15_generator_in_box_from_initial_fit,
                    C15_half_the_slope_suffices: the rows of that box from order statistics of the temperatures and from the
                    initial fit's vector.
     out of sample  C15_parameters_close_curve_close, C15_out_of_sample_from_parameters: a stored document whose parameters are
                    within param_gap of the generating ones satisfies the statement's inequality on EVERY weather year whose
                    temperatures stay in the range; that a fit's param_gap is small is MEASURED on every sampled fit.

   That the optimiser's slack s and param_gap are small is sampled, not proved. *)
From Coq Require Import Reals Lra List Bool Arith Lia.
From Coq Require PrimFloat.
From V Require Import Model.Num Model.NumR Model.NumF Model.DailyCurve Model.DailyCurveRun Model.Recovery Model.RecoveryRun
                      Model.CasesLib Proofs.DailyCurveProofs Proofs.RecoveryProofs.
Import ListNotations.
Local Open Scope R_scope.

Print building.
Print gen_curve.
Print doc_of.
Print nrmse_ok.
Print load_ok.
Print final_box.
Print seg_bounds.
Print quantile_pct.
Print family_days.
Print inside.
Print days_ok.
Print slope_rows_ok.
Print icpt_ok.

(* ------------------------------------------------------------------ the full statement (not proved) *)

(* every observation within 1 % of the generating value *)
Definition noisy (y g : list R) : Prop := Forall2 (fun yi gi => Rabs (yi - gi) <= one_pct NR * gi) y g.

(* the stated ranges of the generating parameters *)
Definition stated_ranges (p : building NR) : Prop :=
  5 <= b_base p <= 50 /\
  (b_hbeta p = 0 \/ 3 / 10 <= b_hbeta p <= 3) /\ (b_cbeta p = 0 \/ 3 / 10 <= b_cbeta p <= 3) /\
  45 <= b_hbp p <= 58 /\ 64 <= b_cbp p <= 75.

Section FitOracle.
(* the fit as a black box: baseline temperatures and usage |-> (predicted, heating_load, cooling_load) at a temperature *)
Variable fit : list R -> list R -> R -> R * R * R.

Definition f_pred (T y : list R) (t : R) : R := fst (fst (fit T y t)).
Definition f_heat (T y : list R) (t : R) : R := snd (fst (fit T y t)).
Definition f_cool (T y : list R) (t : R) : R := snd (fit T y t).

Definition C15_statement : Prop :=
  forall (p : building NR) (T y T2 : list R),
    stated_ranges p -> length T = 365%nat -> length T2 = 365%nat ->
    family_days NR 30 p T = true -> noisy y (map (gen_curve NR p) T) ->
    (* within 5 % of mean usage on the baseline and on a different weather year *)
    nrmse_ok NR (five_pct NR) (map (f_pred T y) T) (map (gen_curve NR p) T) (mean NR y) = true /\
    nrmse_ok NR (five_pct NR) (map (f_pred T y) T2) (map (gen_curve NR p) T2)
             (mean NR (map (gen_curve NR p) T2)) = true /\
    (* no heating / cooling load above 5 % of usage where the generator has none *)
    (b_hbeta p = 0 -> load_ok NR (five_pct NR) (map (f_heat T y) T) y = true /\
                      load_ok NR (five_pct NR) (map (f_heat T y) T2) (map (gen_curve NR p) T2) = true) /\
    (b_cbeta p = 0 -> load_ok NR (five_pct NR) (map (f_cool T y) T) y = true /\
                      load_ok NR (five_pct NR) (map (f_cool T y) T2) (map (gen_curve NR p) T2) = true).

(* the in-sample inequality of the statement, from the certificate the harness measures on every fit *)
Theorem C15_in_sample_partial : forall (p : building NR) (T y : list R) (s : R),
  (0 < length T)%nat -> length T = length y -> 0 <= s -> 0 <= mean NR y ->
  noisy y (map (gen_curve NR p) T) ->
  sse NR (map (f_pred T y) T) y <= sse NR (map (gen_curve NR p) T) y + s ->
  2 * (1 / 100) * RMS (map (gen_curve NR p) T) + sqrt (s / INR (length T)) <= 5 / 100 * mean NR y ->
  nrmse_ok NR (five_pct NR) (map (f_pred T y) T) (map (gen_curve NR p) T) (mean NR y) = true.
Proof.
  intros p T y s Hn L Hs Hm Hnoise Hc Hb.
  apply (in_sample_from_certificate s (mean NR y) (map (f_pred T y) T) y (map (gen_curve NR p) T)).
  - rewrite map_length. exact Hn.
  - rewrite map_length. exact L.
  - exact Hs.
  - exact Hm.
  - exact Hnoise.
  - exact Hc.
  - rewrite map_length. exact Hb.
Qed.

End FitOracle.
Print Assumptions C15_in_sample_partial.

(* ------------------------------------------------------------------ l2 geometry of the certificate *)

(* SSE(f,y) <= SSE(g,y) + s  ->  RMSE(f,g) <= 2 RMSE(y,g) + sqrt(s/n)     (triangle inequality in l2) *)
Theorem C15_certificate_bound : forall (f y g : list R) (s : R),
  (0 < length f)%nat -> length f = length y -> length y = length g -> 0 <= s ->
  sse NR f y <= sse NR g y + s ->
  RMSE f g <= 2 * RMSE y g + sqrt (s / INR (length f)).
Proof. exact certificate_rmse. Qed.
Print Assumptions C15_certificate_bound.

(* |y_i - g_i| <= eps g_i  ->  RMSE(y,g) <= eps sqrt(mean g^2) *)
Theorem C15_noise_bound : forall (eps : R) (y g : list R), 0 <= eps ->
  Forall2 (fun yi gi => Rabs (yi - gi) <= eps * gi) y g ->
  RMSE y g <= eps * RMS g.
Proof. exact noise_rmse. Qed.
Print Assumptions C15_noise_bound.

Theorem C15_rmse_from_certificate : forall (eps s : R) (f y g : list R),
  (0 < length f)%nat -> length f = length y -> 0 <= eps -> 0 <= s ->
  Forall2 (fun yi gi => Rabs (yi - gi) <= eps * gi) y g ->
  sse NR f y <= sse NR g y + s ->
  RMSE f g <= 2 * eps * RMS g + sqrt (s / INR (length f)).
Proof. exact rmse_from_certificate. Qed.
Print Assumptions C15_rmse_from_certificate.

(* the same, normalised by the mean usage m: NRMSE(f,g) <= 0.02 kappa + sqrt(s/n)/m with kappa = RMS(g)/m *)
Theorem C15_nrmse_from_certificate : forall (s m : R) (f y g : list R),
  (0 < length f)%nat -> length f = length y -> 0 <= s -> 0 < m ->
  Forall2 (fun yi gi => Rabs (yi - gi) <= 1 / 100 * gi) y g ->
  sse NR f y <= sse NR g y + s ->
  RMSE f g / m <= 2 / 100 * (RMS g / m) + sqrt (s / INR (length f)) / m.
Proof.
  intros s m f y g Hn L Hs Hm Hnoise Hc.
  pose proof (rmse_from_certificate (1 / 100) s f y g Hn L ltac:(lra) Hs Hnoise Hc) as H.
  unfold Rdiv at 1. apply Rmult_le_reg_r with m; [exact Hm|].
  rewrite Rmult_assoc, Rinv_l, Rmult_1_r by lra.
  replace ((2 / 100 * (RMS g / m) + sqrt (s / INR (length f)) / m) * m)
    with (2 * (1 / 100) * RMS g + sqrt (s / INR (length f))) by (field; lra).
  exact H.
Qed.
Print Assumptions C15_nrmse_from_certificate.

(* ------------------------------------------------------------------ the decisions evaluated on every fitted model *)

Theorem C15_nrmse_decision : forall (lim m : R) (f g : list R), 0 <= lim -> 0 <= m ->
  nrmse_ok NR lim f g m = true <-> RMSE f g <= lim * m.
Proof. exact nrmse_ok_spec. Qed.
Print Assumptions C15_nrmse_decision.

Theorem C15_load_decision : forall (lim : R) (load usage : list R),
  load_ok NR lim load usage = true <-> nsum NR load <= lim * nsum NR usage.
Proof. intros. unfold load_ok. change (@n_leb NR) with Rleb. rewrite Rleb_true. reflexivity. Qed.
Print Assumptions C15_load_decision.

Theorem C15_thresholds : five_pct NR = 5 / 100 /\ one_pct NR = 1 / 100.
Proof. split; [exact five_pct_R | exact one_pct_R]. Qed.
Print Assumptions C15_thresholds.

(* ------------------------------------------------------------------ the truth is a feasible point *)

(* the generating building, as a stored document, IS the generating curve (and its two loads) at every temperature *)
Theorem C15_generator_document : forall (p : building NR) (tc : tconstr NR), inside p tc -> forall T : R,
  predict_submodel NR (doc_of NR p) tc T = Some (gen_curve NR p T, gen_heat NR p T, gen_cool NR p T).
Proof.
  intros p [Tmin Tmax Tminseg Tmaxseg] (B & Hh & Hc & I) T.
  unfold doc_of, gen_curve, gen_heat, gen_cool in *. rewrite !npos_pos.
  change (@n_add NR) with Rplus. change (@n_mul NR) with Rmult. change (@n_sub NR) with Rminus.
  destruct (shape_cases p) as [(Eh & Ec & Es)|[(Eh & Ec & Es)|[(Eh & Ec & Es)|(Eh & Ec & Es)]]];
    rewrite Es in *; destruct p as [base bh bph bc bpc]; cbn [b_base b_hbeta b_hbp b_cbeta b_cbp] in *;
    change (@n_opp NR) with Ropp; change (carrier NR) with R in *.
  - subst bh bc. rewrite predict_tidd by reflexivity. cbn [intercept].
    apply f_equal. apply triple_eq; ring.
  - subst bh. destruct I as [I1 I2].
    rewrite (predict_unsmoothed _ _ bpc 0 bpc bc base T);
      [| apply (eff_cool lo hi); [lra | exact I1] | lra | lra | lra | left; intros _; exact I2].
    apply f_equal. apply triple_eq; ring.
  - subst bc. destruct I as [I1 I2].
    rewrite (predict_unsmoothed _ _ bph (- - bh) bph 0 base T);
      [| apply (eff_heat lo hi); [lra | exact I1] | lra | lra | lra | left; intros _; exact I2].
    apply f_equal. apply triple_eq; ring.
  - destruct I as (I1 & I2 & I3 & I4 & I5).
    rewrite (predict_unsmoothed _ _ bph bh bpc bc base T);
      [| apply (eff_full lo hi); [exact I3 | right; split; assumption] | lra | lra | lra | left; intros _; exact I5].
    reflexivity.
Qed.
Print Assumptions C15_generator_document.

(* it lies in the box of the final fit as the code constructs it *)
Theorem C15_generator_in_box : forall (p : building NR) (nmin : nat) (T obs : list R) (incoming : list (R * R)),
  0 <= b_hbeta p -> 0 <= b_cbeta p ->
  days_ok p nmin T -> slope_rows_ok p incoming -> icpt_ok p obs ->
  exists box, final_box NR (key_of_shape (shape_of NR p)) nmin T obs incoming = Some box /\
              in_box NR box (raw_of NR p) = true.
Proof. exact generator_in_box. Qed.
Print Assumptions C15_generator_in_box.

(* "at least a month of days in each regime" is what the segment bounds need (segment_minimum_count is 6 or 10) *)
Theorem C15_month_of_days_suffices : forall (p : building NR) (nmin d : nat) (T : list R),
  (1 <= nmin < d)%nat -> family_days NR d p T = true -> days_ok p nmin T.
Proof.
  intros p nmin d T Hn F. unfold family_days, cold_days, hot_days in F.
  change (@n_eqb NR (b_hbeta p) n_zero) with (Reqb (b_hbeta p) 0) in F.
  change (@n_eqb NR (b_cbeta p) n_zero) with (Reqb (b_cbeta p) 0) in F.
  apply andb_true_iff in F. destruct F as [F Fflat]. apply andb_true_iff in F. destruct F as [Fc Fh].
  apply Nat.leb_le in Fflat.
  split; intros Hb.
  - rewrite (proj2 (Reqb_false _ _) Hb) in Fc. apply Nat.leb_le in Fc.
    pose proof (count_lt_le (b_hbp p) T). pose proof (flat_days_heating p T Hb). lia.
  - rewrite (proj2 (Reqb_false _ _) Hb) in Fh. apply Nat.leb_le in Fh.
    pose proof (count_gt_ge (b_cbp p) T). pose proof (flat_days_cooling p T Hb). lia.
Qed.
Print Assumptions C15_month_of_days_suffices.

Theorem C15_family_feasible : forall (p : building NR) (nmin : nat) (T obs : list R) (incoming : list (R * R)),
  0 <= b_hbeta p -> 0 <= b_cbeta p -> (1 <= nmin < 30)%nat ->
  family_days NR 30 p T = true -> slope_rows_ok p incoming -> icpt_ok p obs ->
  exists box, final_box NR (key_of_shape (shape_of NR p)) nmin T obs incoming = Some box /\
              in_box NR box (raw_of NR p) = true.
Proof.
  intros p nmin T obs incoming Hh Hc Hn F Hs Hi.
  apply generator_in_box; try assumption. apply (C15_month_of_days_suffices p nmin 30 T Hn F).
Qed.
Print Assumptions C15_family_feasible.

(* the order statistics behind the balance-point rows *)
Theorem C15_segment_bounds : forall (b : R) (nmin : nat) (T : list R),
  ((nmin < count_le NR b T)%nat -> fst (seg_bounds NR nmin T) <= b) /\
  ((1 <= nmin)%nat -> (nmin <= count_ge NR b T)%nat -> b <= snd (seg_bounds NR nmin T)).
Proof. intros b nmin T. split; [apply seg_lo_le | apply seg_hi_ge]. Qed.
Print Assumptions C15_segment_bounds.

(* ------------------------------------------------------------------ the final box from the initial fit (get_bnds) *)

Print get_bnds_row.
Print final_box_from_initial.
Print near.
Print initial_near.

(* fit_final_model builds the slope / smoothing rows of the final fit as  x0 -+ |x0| final_bounds_scalar  around the
   initial fit's result x0 (-+ 10 scalar around a zero entry): a value within that relative distance lies in the row *)
Theorem C15_get_bnds_row : forall s x0 v : R, near s x0 v ->
  fst (get_bnds_row NR s x0) <= v <= snd (get_bnds_row NR s x0).
Proof. exact get_bnds_row_in. Qed.
Print Assumptions C15_get_bnds_row.

(* so the generating building is feasible for the box of the final fit as the code derives it from the initial fit
   (no row taken on trust): the opaque hypothesis slope_rows_ok of C15_generator_in_box becomes a condition on the
   initial fit's slopes, which harness/c15.py evaluates on every fit *)
Theorem C15_generator_in_box_from_initial_fit : forall (p : building NR) (nmin : nat) (T obs : list R) (s : R) (x0 : list R),
  0 <= b_hbeta p -> 0 <= b_cbeta p ->
  days_ok p nmin T -> initial_near p s x0 -> icpt_ok p obs ->
  exists box, final_box_from_initial NR (key_of_shape (shape_of NR p)) nmin T obs s x0 = Some box /\
              in_box NR box (raw_of NR p) = true.
Proof.
  intros p nmin T obs s x0 Hh Hc Hd Hn Hi. unfold final_box_from_initial.
  apply generator_in_box; try assumption. apply slope_rows_from_initial. exact Hn.
Qed.
Print Assumptions C15_generator_in_box_from_initial_fit.

(* with the method's final_bounds_scalar = 1 the condition reads: the initial slope is at least half the generating one *)
Theorem C15_half_the_slope_suffices : forall x0 v : R, 0 < x0 -> 0 <= v <= 2 * x0 -> near 1 x0 v.
Proof.
  intros x0 v Hx [H1 H2]. split; [intros E; lra|]. intros _.
  rewrite (Rabs_right x0) by lra. unfold Rabs. destruct (Rcase_abs (v - x0)); lra.
Qed.
Print Assumptions C15_half_the_slope_suffices.

(* ------------------------------------------------------------------ out of sample, from the stored parameters *)

Print param_gap.
Print side_gap_n.
Print free_bp.

(* a stored document (admissible, off the corner: C11) stays within param_gap of the generating curve at EVERY temperature
   of the range: |intercept - base| + per side |slope difference| x reach of the range beyond the balance point
   + slope x |balance-point difference| + slope x smoothing length *)
Theorem C15_parameters_close_curve_close : forall (c : coeffs NR) (tc : tconstr NR) (p : building NR) (Tlo Thi T : R),
  admissible lo hi c tc -> off_corner lo hi c tc -> Tlo <= T <= Thi ->
  Rabs (predicted lo hi c tc T - gen_curve NR p T) <= param_gap NR (eff lo hi c tc) p Tlo Thi.
Proof.
  intros c tc p Tlo Thi T A O HT.
  rewrite (predicted_curve lo hi Hlo Hhi c tc A O T).
  destruct (eff_good lo hi c tc A) as (_ & G & I). unfold RNum in *. rewrite <- I.
  apply uniform_gap; assumption.
Qed.
Print Assumptions C15_parameters_close_curve_close.

(* hence the statement's out-of-sample inequality for EVERY weather year whose temperatures stay in the range
   (harness/c15.py evaluates param_gap for every fitted model and reports for how many it is below 5 % of the base load) *)
Theorem C15_out_of_sample_from_parameters : forall (c : coeffs NR) (tc : tconstr NR) (p : building NR)
    (Tlo Thi lim m : R) (T2 : list R),
  admissible lo hi c tc -> off_corner lo hi c tc -> 0 <= lim -> 0 <= m ->
  Forall (fun t => Tlo <= t <= Thi) T2 ->
  param_gap NR (eff lo hi c tc) (free_bp NR p (eff lo hi c tc)) Tlo Thi <= lim * m ->
  nrmse_ok NR lim (map (predicted lo hi c tc) T2) (map (gen_curve NR p) T2) m = true.
Proof.
  intros c tc p Tlo Thi lim m T2 A O Hl Hm HT HD.
  apply nrmse_ok_spec; [exact Hl | exact Hm |].
  eapply Rle_trans; [|exact HD]. apply rmse_pointwise.
  - apply param_gap_nonneg. apply (eff_good lo hi c tc A).
  - induction HT as [|t T2 Ht HT IH]; cbn [map]; constructor; [|exact IH].
    rewrite <- (free_bp_same_curve p (eff lo hi c tc) t). apply C15_parameters_close_curve_close; assumption.
Qed.
Print Assumptions C15_out_of_sample_from_parameters.

Theorem C15_pointwise_bound_gives_rmse : forall (D : R) (f g : list R), 0 <= D ->
  Forall2 (fun a b => Rabs (a - b) <= D) f g -> RMSE f g <= D.
Proof. exact rmse_pointwise. Qed.
Print Assumptions C15_pointwise_bound_gives_rmse.

(* ------------------------------------------------------------------ no load where there is no slope *)

(* a model stored as temperature independent: prediction = intercept, zero heating and cooling load, at every
   temperature, whatever its other fields and temperature constraints *)
Theorem C15_flat_has_no_load : forall (c : coeffs NR) (tc : tconstr NR) (T : R), model_type c = Tidd ->
  predict_submodel NR c tc T = Some (intercept c, 0, 0).
Proof. exact predict_tidd. Qed.
Print Assumptions C15_flat_has_no_load.

Theorem C15_no_heating_slope_no_heating_load : forall (c : coeffs NR) (tc : tconstr NR),
  admissible lo hi c tc -> off_corner lo hi c tc -> heat_slope lo hi c = 0 ->
  forall T : R, heating_load lo hi c tc T = 0.
Proof.
  intros c tc A O Hs T. rewrite (heating_load_closed lo hi Hlo Hhi c tc A O T). unfold heat_part.
  destruct (eff_good lo hi c tc A) as (_ & (_ & G2 & _) & _). destruct (eff_slopes_le lo hi c tc A) as [S _].
  replace (x_hdd_beta (eff lo hi c tc)) with 0 by lra. apply branch_zero_slope.
Qed.
Print Assumptions C15_no_heating_slope_no_heating_load.

Theorem C15_no_cooling_slope_no_cooling_load : forall (c : coeffs NR) (tc : tconstr NR),
  admissible lo hi c tc -> off_corner lo hi c tc -> cool_slope lo hi c = 0 ->
  forall T : R, cooling_load lo hi c tc T = 0.
Proof.
  intros c tc A O Hs T. rewrite (cooling_load_closed lo hi Hlo Hhi c tc A O T). unfold cool_part.
  destruct (eff_good lo hi c tc A) as (_ & (_ & _ & G3 & _) & _). destruct (eff_slopes_le lo hi c tc A) as [_ S].
  replace (x_cdd_beta (eff lo hi c tc)) with 0 by lra. apply branch_zero_slope.
Qed.
Print Assumptions C15_no_cooling_slope_no_cooling_load.

(* ------------------------------------------------------------------ non-vacuity *)

(* three days; the fit misses one observation by 1, the generator is exact: certificate with s = 1 *)
Example ex_certificate :
  let f := [10; 20; 30] in let y := [10; 21; 30] in let g := [10; 21; 30] in
  (0 < length f)%nat /\ length f = length y /\ length y = length g /\
  sse NR f y <= sse NR g y + 1 /\ RMSE f g <= 2 * RMSE y g + sqrt (1 / INR (length f)).
Proof.
  cbv zeta. assert (H : sse NR [10; 20; 30] [10; 21; 30] <= sse NR [10; 21; 30] [10; 21; 30] + 1).
  { cbn. lra. }
  repeat split; try reflexivity; try (cbn; lia); try exact H.
  apply C15_certificate_bound; try reflexivity; try (cbn; lia); try lra; try exact H.
Qed.

(* 1 % noise on two days *)
Example ex_noise : Forall2 (fun yi gi => Rabs (yi - gi) <= 1 / 100 * gi) [101; 198] [100; 200] /\
                   RMSE [101; 198] [100; 200] <= 1 / 100 * RMS [100; 200].
Proof.
  assert (H : Forall2 (fun yi gi => Rabs (yi - gi) <= 1 / 100 * gi) [101; 198] [100; 200]).
  { apply Forall2_cons; [|apply Forall2_cons; [|apply Forall2_nil]].
    - replace (101 - 100) with 1 by ring. rewrite Rabs_R1. lra.
    - replace (198 - 200) with (Ropp 2) by ring. rewrite Rabs_Ropp, Rabs_right by lra. lra. }
  split; [exact H|]. apply C15_noise_bound; [lra | exact H].
Qed.

(* a building that heats and cools, strictly inside a fitted temperature range *)
Definition ex_p : building NR := Build_building NR 20 (12 / 10) 52 (8 / 10) 68.
Definition ex_tc : tconstr NR := Build_tconstr NR 25 95 30 90.
Example ex_inside : inside ex_p ex_tc.
Proof.
  unfold inside. rewrite (shape_of_both ex_p) by (cbn; lra). unfold bounds_ok. cbn. lra.
Qed.
Example ex_document_at_40F :
  predict_submodel NR (doc_of NR ex_p) ex_tc 40 = Some (gen_curve NR ex_p 40, gen_heat NR ex_p 40, gen_cool NR ex_p 40).
Proof. apply C15_generator_document. exact ex_inside. Qed.

(* heating-only, flat and cooling-only buildings satisfy [inside] too *)
Example ex_inside_all_shapes :
  inside (Build_building NR 20 1 52 0 68) ex_tc /\ inside (Build_building NR 20 0 52 1 68) ex_tc /\
  inside (Build_building NR 20 0 52 0 68) ex_tc.
Proof.
  unfold inside. rewrite shape_of_heat, shape_of_cool, shape_of_flat by (cbn; lra). unfold bounds_ok. cbn. lra.
Qed.

Definition ex_h : building NR := Build_building NR 20 1 50 0 70.

(* a month of days in each regime: d = 2 on a toy year *)
Example ex_month_of_days : days_ok ex_h 1 [40; 45; 60; 65].
Proof.
  apply (C15_month_of_days_suffices ex_h 1 2); [lia|].
  unfold family_days, cold_days, hot_days, flat_days, count_lt, count_gt, count, in_flat, ex_h.
  cbn [b_hbeta b_cbeta b_hbp b_cbp filter].
  change (@n_eqb NR 1 n_zero) with (Reqb 1 0). change (@n_eqb NR 0 n_zero) with (Reqb 0 0).
  rewrite (proj2 (Reqb_false 1 0)) by lra. rewrite (proj2 (Reqb_true 0 0)) by reflexivity.
  change (@n_ltb NR) with Rltb. change (@n_leb NR) with Rleb.
  rewrite (proj2 (Rltb_true 40 50)) by lra. rewrite (proj2 (Rltb_true 45 50)) by lra.
  rewrite (proj2 (Rltb_false 60 50)) by lra. rewrite (proj2 (Rltb_false 65 50)) by lra.
  rewrite (proj2 (Rleb_false 50 40)) by lra. rewrite (proj2 (Rleb_false 50 45)) by lra.
  rewrite (proj2 (Rleb_true 50 60)) by lra. rewrite (proj2 (Rleb_true 50 65)) by lra.
  reflexivity.
Qed.

(* a heating-only building, four days, segment minimum 1: hypotheses of C15_generator_in_box *)
Example ex_in_box :
  exists box, final_box NR (key_of_shape (shape_of NR ex_h)) 1 [40; 45; 60; 65] [20] [(0, 0); (- 2, 0); (0, 0)] = Some box /\
              in_box NR box (raw_of NR ex_h) = true.
Proof.
  apply C15_generator_in_box.
  - cbn. lra.
  - cbn. lra.
  - exact ex_month_of_days.
  - unfold slope_rows_ok. rewrite (shape_of_heat ex_h) by (cbn; lra). cbn. lra.
  - unfold icpt_ok, ex_h. cbn [b_base]. rewrite !quantile_singleton. lra.
Qed.

(* the same building, the box derived from an initial fit that found slope -0.8 (generator -1), scalar 1 *)
Example ex_in_box_from_initial :
  exists box, final_box_from_initial NR (key_of_shape (shape_of NR ex_h)) 1 [40; 45; 60; 65] [20] 1 [49; - (8 / 10); 21] = Some box /\
              in_box NR box (raw_of NR ex_h) = true.
Proof.
  apply C15_generator_in_box_from_initial_fit.
  - cbn. lra.
  - cbn. lra.
  - exact ex_month_of_days.
  - unfold initial_near. rewrite (shape_of_heat ex_h) by (cbn; lra). cbn [ex_h b_hbeta].
    split; [intros E; lra|]. intros _.
    unfold Rabs. repeat match goal with |- context [Rcase_abs ?x] => destruct (Rcase_abs x) end; lra.
  - unfold icpt_ok, ex_h. cbn [b_base]. rewrite !quantile_singleton. lra.
Qed.


(* a stored two-sided document whose base load is off by 0.1: within 5 % of a mean usage of 20 on every weather year
   between 0 F and 100 F *)
Definition ex_fit_doc : coeffs NR := Build_coeffs NR HddTiddCdd (201 / 10) (Some 52) (Some (12 / 10)) None (Some 68) (Some (8 / 10)) None.
Example ex_out_of_sample : forall T2 : list R, Forall (fun t => 0 <= t <= 100) T2 ->
  nrmse_ok NR (5 / 100) (map (predicted lo hi ex_fit_doc ex_tc) T2) (map (gen_curve NR ex_p) T2) 20 = true.
Proof.
  intros T2 HT.
  assert (A : admissible lo hi ex_fit_doc ex_tc) by (unfold admissible, bounds_ok; cbn; lra).
  assert (O : off_corner lo hi ex_fit_doc ex_tc)
    by (apply (upper_below_Tmax_off_corner lo hi ex_fit_doc ex_tc A); cbn; lra).
  apply (C15_out_of_sample_from_parameters ex_fit_doc ex_tc ex_p 0 100); try assumption; try lra.
  unfold eff, ex_fit_doc, ex_tc. unfold RNum. rewrite (eff_full lo hi) by lra. unfold mkx.
  rewrite param_gap_R. unfold side_gap, free_bp, ex_p. cbn [x_intercept x_hdd_beta x_hdd_k x_hdd_bp x_cdd_beta x_cdd_k x_cdd_bp b_base b_hbeta b_hbp b_cbeta b_cbp].
  change (@n_eqb (RNumOf lo hi) (12 / 10) n_zero) with (Reqb (12 / 10) 0).
  change (@n_eqb (RNumOf lo hi) (8 / 10) n_zero) with (Reqb (8 / 10) 0).
  rewrite (proj2 (Reqb_false (12 / 10) 0)) by lra. rewrite (proj2 (Reqb_false (8 / 10) 0)) by lra.
  replace (12 / 10 - 12 / 10) with 0 by lra. replace (8 / 10 - 8 / 10) with 0 by lra.
  replace (52 - (52 - 0)) with 0 by lra. replace (68 - (68 + 0)) with 0 by lra.
  replace (201 / 10 - 20) with (1 / 10) by lra.
  rewrite Rabs_R0, (Rabs_right (1 / 10)) by lra. lra.
Qed.

(* a stored cooling-only document is admissible, off the corner, has no heating slope: no heating load anywhere *)
Definition ex_cool_doc : coeffs NR := Build_coeffs NR TiddCdd 20 None None None (Some 68) (Some 1) None.
Example ex_cool_doc_no_heating : forall T : R, heating_load lo hi ex_cool_doc ex_tc T = 0.
Proof.
  assert (A : admissible lo hi ex_cool_doc ex_tc) by (unfold admissible, bounds_ok; cbn; lra).
  apply C15_no_heating_slope_no_heating_load.
  - exact A.
  - apply (upper_below_Tmax_off_corner lo hi ex_cool_doc ex_tc A). cbn. lra.
  - reflexivity.
Qed.

Example ex_flat_doc : predict_submodel NR (Build_coeffs NR Tidd 20 None None None None None None) ex_tc 10 = Some (20, 0, 0).
Proof. apply C15_flat_has_no_load. reflexivity. Qed.

(* the same document through the binary64 instance of the same text (what harness/c15.py evaluates) *)
Module Binary64.
Import PrimFloat.
Definition ex_pf : building FNum := Build_building FNum 20%float 0x1.3333333333333p+0%float 52%float 0x1.999999999999ap-1%float 68%float.
Definition ex_tcf : tconstr FNum := Build_tconstr FNum 25%float 95%float 30%float 90%float.
Example ex_document_binary64 :
  predict_submodel FNum (doc_of FNum ex_pf) ex_tcf 40%float
  = Some (gen_curve FNum ex_pf 40%float, gen_heat FNum ex_pf 40%float, gen_cool FNum ex_pf 40%float)
  /\ predict_submodel FNum (doc_of FNum ex_pf) ex_tcf 80%float
  = Some (gen_curve FNum ex_pf 80%float, gen_heat FNum ex_pf 80%float, gen_cool FNum ex_pf 80%float).
Proof. split; reflexivity. Qed.

(* the comparison functions harness/c15.py calls, on a toy fitted model that IS the generator: two baseline days, one
   second-year day; every aggregate the harness would send is what the model computes, the verdicts are "holds" *)
Definition toy_sub : RecoveryRun.sub := (doc_of FNum ex_pf, ex_tcf).
Definition toy_base : list brow :=
  [ (0%nat, 40%float, gen_curve FNum ex_pf 40%float, gen_curve FNum ex_pf 40%float, gen_heat FNum ex_pf 40%float, gen_cool FNum ex_pf 40%float);
    (0%nat, 80%float, gen_curve FNum ex_pf 80%float, gen_curve FNum ex_pf 80%float, gen_heat FNum ex_pf 80%float, gen_cool FNum ex_pf 80%float) ].
Definition toy_year2 : list yrow :=
  [ (0%nat, 60%float, gen_curve FNum ex_pf 60%float, gen_heat FNum ex_pf 60%float, gen_cool FNum ex_pf 60%float) ].
Definition toy_sent : sent :=
  let y := map (fun r : brow => let '(_, _, y, _, _, _) := r in y) toy_base in
  {| s_mse_in := 0; s_mean_in := mean FNum y; s_mse_out := 0; s_mean_out := gen_curve FNum ex_pf 60%float;
     s_heat_in := gen_heat FNum ex_pf 40%float; s_cool_in := gen_cool FNum ex_pf 80%float; s_use_in := nsum FNum y;
     s_heat_out := 0; s_cool_out := 0; s_use_out := gen_curve FNum ex_pf 60%float;
     s_sse_fy := 0; s_sse_gy := 0;
     s_nrmse_in_ok := true; s_nrmse_out_ok := true;
     s_heat_in_ok := false; s_cool_in_ok := false; s_heat_out_ok := true; s_cool_out_ok := true |}.
Example ex_check_fit : check_any (AFit (ex_pf, [toy_sub], toy_base, toy_year2, toy_sent)) = true.
Proof. reflexivity. Qed.
(* ... and it notices a wrong verdict and a wrong prediction *)
Example ex_check_fit_rejects :
  check_any (AFit (ex_pf, [toy_sub], toy_base, toy_year2,
                   {| s_mse_in := 0; s_mean_in := s_mean_in toy_sent; s_mse_out := 0; s_mean_out := s_mean_out toy_sent;
                      s_heat_in := s_heat_in toy_sent; s_cool_in := s_cool_in toy_sent; s_use_in := s_use_in toy_sent;
                      s_heat_out := 0; s_cool_out := 0; s_use_out := s_use_out toy_sent; s_sse_fy := 0; s_sse_gy := 0;
                      s_nrmse_in_ok := false; s_nrmse_out_ok := true;
                      s_heat_in_ok := false; s_cool_in_ok := false; s_heat_out_ok := true; s_cool_out_ok := true |})) = false
  /\ check_any (AFit (ex_pf, [toy_sub], (0%nat, 40%float, 30%float, 31%float, 0%float, 0%float) :: toy_base, toy_year2, toy_sent)) = false.
Proof. split; reflexivity. Qed.
(* the box of a cooling-only fit on five days, as Model/Recovery.v constructs it, and a narrowed intercept row *)
Example ex_check_box :
  check_any (AFinalBox (KC, 1%nat, [50; 60; 70; 80; 90]%float, [10; 10; 10; 20; 30]%float,
                        [(60, 90); (0, 2); (10, 0x1.d99999999999ap+4)]%float)) = true
  /\ check_any (AFinalBox (KC, 1%nat, [50; 60; 70; 80; 90]%float, [10; 10; 10; 20; 30]%float,
                           [(60, 90); (0, 2); (10, 20)]%float)) = false.
Proof. split; reflexivity. Qed.
(* the same box derived from the initial fit's result [bp 70; slope 1; intercept 10] with final_bounds_scalar 1:
   slope row 1 -+ 1; with another scalar the recorded row no longer matches *)
Example ex_check_box_from_initial :
  check_any (AFinalFromInitial (KC, 1%nat, [50; 60; 70; 80; 90]%float, [10; 10; 10; 20; 30]%float, 1%float,
                                [70; 1; 10]%float, [(60, 90); (0, 2); (10, 0x1.d99999999999ap+4)]%float)) = true
  /\ check_any (AFinalFromInitial (KC, 1%nat, [50; 60; 70; 80; 90]%float, [10; 10; 10; 20; 30]%float, 2%float,
                                   [70; 1; 10]%float, [(60, 90); (0, 2); (10, 0x1.d99999999999ap+4)]%float)) = false.
Proof. split; reflexivity. Qed.
End Binary64.
