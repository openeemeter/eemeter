(* C04 — the disqualification gate is fail-closed and survives storage.
   Model: Model/Gate.v (guard order per family as coded; the numeric fit is the oracle [poor]).
   Every statement holds for an arbitrary oracle. *)
From Coq Require Import ZArith List Bool.
From V Require Import Model.Gate Proofs.GateProofs.
From V Require Import Generated.GateGen Proofs.GateGenProofs.
Import ListNotations.
Open Scope Z_scope.

(* fit on well-typed baseline data raises DataSufficiencyError exactly when the data carries a
   disqualification and the override is not given; otherwise it returns a fitted model (the only other
   outcome is the explicit-GHI configuration error of the hourly model) *)
Theorem C04_fit_gate : forall poor f s d i, is_baseline_of f (d_kind d) = true ->
  (snd (fit poor f s d i) = Err DataSufficiency <-> (d_dq d <> [] /\ i = false)) /\
  (snd (fit poor f s d i) = Fitted \/ snd (fit poor f s d i) = Err DataSufficiency \/
   (f = Hourly /\ m_ghi s = true /\ d_ghi d = false /\ snd (fit poor f s d i) = Err ValueMissingFeature)).
Proof.
  intros poor f s d i Hb.
  destruct (fit_spec poor f s d i) as [Hb'|_ Hq Hi|_ Hq Hf Hm Hd|s' _ Hq _ _ _]; cbn [snd].
  - congruence.
  - split; [tauto | right; left; reflexivity].
  - split; [|right; right; tauto]. split; [discriminate | intros [Hn Hi]; destruct Hq; congruence].
  - split; [|left; reflexivity]. split; [discriminate | intros [Hn Hi]; destruct Hq; congruence].
Qed.
Print Assumptions C04_fit_gate.

(* in particular an object restored from storage can be fitted again like any other *)
Definition ex_hclean := {| d_id := 1; d_kind := Baseline Hourly; d_dq := []; d_tz := 3; d_ghi := false |}.
Example C04_refit_of_reloaded_hourly :
  snd (fit (fun _ => false) Hourly (reload (unfitted false)) ex_hclean false) = Fitted.
Proof. vm_compute. reflexivity. Qed.

Theorem C04_fit_wrong_type : forall poor f s d i, is_baseline_of f (d_kind d) = false ->
  fit poor f s d i = (s, Err TypeErr).
Proof. intros poor f s d i H. unfold fit. rewrite H. reflexivity. Qed.
Print Assumptions C04_fit_wrong_type.

(* a fitted model inherits the data's disqualifications and gets the poor-fit one on top *)
Theorem C04_fit_inherits : forall poor f s d i, snd (fit poor f s d i) = Fitted ->
  let s' := fst (fit poor f s d i) in
  fitted s' = true /\ m_tz s' = d_tz d /\
  m_dq s' = d_dq d ++ (if poor d then [POOR_FIT] else []) /\
  (d_dq d = [] \/ i = true).
Proof.
  intros poor f s d i. destruct (fit_spec poor f s d i); cbn [fst snd]; try discriminate.
  intros _. repeat split; assumption.
Qed.
Print Assumptions C04_fit_inherits.

Theorem C04_failed_fit_keeps_object : forall poor f s d i e,
  snd (fit poor f s d i) = Err e -> fst (fit poor f s d i) = s.
Proof.
  intros poor f s d i e. destruct (fit_spec poor f s d i); cbn [fst snd]; try reflexivity. discriminate.
Qed.
Print Assumptions C04_failed_fit_keeps_object.

(* predict raises DisqualifiedModelError exactly when the model carries a disqualification and the
   override is not given, and returns a frame exactly otherwise *)
Theorem C04_predict_gate : forall f s d i, guards_ok f s d ->
  (predict f s d i = Err Disqualified <-> (m_dq s <> [] /\ i = false)) /\
  (predict f s d i = Frame <-> (m_dq s = [] \/ i = true)).
Proof.
  intros f s d i H. rewrite (predict_behind_guards f s d i H), <- disq_test_true, <- disq_test_false.
  destruct (nonempty (m_dq s) && negb i); repeat split; congruence.
Qed.
Print Assumptions C04_predict_gate.

(* fail-closed: unfitted model, foreign data type, or another time zone never yield a prediction *)
Theorem C04_never_predicts_when_bad : forall f s d i,
  fitted s = false \/ is_data_of f (d_kind d) = false \/ m_tz s <> d_tz d ->
  exists e, predict f s d i = Err e.
Proof.
  intros f s d i H. destruct (predict_frame_or_error f s d i) as [E|E]; [|exact E].
  apply predict_frame_iff in E. destruct E as [(H1 & H2 & H3 & _) _]. destruct H as [H|[H|H]]; congruence.
Qed.
Print Assumptions C04_never_predicts_when_bad.

Theorem C04_frame_only_behind_guards : forall f s d i, predict f s d i = Frame ->
  guards_ok f s d /\ (m_dq s = [] \/ i = true).
Proof. intros f s d i. apply predict_frame_iff. Qed.
Print Assumptions C04_frame_only_behind_guards.

(* ... also after to_json / from_json *)
Theorem C04_gate_survives_storage : forall f s d i, fitted s = true ->
  predict f (reload s) d i = predict f s d i /\
  m_dq (reload s) = m_dq s /\ m_tz (reload s) = m_tz s /\ fitted (reload s) = true.
Proof.
  intros f s d i Hf. split; [|repeat split].
  apply predict_same_view. unfold reload, predict_view. cbn [fitted m_dq m_tz m_ghi]. rewrite Hf. reflexivity.
Qed.
Print Assumptions C04_gate_survives_storage.

(* ... and after any history of fits (of other meters too), predictions and store/load cycles *)
Theorem C04_history_frame_guarded : forall poor f g ops d i,
  let s := fst (run poor f (unfitted g) ops) in
  snd (step poor f s (OPredict d i)) = Some Frame ->
  guards_ok f s d /\ (m_dq s = [] \/ i = true) /\
  exists d0, m_dq s = d_dq d0 ++ (if poor d0 then [POOR_FIT] else []) /\ m_tz s = d_tz d0.
Proof.
  intros poor f g ops d i s H. cbn [step snd] in H. injection H as H.
  apply predict_frame_iff in H. destruct H as [Hg Hq]. split; [exact Hg|]. split; [exact Hq|].
  destruct (gate_run_dq_of_fit poor f ops (unfitted g)) as [HI|HI]; [left; reflexivity | | exact HI].
  destruct Hg as [Hf _]. fold s in HI. congruence.
Qed.
Print Assumptions C04_history_frame_guarded.

(* non-vacuity: a disqualified baseline fitted with the override, stored, reloaded, then predicted *)
Definition ex_short := {| d_id := 1; d_kind := Baseline Daily; d_dq := [7]; d_tz := 3; d_ghi := false |}.
Definition ex_rep := {| d_id := 2; d_kind := Reporting Daily; d_dq := []; d_tz := 3; d_ghi := false |}.
Example C04_nonvacuous :
  snd (run (fun _ => true) Daily (unfitted false)
        [OFit ex_short false; OFit ex_short true; OReload; OPredict ex_rep false; OPredict ex_rep true]) =
  [Some (Err DataSufficiency); Some Fitted; None; Some (Err Disqualified); Some Frame] /\
  m_dq (fst (run (fun _ => true) Daily (unfitted false) [OFit ex_short true; OReload])) = [7; POOR_FIT].
Proof. vm_compute. split; reflexivity. Qed.

(* tie to the source (kept last: these are the only statements that depend on Generated/GateGen.v, regenerated on
   every run; a source edit after which [predict] / [fit] are no longer the interpretation of the generated guard
   lists breaks exactly these obligations, and the theorems above, about Model/Gate.v, stay checked) *)
Theorem C04_predict_is_the_source_guard_sequence : forall f s d i,
  predict f s d i = interp_predict f (predict_guards f) s d i.
Proof. exact predict_is_guard_sequence. Qed.
Print Assumptions C04_predict_is_the_source_guard_sequence.

Theorem C04_fit_is_the_source_guard_sequence : forall poor f s d i,
  match interp_fit f (fit_guards f) s d i with
  | Some e => fit poor f s d i = (s, Err e)
  | None => snd (fit poor f s d i) = Fitted
  end.
Proof. exact fit_is_guard_sequence. Qed.
Print Assumptions C04_fit_is_the_source_guard_sequence.

(* non-vacuity: every family's generated lists contain the unfitted, disqualification, time-zone and type guards of
   predict and the type and disqualification guards of fit (membership only, nothing about their order) *)
Example C04_source_guards_present :
  forallb (fun f => existsb (fun g => match g with PDisq => true | _ => false end) (predict_guards f) &&
                    existsb (fun g => match g with PType => true | _ => false end) (predict_guards f) &&
                    existsb (fun g => match g with PTz => true | _ => false end) (predict_guards f) &&
                    existsb (fun g => match g with PUnfitted => true | _ => false end) (predict_guards f) &&
                    existsb (fun g => match g with FDisq => true | _ => false end) (fit_guards f) &&
                    existsb (fun g => match g with FType => true | _ => false end) (fit_guards f))
          [Daily; Billing; Hourly] = true.
Proof. vm_compute. reflexivity. Qed.
