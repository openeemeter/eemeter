(* The hand-written model of Model/TempAgg.v against the table harness/translate_resample.py extracts from
   _DailyData / _BillingData._compute_temperature_features on every run (Generated/TempAggGen.v). *)
From Coq Require Import ZArith QArith List Bool Lia.
From V Require Import Model.Resample Model.Cmp Model.TempAgg Generated.TempAggGen.
Import ListNotations.
Open Scope Z_scope.

(* the share of present readings: not_null / (not_null + null) <op> c, on integers *)
Lemma ratio_test_generated : forall a t, 0 < t -> (2 * a <=? t) = cmpq gen_daily_ratio (a # Z.to_pos t).
Proof.
  intros a t Ht. unfold cmpq, gen_daily_ratio, Qle_bool. cbn [fst snd Qnum Qden]. rewrite Z2Pos.id by exact Ht.
  destruct (Z.leb_spec (2 * a) t); destruct (Z.leb_spec (a * 2) (1 * t)); try reflexivity; lia.
Qed.

(* the billing class' extra test not_null <op> median * c; absent from the daily class *)
Definition share_test (s : option (cop * Q)) (a m2 : Z) : bool :=
  match s with Some t => cmpq (fst t, ((m2 # 2) * snd t)%Q) (inject_Z a) | None => false end.

Lemma share_test_generated : forall a m2,
  share_test gen_daily_median_share a m2 = false /\ share_test gen_billing_median_share a m2 = (4 * a <=? m2).
Proof.
  intros a m2. split; [reflexivity|].
  unfold share_test, gen_billing_median_share, cmpq, Qle_bool. cbn [fst snd Qnum Qden Qmult inject_Z].
  destruct (Z.leb_spec (4 * a) m2); destruct (Z.leb_spec (a * Z.pos (2 * 2)) (m2 * 1 * 1)); try reflexivity; lia.
Qed.

(* hourly_path with the length of the buffer day that closes the last meter day (1440 there) as a parameter *)
Definition hourly_path_buf (buf : Z) (billing : bool) (tol : option Z) (midx : list Z) (temps : list reading) : temp_result :=
  match midx with
  | [] => TRows []
  | _ =>
    let idx := midx ++ [last midx 0 + buf] in
    let rows := removelast (rows_for tol idx temps) in
    if forallb (fun r => negb (is_some (t_mean r))) rows then TErrAllNaN else TRows (apply_half billing rows)
  end.
