(* Lemmas about Model/HourlyFlow.v (property C05): non-interference of the hourly predict pipeline.
   Two frames are related by [same_weather_calendar]: they have the same [strip_day] view.  Every stage reads a frame
   through that view only, except dst_stage (the two tests of [dst_trigger]) and cluster_stage (when a combination is
   missing from the stored table); [ListFacts.map_eq_of_view] turns "reads through the view only" into an equality.
   Names: [x_ni] (non-interference) says that x is the same for two frames with the same view; [x_ext] that x is the same
   for two inputs (and two counting policies) related piece by piece. *)
From Coq Require Import ZArith List Bool Arith.
From V Require Import Model.Dst Model.HourlyFlow Proofs.ListFacts.
Import ListNotations.

Lemma bind_ok : forall (A B : Type) (r : res A) (f : A -> res B) b,
  bind r f = Ok b -> exists a, r = Ok a /\ f a = Ok b.
Proof. intros A B [a|e] f b H; cbn in H; [exists a; auto | discriminate]. Qed.

Lemma combo_eqb_eq : forall a b : combo, combo_eqb a b = true -> a = b.
Proof.
  intros [a1 a2] [b1 b2] E. unfold combo_eqb in E. cbn [fst snd] in E. apply andb_true_iff in E.
  destruct E as [E1 E2]. apply Z.eqb_eq in E1, E2. congruence.
Qed.

Lemma combo_eqb_refl : forall c : combo, combo_eqb c c = true.
Proof. intros [a b]. unfold combo_eqb. cbn [fst snd]. rewrite !Z.eqb_refl. reflexivity. Qed.

Lemma combo_ltb_spec : forall a b : combo,
  combo_ltb a b = true <-> (fst a < fst b \/ (fst a = fst b /\ snd a < snd b))%Z.
Proof.
  intros [a1 a2] [b1 b2]. unfold combo_ltb. cbn [fst snd].
  rewrite orb_true_iff, andb_true_iff, !Z.ltb_lt, Z.eqb_eq. reflexivity.
Qed.

(* _get_dst_indices reads a date only through the two tests == 23 and == 25 on its count, its local hours and the outcome
   of the label lookup (two policies: the counts may be taken differently on the two sides) *)
Definition day_rel (pol pol' : policy) (d d' : day) : Prop :=
  (day_count pol d =? 23) = (day_count pol' d' =? 23) /\ (day_count pol d =? 25) = (day_count pol' d' =? 25) /\
  hours d = hours d' /\ day_loc pol d = day_loc pol' d'.

Lemma interp_loop_ext : forall pol pol' days days', Forall2 (day_rel pol pol') days days' ->
  forall i last, interp_loop pol i days last = interp_loop pol' i days' last.
Proof.
  intros pol pol' days days' H.
  induction H as [|d d' l l' [H23 [_ [Hh Hl]]] _ IH]; intros i last; cbn [interp_loop]; [reflexivity|].
  rewrite H23. destruct (day_count pol' d' =? 23); [|apply IH].
  rewrite Hl. destruct (day_loc pol' d'); [reflexivity|].
  unfold missing_hours. rewrite Hh. destruct (missing_of (hours d')) as [|h [|? ?]]; try reflexivity.
  rewrite IH. reflexivity.
Qed.

Lemma mean_loop_ext : forall pol pol' days days', Forall2 (day_rel pol pol') days days' ->
  forall i last, mean_loop pol i days last = mean_loop pol' i days' last.
Proof.
  intros pol pol' days days' H.
  induction H as [|d d' l l' [_ [H25 [Hh Hl]]] _ IH]; intros i last; cbn [mean_loop]; [reflexivity|].
  rewrite H25. destruct (day_count pol' d' =? 25); [|apply IH].
  rewrite Hl. destruct (day_loc pol' d'); [reflexivity|].
  rewrite Hh. destruct (match first_repeat [] (hours d') with Some h => Some h | None => last end); [|reflexivity].
  rewrite IH. reflexivity.
Qed.

Lemma get_dst_indices_ext : forall pol pol' days days', Forall2 (day_rel pol pol') days days' ->
  get_dst_indices pol days = get_dst_indices pol' days'.
Proof.
  intros pol pol' days days' H. unfold get_dst_indices. rewrite (interp_loop_ext _ _ _ _ H).
  destruct (interp_loop pol' 0 days' None) as [[interp last]|e]; cbn [bind]; [|reflexivity].
  rewrite (mean_loop_ext _ _ _ _ H). reflexivity.
Qed.

Section FlowFacts.
  Context {W O F C Y : Type}.
  Notation hrow := (hrow W O).
  Notation hday := (hday W O).
  Notation frame := (frame W O).
  Variable K : oracles W O F C Y.

  (* no date of the frame has 23 or 25 rows (guard of C05_hourly_ni_blank_regular_partial) *)
  Definition no_short_long (fr : frame) : bool :=
    forallb (fun d : hday => negb (length (h_rows d) =? 23) && negb (length (h_rows d) =? 25)) fr.

  Lemma strip_eq : forall r r' : hrow, strip r = strip r' ->
    r_utc r = r_utc r' /\ combo_of r = combo_of r' /\ r_hour r = r_hour r' /\ r_w r = r_w r'.
  Proof. intros r r' E. injection E as Eu Em Ed Eh Ew. unfold combo_of. rewrite Em, Ed. auto. Qed.

  Lemma strip_day_rows : forall d d' : hday, strip_day d = strip_day d' -> map strip (h_rows d) = map strip (h_rows d').
  Proof. intros d d' E. injection E as Er _. exact Er. Qed.

  Lemma same_wc_rows : forall fr fr' : frame, same_weather_calendar fr fr' ->
    map strip (all_rows fr) = map strip (all_rows fr').
  Proof.
    intros fr fr' H. unfold all_rows. rewrite !concat_map, !map_map. f_equal.
    apply (map_eq_of_view strip_day H). intros d d' _ _ E. exact (strip_day_rows d d' E).
  Qed.

  Lemma index_of_frame_ni : forall fr fr' : frame, same_weather_calendar fr fr' ->
    index_of_frame fr = index_of_frame fr'.
  Proof.
    intros fr fr' H. apply (map_eq_of_view strip (same_wc_rows _ _ H)).
    intros r r' _ _ E. destruct (strip_eq _ _ E) as [Eu _]. exact Eu.
  Qed.

  Lemma combos_of_ni : forall fr fr' : frame, same_weather_calendar fr fr' -> combos_of fr = combos_of fr'.
  Proof.
    intros fr fr' H. unfold combos_of. f_equal. apply (map_eq_of_view strip (same_wc_rows _ _ H)).
    intros r r' _ _ E. destruct (strip_eq _ _ E) as [_ [Ec _]]. exact Ec.
  Qed.

  Lemma ts_matrix_ni : forall ct (fr fr' : frame), same_weather_calendar fr fr' ->
    ts_matrix K ct fr = ts_matrix K ct fr'.
  Proof.
    intros ct fr fr' H. apply (map_eq_of_view strip_day H). intros d d' _ _ E.
    apply (map_eq_of_view strip (strip_day_rows d d' E)). intros r r' _ _ Er.
    destruct (strip_eq _ _ Er) as [_ [Ec [_ Ew]]]. unfold row_label. rewrite Ec, Ew. reflexivity.
  Qed.

  Lemma day_cat_ni : forall ct (fr fr' : frame), same_weather_calendar fr fr' ->
    map (day_cat K ct) fr = map (day_cat K ct) fr'.
  Proof.
    intros ct fr fr' H. apply (map_eq_of_view strip_day H). intros d d' _ _ E.
    pose proof (strip_day_rows d d' E) as Er.
    unfold day_cat. destruct (h_rows d) as [|r rs], (h_rows d') as [|r' rs']; try discriminate; [reflexivity|].
    pose proof (f_equal (hd (strip r)) Er) as Es. cbn [map hd] in Es.
    destruct (strip_eq _ _ Es) as [_ [Ec [_ Ew]]]. unfold row_label. rewrite Ec, Ew. reflexivity.
  Qed.

  Lemma dst_stage_ext : forall pol pol' (fr fr' : frame), loc_by_mask pol = loc_by_mask pol' ->
    same_weather_calendar fr fr' -> map (dst_trigger pol) fr = map (dst_trigger pol') fr' ->
    dst_stage pol fr = dst_stage pol' fr'.
  Proof.
    intros pol pol' fr fr' Hm H T. apply get_dst_indices_ext. revert fr' H T.
    (* date by date: the tests by hypothesis, the local hours and the lookup outcome through the view *)
    induction fr as [|d fr IH]; intros [|d' fr'] H T; cbn in H, T; try discriminate; cbn [map]; [constructor|].
    injection H as Hr Hl Hrest. injection T as T1 T2 Trest.
    constructor; [|apply IH; assumption].
    unfold day_rel. split; [exact T1|]. split; [exact T2|]. split.
    - unfold hours, dst_day. cbn [d_rows]. rewrite !map_map.
      apply (map_eq_of_view strip Hr). intros r r' _ _ E. destruct (strip_eq _ _ E) as [_ [_ [Eh _]]]. exact Eh.
    - unfold day_loc. cbn [dst_day d_loc]. rewrite Hm, Hl. reflexivity.
  Qed.

  Lemma triggers_eq_of_dates : forall pol pol' (fr fr' : frame), same_weather_calendar fr fr' ->
    (forall d d', In d fr -> In d' fr' -> strip_day d = strip_day d' -> dst_trigger pol d = dst_trigger pol' d') ->
    map (dst_trigger pol) fr = map (dst_trigger pol') fr'.
  Proof. intros pol pol' fr fr' H Hd. exact (map_eq_of_view strip_day H Hd). Qed.

  Lemma rows_trigger_ni : forall d d' : hday, strip_day d = strip_day d' -> rows_trigger d = rows_trigger d'.
  Proof.
    intros d d' E. injection E as Er _. unfold rows_trigger.
    rewrite <- (map_length strip (h_rows d)), Er, map_length. reflexivity.
  Qed.

  (* what the two tests see on one date: the number of rows when the rows are counted or the usage column has no gap,
     nothing when usage is blank and the cells are counted *)
  Lemma trigger_count_rows : forall pol (d : hday), count_rows pol = true -> dst_trigger pol d = rows_trigger d.
  Proof.
    intros pol d Hp. unfold dst_trigger, rows_trigger, day_count. rewrite Hp.
    unfold dst_day. cbn [d_rows]. rewrite map_length. reflexivity.
  Qed.

  Lemma count_obs_full : forall d : hday, forallb (fun r : hrow => is_some (r_obs r)) (h_rows d) = true ->
    count_obs (dst_day d) = length (h_rows d).
  Proof.
    intros d. unfold count_obs, dst_day. cbn [d_rows].
    induction (h_rows d) as [|r l IH]; cbn [forallb map filter stamp hs_obs length]; intros H; [reflexivity|].
    apply andb_true_iff in H. destruct H as [Hr Hl]. rewrite Hr. cbn [length]. rewrite (IH Hl). reflexivity.
  Qed.

  Lemma count_obs_blank : forall d : hday, existsb (fun r : hrow => is_some (r_obs r)) (h_rows d) = false ->
    count_obs (dst_day d) = 0.
  Proof.
    intros d. unfold count_obs, dst_day. cbn [d_rows].
    induction (h_rows d) as [|r l IH]; cbn [existsb map filter stamp hs_obs]; intros H; [reflexivity|].
    apply orb_false_iff in H. destruct H as [Hr Hl]. rewrite Hr. exact (IH Hl).
  Qed.

  Lemma in_all_rows : forall (fr : frame) d r, In d fr -> In r (h_rows d) -> In r (all_rows fr).
  Proof. intros fr d r Hd Hr. apply in_concat. exists (h_rows d). split; [apply in_map; exact Hd | exact Hr]. Qed.

  Lemma trigger_full : forall pol (fr : frame) d, fully_observed fr = true -> In d fr ->
    dst_trigger pol d = rows_trigger d.
  Proof.
    intros pol fr d H Hd. destruct (count_rows pol) eqn:Hp; [apply trigger_count_rows; exact Hp|].
    assert (Fd : forallb (fun r : hrow => is_some (r_obs r)) (h_rows d) = true).
    { unfold fully_observed in H. rewrite forallb_forall in *. intros r Hr. apply H. exact (in_all_rows fr d r Hd Hr). }
    unfold dst_trigger, rows_trigger, day_count. rewrite Hp, (count_obs_full d Fd). reflexivity.
  Qed.

  Lemma trigger_blank : forall pol (fr : frame) d, count_rows pol = false -> blank fr = true -> In d fr ->
    dst_trigger pol d = (false, false).
  Proof.
    intros pol fr d Hp H Hd.
    assert (Bd : existsb (fun r : hrow => is_some (r_obs r)) (h_rows d) = false).
    { unfold blank in H. apply negb_true_iff in H. apply not_true_is_false. intros E.
      apply existsb_exists in E. destruct E as [r [Hr Er]].
      assert (X : obs_usable fr = true); [|congruence].
      apply existsb_exists. exists r. split; [exact (in_all_rows fr d r Hd Hr) | exact Er]. }
    unfold dst_trigger, day_count. rewrite Hp, (count_obs_blank d Bd). reflexivity.
  Qed.

  (* two cases in which the tests of every date come out the same on two frames with the same view *)
  Lemma triggers_count_rows : forall pol (fr fr' : frame), count_rows pol = true -> same_weather_calendar fr fr' ->
    map (dst_trigger pol) fr = map (dst_trigger pol) fr'.
  Proof.
    intros pol fr fr' Hp H. apply (triggers_eq_of_dates pol pol fr fr' H). intros d d' _ _ E.
    rewrite !(trigger_count_rows pol _ Hp). apply rows_trigger_ni. exact E.
  Qed.

  Lemma triggers_fully_observed : forall pol pol' (fr fr' : frame), same_weather_calendar fr fr' ->
    fully_observed fr = true -> fully_observed fr' = true ->
    map (dst_trigger pol) fr = map (dst_trigger pol') fr'.
  Proof.
    intros pol pol' fr fr' H F1 F2. apply (triggers_eq_of_dates pol pol' fr fr' H). intros d d' Hd Hd' E.
    rewrite (trigger_full pol fr d F1 Hd), (trigger_full pol' fr' d' F2 Hd'). apply rows_trigger_ni. exact E.
  Qed.

  Lemma trigger_rows_regular : forall (fr : frame) d, no_short_long fr = true -> In d fr ->
    rows_trigger d = (false, false).
  Proof.
    intros fr d H Hd. unfold no_short_long in H. rewrite forallb_forall in H.
    specialize (H d Hd). apply andb_true_iff in H. destruct H as [H1 H2].
    rewrite negb_true_iff in H1, H2. unfold rows_trigger. rewrite H1, H2. reflexivity.
  Qed.

  Lemma cluster_stage_covered : forall t (fr : frame), covers t fr = true ->
    cluster_stage K t fr = Ok (reindexed t (combos_of fr)).
  Proof.
    intros t fr H. unfold cluster_stage.
    assert (M : has_missing (reindexed t (combos_of fr)) = false); [|rewrite M; reflexivity].
    unfold covers in H. rewrite forallb_forall in H. apply not_true_is_false. intros E.
    apply existsb_exists in E. destruct E as [p [Hp Hn]]. apply in_map_iff in Hp. destruct Hp as [c [<- Hc]].
    specialize (H c Hc). cbn [snd] in Hn. unfold is_some in H. rewrite Hn in H. discriminate.
  Qed.

  Lemma cluster_stage_ni : forall t (fr fr' : frame), same_weather_calendar fr fr' -> covers t fr = true ->
    cluster_stage K t fr = cluster_stage K t fr'.
  Proof.
    intros t fr fr' H Hc. rewrite (cluster_stage_covered _ _ Hc).
    unfold covers in Hc. rewrite (combos_of_ni _ _ H) in Hc. rewrite (cluster_stage_covered t fr' Hc), (combos_of_ni _ _ H).
    reflexivity.
  Qed.

  (* a frame without usable usage never reaches the observed-reading repair, whatever the table *)
  Lemma cluster_stage_blank_ni : forall t (fr fr' : frame), same_weather_calendar fr fr' ->
    blank fr = true -> blank fr' = true -> cluster_stage K t fr = cluster_stage K t fr'.
  Proof.
    intros t fr fr' H B B'. unfold cluster_stage, blank in *. rewrite negb_true_iff in B, B'.
    rewrite B, B', (combos_of_ni _ _ H). reflexivity.
  Qed.

  Lemma hourly_flow_from_stages : forall pol t (fr fr' : frame), same_weather_calendar fr fr' ->
    dst_stage pol fr = dst_stage pol fr' -> cluster_stage K t fr = cluster_stage K t fr' ->
    hourly_flow K pol t fr = hourly_flow K pol t fr'.
  Proof.
    intros pol t fr fr' H Hd Hc. unfold hourly_flow. rewrite Hd, Hc.
    destruct (dst_stage pol fr') as [idx|e]; cbn [bind]; [|reflexivity].
    destruct (cluster_stage K t fr') as [ct|e]; cbn [bind]; [|reflexivity].
    rewrite (ts_matrix_ni ct _ _ H), (day_cat_ni ct _ _ H), (index_of_frame_ni _ _ H). reflexivity.
  Qed.

  (* the guard the code forces: the 23/25 tests of every date come out the same on both frames *)
  Lemma hourly_flow_ni : forall pol t (fr fr' : frame), same_weather_calendar fr fr' -> covers t fr = true ->
    map (dst_trigger pol) fr = map (dst_trigger pol) fr' ->
    hourly_flow K pol t fr = hourly_flow K pol t fr'.
  Proof.
    intros pol t fr fr' H Hc T. apply hourly_flow_from_stages;
      [exact H | apply dst_stage_ext; auto | apply cluster_stage_ni; assumption].
  Qed.

  Lemma hourly_flow_ni_count_rows : forall pol t (fr fr' : frame), count_rows pol = true ->
    same_weather_calendar fr fr' -> covers t fr = true ->
    hourly_flow K pol t fr = hourly_flow K pol t fr'.
  Proof.
    intros pol t fr fr' Hp H Hc. apply hourly_flow_ni; [exact H | exact Hc|]. apply triggers_count_rows; assumption.
  Qed.

  Lemma hourly_flow_ni_blank_regular : forall pol t (fr fr' : frame),
    same_weather_calendar fr fr' -> covers t fr = true ->
    fully_observed fr = true -> blank fr' = true -> no_short_long fr = true ->
    hourly_flow K pol t fr = hourly_flow K pol t fr'.
  Proof.
    intros pol t fr fr' H Hc F1 B N. destruct (count_rows pol) eqn:Hp; [apply hourly_flow_ni_count_rows; assumption|].
    apply hourly_flow_ni; [exact H | exact Hc|].
    apply (triggers_eq_of_dates pol pol fr fr' H). intros d d' Hd Hd' _.
    rewrite (trigger_full pol fr d F1 Hd), (trigger_rows_regular fr d N Hd), (trigger_blank pol fr' d' Hp B Hd').
    reflexivity.
  Qed.

  Lemma reindex_functional : forall (V : Type) (rows : list (Z * V)) target out,
    reindex rows target = Ok out -> forall ts a b, In (ts, a) out -> In (ts, b) out -> a = b.
  Proof.
    intros V rows target out H ts a b Ha Hb. unfold reindex in H. destruct (has_dup (map fst rows)); [discriminate|].
    inversion H; subst out. apply in_map_iff in Ha, Hb.
    destruct Ha as [t1 [E1 _]], Hb as [t2 [E2 _]]. inversion E1; inversion E2; subst. reflexivity.
  Qed.

  Lemma hourly_flow_functional : forall pol t (fr : frame) out, hourly_flow K pol t fr = Ok out ->
    forall ts a b, In (ts, a) out -> In (ts, b) out -> a = b.
  Proof.
    intros pol t fr out H. unfold hourly_flow in H.
    apply bind_ok in H. destruct H as [idx [_ H]].
    apply bind_ok in H. destruct H as [ct [_ H]].
    apply bind_ok in H. destruct H as [agg [_ H]].
    destruct (negb (all24 agg)); [discriminate|].
    apply bind_ok in H. destruct H as [y [_ H]].
    destruct (negb (length y =? length (index_of_frame fr))); [discriminate|].
    eapply reindex_functional. exact H.
  Qed.

  Lemma hourly_flow_eq_agree : forall pol t (fr fr' : frame),
    hourly_flow K pol t fr = hourly_flow K pol t fr' -> agree (hourly_flow K pol t fr) (hourly_flow K pol t fr').
  Proof.
    intros pol t fr fr' E. rewrite <- E. unfold agree. destruct (hourly_flow K pol t fr) as [out|e] eqn:Ho; [|exact I].
    intros ts p q Hp Hq. pose proof (hourly_flow_functional _ _ _ _ Ho ts _ _ Hp Hq) as X. inversion X. reflexivity.
  Qed.

  Lemma table_after_all_keep_local : forall t (history : list frame), table_after_all K KeepLocal t history = t.
  Proof. intros t history. revert t. induction history as [|fr rest IH]; intros t; cbn; [reflexivity | apply IH]. Qed.

  Lemma in_known_part : forall (ct : ctable) c l, In (c, l) (known_part ct) <-> In (c, Some l) ct.
  Proof.
    intros ct c l. unfold known_part. rewrite in_flat_map. split.
    - intros [[k o] [Hp H]]. cbn [fst snd] in H. destruct o as [x|]; [|destruct H].
      destruct H as [H|[]]. injection H as -> ->. exact Hp.
    - intros H. exists (c, Some l). split; [exact H | left; reflexivity].
  Qed.

  (* the table a later call sees answers like the re-indexed one, provided equal combinations carry equal labels
     (a duplicate-free index, or a table re-indexed from a stored one) *)
  Lemma lookup_known_part : forall (ct : ctable) c,
    (forall p q, In p ct -> In q ct -> fst p = fst q -> snd p = snd q) ->
    lookup_combo (known_part ct) c = label_in ct c.
  Proof.
    intros ct c. unfold lookup_combo, label_in.
    induction ct as [|[k o] ct IH]; intros Hf; [reflexivity|].
    assert (Hf' : forall p q, In p ct -> In q ct -> fst p = fst q -> snd p = snd q)
      by (intros p q Hp Hq; apply Hf; right; assumption).
    unfold known_part. cbn [flat_map fst snd]. fold (known_part ct). destruct o as [l|]; cbn [app find fst snd].
    - destruct (combo_eqb k c); [reflexivity | exact (IH Hf')].
    - destruct (combo_eqb k c) eqn:E; [|exact (IH Hf')].
      apply combo_eqb_eq in E. subst k.
      destruct (find _ (known_part ct)) as [[c' l]|] eqn:Ef; [|reflexivity].
      apply find_some in Ef. destruct Ef as [Hin E]. cbn [fst] in E. apply combo_eqb_eq in E. subst c'.
      apply in_known_part in Hin.
      specialize (Hf (c, None) (c, Some l) (or_introl eq_refl) (or_intror Hin) eq_refl). discriminate.
  Qed.

  Lemma label_in_reindexed : forall t cs c, In c cs -> label_in (reindexed t cs) c = lookup_combo t c.
  Proof.
    intros t cs c. unfold label_in, reindexed. induction cs as [|x cs IH]; intros H; [destruct H|].
    cbn [map find fst snd]. destruct (combo_eqb x c) eqn:E.
    - apply combo_eqb_eq in E. subst x. reflexivity.
    - destruct H as [->|H]; [rewrite combo_eqb_refl in E; discriminate | apply IH; exact H].
  Qed.

  Lemma reindexed_idem : forall t cs, reindexed (known_part (reindexed t cs)) cs = reindexed t cs.
  Proof.
    intros t cs. unfold reindexed at 1 3. apply map_ext_in. intros c Hc. f_equal.
    rewrite lookup_known_part; [apply label_in_reindexed; exact Hc|].
    assert (X : forall p, In p (reindexed t cs) -> snd p = lookup_combo t (fst p))
      by (intros p Hp; apply in_map_iff in Hp; destruct Hp as [x [<- _]]; reflexivity).
    intros p q Hp Hq E. rewrite (X p Hp), (X q Hq), E. reflexivity.
  Qed.

  (* predicting the same calendar again with the same object: the stored-back table answers as the fitted one *)
  Lemma cluster_stage_stored_back : forall t (fr fr' : frame), covers t fr = true -> same_weather_calendar fr fr' ->
    cluster_stage K (table_after K StoreBack t fr) fr' = cluster_stage K t fr'.
  Proof.
    intros t fr fr' Hc H. unfold table_after. rewrite (cluster_stage_covered t fr Hc).
    unfold cluster_stage. rewrite <- (combos_of_ni _ _ H), (reindexed_idem t). reflexivity.
  Qed.
End FlowFacts.

Section DataStageFacts.
  Context {Wc W O : Type}.
  Variable w_empty : Wc -> bool.
  Variable calendar : list Z -> list (list cal_stamp * option err).
  Variable fill_w : list (option Wc) -> list W.
  Variable fill_o : list (option O) -> list (option O).
  Notation rec := (rec Wc O).

  (* which record of a repeated stamp survives is decided by the index alone *)
  Lemma keep_first_ni : forall (a b : list rec) seen, same_records_but_usage a b ->
    map rec_view (keep_first seen a) = map rec_view (keep_first seen b).
  Proof.
    unfold same_records_but_usage.
    induction a as [|r a IH]; intros [|r' b] seen E; try discriminate; [reflexivity|].
    cbn [map] in E. injection E as Eu Ew Et. cbn [keep_first]. rewrite Eu.
    destruct (existsb (Z.eqb (q_utc r')) seen); [apply IH; exact Et|].
    cbn [map]. rewrite (IH _ _ Et). unfold rec_view. rewrite Eu, Ew. reflexivity.
  Qed.

  Lemma find_rec_ni : forall (sa sb : list rec) u, map rec_view sa = map rec_view sb ->
    option_map (@q_w Wc O) (find_rec sa u) = option_map (@q_w Wc O) (find_rec sb u).
  Proof.
    unfold find_rec. induction sa as [|r sa IH]; intros [|r' sb] u E; try discriminate; [reflexivity|].
    cbn [map] in E. injection E as Eu Ew Et. cbn [find]. rewrite Eu.
    destruct (Z.eqb (q_utc r') u); [cbn [option_map]; rewrite Ew; reflexivity | apply IH; exact Et].
  Qed.

  Lemma strip_mk_hrow : forall s (w : W) (o o' : option O), strip (mk_hrow s w o) = strip (mk_hrow s w o').
  Proof. intros [[[u m] d] h] w o o'. reflexivity. Qed.

  Lemma split_days_ni : forall cal (flat flat' : list (hrow W O)), map strip flat = map strip flat' ->
    same_weather_calendar (split_days cal flat) (split_days cal flat').
  Proof.
    unfold same_weather_calendar. induction cal as [|[st loc] cal IH]; intros flat flat' E; [reflexivity|].
    cbn [split_days map]. unfold strip_day at 1 3. cbn [h_rows h_loc].
    rewrite <- !firstn_map, E. f_equal. apply IH. rewrite <- !skipn_map, E. reflexivity.
  Qed.

  (* the frame the model receives has the same weather and calendar whatever the usage cells of the records are:
     the selected records have the same stamps and weather cells, so the calendar and the weather column are the same,
     and the usage column does not enter the view *)
  Lemma data_stage_ni : forall a b : list rec, same_records_but_usage a b ->
    same_weather_calendar (data_stage w_empty calendar fill_w fill_o KeepFirst a)
                          (data_stage w_empty calendar fill_w fill_o KeepFirst b).
  Proof.
    intros a b H. pose proof (keep_first_ni a b [] H) as S. unfold data_stage. cbn [select].
    set (sa := keep_first [] a) in *. set (sb := keep_first [] b) in *.
    assert (Eu : map (@q_utc Wc O) sa = map (@q_utc Wc O) sb).
    { apply (map_eq_of_view rec_view S). intros r r' _ _ E. unfold rec_view in E. injection E as Eu _. exact Eu. }
    rewrite Eu. set (stamps := concat (map fst (calendar (map (@q_utc Wc O) sb)))).
    assert (Ew : map (fun s => option_map (@q_w Wc O) (find_rec sa (cs_utc s))) stamps =
                 map (fun s => option_map (@q_w Wc O) (find_rec sb (cs_utc s))) stamps)
      by (apply map_ext; intros s; apply find_rec_ni; exact S).
    rewrite Ew. apply split_days_ni. rewrite !map_map. apply map_ext. intros [[s w] k]. apply strip_mk_hrow.
  Qed.
End DataStageFacts.

(* the zero rule in front of the de-duplication touches the usage cell only: stamp and weather cells of every record
   are as the caller gave them *)
Lemma zero_rec_view : forall (Wc O : Type) (is_zero : O -> bool) (w_nan : Wc) elec (l : list (rec Wc O)),
  map rec_view (map (zero_rec is_zero w_nan ZeroUsageCell elec) l) = map rec_view l.
Proof.
  intros Wc O is_zero w_nan elec l. rewrite map_map. apply map_ext. intros r. unfold zero_rec.
  destruct (elec && match q_obs r with Some o => is_zero o | None => false end); reflexivity.
Qed.
