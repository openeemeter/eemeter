(* Lemmas about Model/Objects.v (C02): fitting or using one model object leaves every other object's serialised
   state alone, exactly when no class keeps that state in a class-level container. *)
From Coq Require Import ZArith List Bool Arith Lia.
From V Require Import Model.Objects Proofs.ListFacts.
From V Require Proofs.GateProofs.   (* fold_left_invariant *)
Import ListNotations.

Lemma nth_set_nth_other : forall (A : Type) (l : list A) n m x, n <> m -> nth_error (set_nth l n x) m = nth_error l m.
Proof.
  intros A l. induction l as [|a l IH]; intros [|n] [|m] x H; cbn; try reflexivity; [contradiction | apply IH; lia].
Qed.

(* without sharing the serialised state is the instance's own *)
Lemma serial_unshared : forall g w j, (forall c, g c = None) ->
  serial g w j = option_map o_own (nth_error (w_objs w) j).
Proof. intros g w j Hg. unfold serial. destruct (nth_error (w_objs w) j); [rewrite Hg|]; reflexivity. Qed.

Lemma wstep_keeps_other : forall g w o j y,
  (forall c, g c = None) -> nth_error (w_objs w) j = Some y -> (forall v, o <> WFit j v) ->
  nth_error (w_objs (wstep g w o)) j = Some y.
Proof.
  intros g w o j y Hg Hj Ht. destruct o as [c|k v|k|k]; cbn [wstep]; try assumption.
  - apply nth_error_app_some, Hj.
  - destruct (nth_error (w_objs w) k) as [x|]; [|assumption]. rewrite Hg. cbn [w_objs].
    rewrite nth_set_nth_other; [assumption|]. intros ->. exact (Ht v eq_refl).
Qed.

Lemma others_unchanged : forall g, (forall c, g c = None) ->
  forall ops w j y, nth_error (w_objs w) j = Some y -> (forall v, ~ In (WFit j v) ops) ->
  serial g (wrun g w ops) j = serial g w j.
Proof.
  intros g Hg ops w j y Hj N. rewrite !serial_unshared, Hj by assumption. f_equal. unfold wrun.
  apply GateProofs.fold_left_invariant with (P := fun w' => nth_error (w_objs w') j = Some y); [|exact Hj].
  intros o Ho w' Hw'. apply wstep_keeps_other; [assumption | assumption |]. intros v ->. exact (N v Ho).
Qed.

(* two objects of a class that keeps the state at class level: fitting the second rewrites the first one's document *)
Definition two (c : mclass) : world :=
  {| w_objs := [{| o_class := c; o_own := 0%Z |}; {| o_class := c; o_own := 0%Z |}]; w_class := fun _ => 0%Z |}.

Lemma mclass_eqb_refl : forall c, mclass_eqb c c = true.
Proof. destruct c; reflexivity. Qed.

Lemma shared_reaches_other : forall g c r, g c = Some r ->
  serial g (wrun g (two c) [WFit 1 5%Z]) 0 <> serial g (two c) 0.
Proof.
  intros g c r H. unfold wrun, two. cbn [fold_left wstep w_objs nth_error o_class]. rewrite H.
  unfold serial. cbn [w_objs nth_error o_class w_class]. rewrite H, mclass_eqb_refl. discriminate.
Qed.
