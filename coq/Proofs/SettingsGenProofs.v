(* C14 — decision procedures over the regenerated settings trees (Generated/SettingsGen.v).  Nothing is evaluated in this
   file: each `forallb ... = true` is closed in Properties/C14.v, so a regenerated tree that breaks one of them fails there,
   after the theorems about arbitrary trees have been checked. *)
From Coq Require Import ZArith QArith List Bool String.
From V Require Import Model.Settings Generated.SettingsGen.
Import ListNotations.
Open Scope string_scope.

Definition class_tree (c : string) : option stree :=
  match lookup_reg c reg with Some (_, t) => Some t | None => None end.

Definition defaults_ok (c : string) : bool :=
  match class_tree c with Some t => defaults_eqb (flat_defaults t) (approved_of c) | None => false end.
Definition locks_ok (c : string) : bool :=
  match class_tree c with
  | Some t => locks_eqb (flat_defaults t) (approved_of c) && locked_or_open open_fields (approved_of c) && has_lock t
  | None => false
  end.
Definition domains_ok (c : string) : bool :=
  match class_tree c with Some t => domains_eqb (flat_domains t) (approved_dom_of c) | None => false end.

(* a check over a list of class names, read as a statement about each of them (the form `apply` needs in C14.v) *)
Lemma lift_forallb : forall (f : string -> bool) l, forallb f l = true -> forall c, In c l -> f c = true.
Proof. intros f l H c Hc. exact (proj1 (forallb_forall f l) H c Hc). Qed.

(* every leaf of the class's tree x every alternative the model-side enumerator offers for it *)
Definition singles_ok (c : string) : bool :=
  match class_tree c with Some t => all_single_overrides_ok reg t | None => false end.

(* The two sweeps over leaves x alternatives (singles_ok, all_reloads_ok) are closed by evaluation, and an independent re-check
   of the compiled proofs evaluates without the bytecode machine, where one build-store-reload run takes a quarter of a second.
   The model-side enumerators offer some alternatives several times (a string leaf is offered the default of every sibling,
   the twelve months share three season names), so the evaluated sweeps try each distinct alternative once.
   Why the statement about all alternatives follows: [alt_same a b = true] gives [a = b] (Leibniz equality; jv_eqb would not
   do, it compares numbers by Qeq and identifies 1/2 with 2/4, and lists / objects are never identified here), so an
   alternative that is skipped is literally one that is tried (distinct_alts_covers), and a sweep over the distinct
   alternatives is a sweep over all of them (sweep_distinct_alts). *)
Definition alt_same (a b : jv) : bool :=
  match a, b with
  | JNull, JNull => true
  | JBool x, JBool y => Bool.eqb x y
  | JNum x, JNum y => (Qnum x =? Qnum y)%Z && (Qden x =? Qden y)%positive
  | JStr x, JStr y => String.eqb x y
  | _, _ => false
  end.

Lemma alt_same_eq : forall a b, alt_same a b = true -> a = b.
Proof.
  intros [| x | [xn xd] | x | | |] [| y | [yn yd] | y | | |] H; try discriminate H; cbn in H.
  - reflexivity.
  - apply eqb_prop in H. congruence.
  - apply andb_true_iff in H. destruct H as [Hn Hd]. apply Z.eqb_eq in Hn. apply Pos.eqb_eq in Hd. cbn in Hn, Hd. congruence.
  - apply String.eqb_eq in H. congruence.
Qed.

Fixpoint distinct_alts (l : list jv) : list jv :=
  match l with
  | [] => []
  | a :: r => if existsb (alt_same a) r then distinct_alts r else a :: distinct_alts r
  end.

Lemma distinct_alts_covers : forall l a, In a l -> In a (distinct_alts l).
Proof.
  induction l as [|b l IH]; intros a Ha; [exact Ha|]. cbn [distinct_alts].
  destruct (existsb (alt_same b) l) eqn:E.
  - destruct Ha as [<-|Ha]; [|exact (IH a Ha)].
    apply existsb_exists in E. destruct E as [c [Hc Hs]]. apply alt_same_eq in Hs. subst c. exact (IH b Hc).
  - destruct Ha as [<-|Ha]; [left; reflexivity|right; exact (IH a Ha)].
Qed.

Lemma sweep_distinct_alts : forall (X : Type) (alts : X -> list jv) (ok : X -> jv -> bool) (l : list X),
  forallb (fun x => forallb (ok x) (distinct_alts (alts x))) l = true ->
  forallb (fun x => forallb (ok x) (alts x)) l = true.
Proof.
  intros X alts ok l H. rewrite forallb_forall in *. intros x Hx. specialize (H x Hx).
  rewrite forallb_forall in *. intros v Hv. apply H. apply distinct_alts_covers. exact Hv.
Qed.

Definition singles_distinct_ok (c : string) : bool :=
  match class_tree c with
  | Some t => forallb (fun x => forallb (single_override_ok reg t x) (distinct_alts (alts_of (snd x) (snd (fst x)))))
                      (leaves_sib_of_root t)
  | None => false
  end.

Lemma singles_distinct_sound : forall c, singles_distinct_ok c = true -> singles_ok c = true.
Proof.
  intros c. unfold singles_distinct_ok, singles_ok, all_single_overrides_ok.
  destruct (class_tree c); [apply sweep_distinct_alts|exact id].
Qed.

(* [reload] validates a daily document against the current settings class to choose the constructor ([reload_ctor]) and, when
   that succeeds, validates it again to build the object.  The evaluated sweep does it once. *)
Definition reload_once (reg : registry) (c : ctor) (doc : jv) : result sval :=
  match doc with
  | JObj kvs =>
      match c with
      | CDailyModel _ =>
          match construct reg (CDailyModel "current") (InDict kvs) with
          | Accept s => Accept s
          | Reject r => if is_validation_error r then construct reg (CDailyModel "legacy") (InDict kvs) else Reject r
          end
      | _ => construct reg c (InDict kvs)
      end
  | _ => Reject RCrash
  end.

Lemma reload_once_eq : forall reg c doc, reload_once reg c doc = reload reg c doc.
Proof.
  intros reg c [| | | | |kvs|]; try reflexivity. destruct c; try reflexivity.
  unfold reload_once, reload, reload_ctor.
  destruct (construct reg (CDailyModel "current") (InDict kvs)) as [s|r] eqn:E.
  - rewrite E. reflexivity.
  - destruct (is_validation_error r); [reflexivity|]. rewrite E. reflexivity.
Qed.

(* [reload_ok] and [all_reloads_ok] of Model/Settings.v with [reload_once] for [reload] and the distinct alternatives for
   all of them; nothing else differs *)
Definition reload_once_ok (reg : registry) (c : ctor) (kvs : list (string * jv)) : bool :=
  match construct reg c (InDict kvs) with
  | Reject _ => true
  | Accept s => match reload_once reg c (stored_settings c s) with
                | Accept s' => jv_eqb (dump s') (stored_settings c s)
                | Reject _ => false
                end
  end.

Lemma reload_once_ok_eq : forall reg c kvs, reload_once_ok reg c kvs = reload_ok reg c kvs.
Proof.
  intros reg c kvs. unfold reload_once_ok, reload_ok. destruct (construct reg c (InDict kvs)) as [s|r]; [|reflexivity].
  cbv zeta. rewrite reload_once_eq. reflexivity.
Qed.

Definition all_reloads_checked (reg : registry) (c : ctor) (t : stree) : bool :=
  forallb (fun x => forallb (fun v => reload_once_ok reg c (with_dev (ldev (snd (fst x))) (override (fst (fst x)) v)))
                            (distinct_alts (alts_light (snd x) (snd (fst x)))))
          (leaves_sib_of_root t).

Lemma all_reloads_checked_sound : forall reg c t, all_reloads_checked reg c t = true -> all_reloads_ok reg c t = true.
Proof.
  intros reg c t H. unfold all_reloads_ok. apply sweep_distinct_alts. unfold all_reloads_checked in H.
  rewrite forallb_forall in *. intros x Hx. specialize (H x Hx). rewrite forallb_forall in *. intros v Hv.
  rewrite <- reload_once_ok_eq. exact (H v Hv).
Qed.

(* hourly trees: no developer flag on any leaf and no lock on the root (the lock statement is vacuous there); their defaults
   and domains are compared like everybody's, by defaults_ok and domains_ok *)
Definition unlocked_ok (c : string) : bool :=
  match class_tree c with
  | Some t => negb (has_lock t) && forallb (fun x => negb (ldev (snd x))) (leaves_of_root t)
  | None => false
  end.
