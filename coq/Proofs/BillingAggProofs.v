(* Lemmas about Model/BillingAgg.v (C19): NaN-skipping sums and the partition lemma (grouping conserves a column sum),
   first / last month and the bins between them, what an output row of [aggregate] is, conservation of totals, the
   count-weighted period mean, the argument parser, and the civil calendar the month index is read from. *)
From Coq Require Import ZArith QArith List Bool String Lia FinFun.
From V Require Import Proofs.ListFacts Model.BillingAgg.
Import ListNotations.

Open Scope Q_scope.

Lemma nansum_nil : nansum [] == 0.
Proof. reflexivity. Qed.

Lemma nansum_cons : forall c l, nansum (c :: l) == cval c + nansum l.
Proof. intros. unfold nansum. cbn [fold_right]. apply Qred_correct. Qed.

Lemma qsum_cons : forall x l, qsum (x :: l) == x + qsum l.
Proof. intros. unfold qsum. cbn [fold_right]. apply Qred_correct. Qed.

Lemma qsum_ext : forall (B : Type) (f h : B -> Q) l,
  (forall j, In j l -> f j == h j) -> qsum (map f l) == qsum (map h l).
Proof.
  intros B f h. induction l as [|j l IH]; intros H; [reflexivity|].
  cbn [map]. rewrite !qsum_cons. rewrite (H j (or_introl eq_refl)), IH; [reflexivity|].
  intros x Hx. apply H. right. exact Hx.
Qed.

Lemma qsum_add : forall (B : Type) (f h : B -> Q) l,
  qsum (map (fun j => f j + h j) l) == qsum (map f l) + qsum (map h l).
Proof.
  intros B f h. induction l as [|j l IH]; [reflexivity|].
  cbn [map]. rewrite !qsum_cons, IH. ring.
Qed.

Lemma qsum_zero : forall (B : Type) (l : list B), qsum (map (fun _ => 0) l) == 0.
Proof.
  intros B. induction l as [|j l IH]; [reflexivity|]. cbn [map]. rewrite qsum_cons, IH. ring.
Qed.

Lemma qsum_indicator : forall (v : Q) (k : Z) (js : list Z), NoDup js -> In k js ->
  qsum (map (fun j => if (k =? j)%Z then v else 0) js) == v.
Proof.
  intros v k. induction js as [|j js IH]; intros Hnd Hk; [destruct Hk|].
  inversion Hnd as [|? ? Hj Hnd']; subst. cbn [map]. rewrite qsum_cons.
  destruct (Z.eqb_spec k j) as [<-|Hne].
  - rewrite (qsum_ext _ _ (fun _ => 0)), qsum_zero; [ring|].
    intros j Hjs. destruct (Z.eqb_spec k j) as [<-|_]; [contradiction | reflexivity].
  - destruct Hk as [E|Hk]; [symmetry in E; contradiction|]. rewrite (IH Hnd' Hk). ring.
Qed.

(* the partition lemma: grouping rows by a key into NoDup bins that cover every key conserves any NaN-skipping sum *)
Section Partition.
  Variable row : Type.
  Variable key : row -> Z.
  Variable col : row -> cell.

  Lemma nansum_filter_cons : forall j r rows,
    nansum (map col (filter (fun x => (key x =? j)%Z) (r :: rows)))
    == (if (key r =? j)%Z then cval (col r) else 0) + nansum (map col (filter (fun x => (key x =? j)%Z) rows)).
  Proof.
    intros. cbn [filter]. destruct (key r =? j)%Z; cbn [map]; [apply nansum_cons | ring].
  Qed.

  Lemma partition_conserves : forall js rows, NoDup js -> (forall r, In r rows -> In (key r) js) ->
    qsum (map (fun j => nansum (map col (filter (fun x => (key x =? j)%Z) rows))) js) == nansum (map col rows).
  Proof.
    intros js rows Hnd. induction rows as [|r rows IH]; intros Hin.
    - cbn [filter map]. rewrite qsum_zero. reflexivity.
    - rewrite (qsum_ext _ _ (fun j => (if (key r =? j)%Z then cval (col r) else 0)
                                      + nansum (map col (filter (fun x => (key x =? j)%Z) rows)))).
      2:{ intros j _. apply nansum_filter_cons. }
      rewrite qsum_add, IH. 2:{ intros x Hx. apply Hin. right. exact Hx. }
      rewrite (qsum_indicator _ _ _ Hnd (Hin r (or_introl eq_refl))).
      cbn [map]. rewrite nansum_cons. reflexivity.
  Qed.
End Partition.

Open Scope Z_scope.

(* min_month and max_month fold, from the month of the first row, an operation that returns one of its two arguments
   and lies below both, for "below" = <= and = >= respectively *)
Section Extremum.
  Variables (sel : Z -> Z -> Z) (below : Z -> Z -> Prop) (f : drow -> Z).
  Hypothesis sel_cases : forall a b, {sel a b = a} + {sel a b = b}.
  Hypothesis sel_below : forall a b c, below a c \/ below b c -> below (sel a b) c.
  Hypothesis below_refl : forall a, below a a.

  Lemma fold_sel_below : forall l x y, In y (x :: l) ->
    below (fold_right (fun z acc => sel (f z) acc) (f x) l) (f y).
  Proof.
    induction l as [|z l IH]; intros x y Hy; cbn [fold_right].
    - destruct Hy as [<-|[]]. apply below_refl.
    - apply sel_below. destruct Hy as [<-|[<-|Hy]].
      + right. apply IH. left. reflexivity.
      + left. apply below_refl.
      + right. apply IH. right. exact Hy.
  Qed.

  Lemma fold_sel_attained : forall l x,
    exists y, In y (x :: l) /\ f y = fold_right (fun z acc => sel (f z) acc) (f x) l.
  Proof.
    induction l as [|z l IH]; intros x; cbn [fold_right]; [exists x; split; [left|]; reflexivity|].
    destruct (sel_cases (f z) (fold_right (fun z acc => sel (f z) acc) (f x) l)) as [E|E]; rewrite E.
    - exists z. split; [right; left; reflexivity | reflexivity].
    - destruct (IH x) as (y & Hy & Ey). exists y. split; [|exact Ey].
      destruct Hy as [Hy|Hy]; [left; exact Hy | right; right; exact Hy].
  Qed.
End Extremum.

Lemma min_month_le : forall rows m0 r, min_month rows = Some m0 -> In r rows -> m0 <= row_month r.
Proof.
  intros [|x l] m0 r H Hin; [destruct Hin|]. injection H as <-.
  exact (fold_sel_below Z.min Z.le row_month (fun a b c => proj2 (Z.min_le_iff a b c)) Z.le_refl l x r Hin).
Qed.

Lemma max_month_ge : forall rows m1 r, max_month rows = Some m1 -> In r rows -> row_month r <= m1.
Proof.
  intros [|x l] m1 r H Hin; [destruct Hin|]. injection H as <-.
  exact (fold_sel_below Z.max (fun a c => c <= a) row_month (fun a b c => proj2 (Z.max_le_iff a b c)) Z.le_refl l x r Hin).
Qed.

Lemma min_month_attained : forall rows m0, min_month rows = Some m0 -> exists r, In r rows /\ row_month r = m0.
Proof.
  intros [|x l] m0 H; [discriminate|]. injection H as <-. exact (fold_sel_attained Z.min row_month Z.min_dec l x).
Qed.

Lemma max_month_attained : forall rows m1, max_month rows = Some m1 -> exists r, In r rows /\ row_month r = m1.
Proof.
  intros [|x l] m1 H; [discriminate|]. injection H as <-. exact (fold_sel_attained Z.max row_month Z.max_dec l x).
Qed.

Lemma month_range : forall rows, rows = [] \/ exists m0 m1, min_month rows = Some m0 /\ max_month rows = Some m1.
Proof. intros [|r l]; [left; reflexivity | right; do 2 eexists; split; reflexivity]. Qed.

Lemma bins_In : forall k m0 m1 j, In j (bins k m0 m1) <-> 0 <= j <= (m1 - m0) / k.
Proof.
  intros k m0 m1 j. unfold bins. rewrite in_map_iff. split.
  - intros [n [E Hn]]. apply in_seq in Hn. subst j. lia.
  - intros H. exists (Z.to_nat j). split; [lia | apply in_seq; lia].
Qed.

Lemma bins_NoDup : forall k m0 m1, NoDup (bins k m0 m1).
Proof.
  intros. unfold bins. apply Injective_map_NoDup; [|apply seq_NoDup].
  intros a b E. lia.
Qed.

Lemma bins_length : forall k m0 m1, List.length (bins k m0 m1) = Z.to_nat ((m1 - m0) / k + 1).
Proof. intros. unfold bins. rewrite map_length, seq_length. reflexivity. Qed.

Lemma div_eq_iff : forall k a j, 0 < k -> (a / k = j <-> k * j <= a < k * (j + 1)).
Proof.
  intros k a j Hk. split.
  - intros <-. pose proof (Z.mul_div_le a k Hk). pose proof (Z.mul_succ_div_gt a k Hk). lia.
  - intros H. symmetry. apply (Z.div_unique_pos a k j (a - k * j)); lia.
Qed.

Lemma in_bin_iff : forall k m0 j r, in_bin k m0 j r = true <-> bin_of k m0 r = j.
Proof. intros. unfold in_bin. apply Z.eqb_eq. Qed.

(* a row belongs to bin j exactly when its calendar month lies in the k months starting at  m0 + k*j.
   The month is generalised before the arithmetic: with [row_month r] in place the kernel unfolds the calendar. *)
Lemma in_bin_spec : forall k m0 j r, 0 < k ->
  (in_bin k m0 j r = true <-> m0 + k * j <= row_month r < m0 + k * (j + 1)).
Proof.
  intros k m0 j r Hk. rewrite in_bin_iff. unfold bin_of. generalize (row_month r) as m. intros m.
  rewrite (div_eq_iff k (m - m0) j Hk). lia.
Qed.

Lemma days_of_In : forall k m0 j rows r, In r (days_of k m0 j rows) <-> In r rows /\ bin_of k m0 r = j.
Proof. intros. unfold days_of. rewrite filter_In, in_bin_iff. reflexivity. Qed.

Lemma bin_of_in_bins : forall k rows m0 m1 r, 0 < k ->
  min_month rows = Some m0 -> max_month rows = Some m1 -> In r rows -> In (bin_of k m0 r) (bins k m0 m1).
Proof.
  intros k rows m0 m1 r Hk H0 H1 Hin.
  pose proof (min_month_le _ _ _ H0 Hin) as L0. pose proof (max_month_ge _ _ _ H1 Hin) as L1.
  apply bins_In. unfold bin_of. split.
  - apply Z.div_pos; lia.
  - apply Z.div_le_mono; lia.
Qed.

Lemma days_of_period_rows : forall k m0 j rows, 0 < k -> days_of k m0 j rows = period_rows k (m0 + k * j) rows.
Proof.
  intros k m0 j rows Hk. unfold days_of, period_rows. apply filter_ext. intros r. apply eq_true_iff_eq.
  rewrite (in_bin_spec k m0 j r Hk), andb_true_iff, Z.leb_le, Z.ltb_lt. generalize (row_month r) as m. lia.
Qed.

Lemma aggregate_unfold : forall k rows m0 m1, min_month rows = Some m0 -> max_month rows = Some m1 ->
  aggregate k rows = map (fun j => agg_row k m0 j (days_of k m0 j rows)) (bins k m0 m1).
Proof. intros k rows m0 m1 H0 H1. unfold aggregate. rewrite H0, H1. reflexivity. Qed.

Lemma aggregate_nil : forall k, aggregate k [] = [].
Proof. reflexivity. Qed.

Lemma aggregate_In : forall k rows o, In o (aggregate k rows) ->
  exists m0 m1 j, min_month rows = Some m0 /\ max_month rows = Some m1 /\ In j (bins k m0 m1) /\
                  o = agg_row k m0 j (days_of k m0 j rows).
Proof.
  intros k rows o Ho. destruct (month_range rows) as [->|(m0 & m1 & H0 & H1)]; [destruct Ho|].
  rewrite (aggregate_unfold _ _ _ _ H0 H1) in Ho. apply in_map_iff in Ho as (j & <- & Hj).
  exists m0, m1, j. repeat split; assumption.
Qed.

(* one output row per calendar period: labels m0, m0+k, m0+2k, ... up to the period that holds the last month *)
Lemma aggregate_labels : forall k rows m0 m1, min_month rows = Some m0 -> max_month rows = Some m1 ->
  map a_label (aggregate k rows) = map (fun n => m0 + k * Z.of_nat n) (seq 0 (Z.to_nat ((m1 - m0) / k + 1))).
Proof.
  intros k rows m0 m1 H0 H1. rewrite (aggregate_unfold _ _ _ _ H0 H1). unfold bins. rewrite !map_map.
  apply map_ext. intros n. reflexivity.
Qed.

Lemma aggregate_length : forall k rows m0 m1, min_month rows = Some m0 -> max_month rows = Some m1 ->
  Z.of_nat (List.length (aggregate k rows)) = Z.max 0 ((m1 - m0) / k + 1).
Proof.
  intros k rows m0 m1 H0 H1. rewrite (aggregate_unfold _ _ _ _ H0 H1), map_length, bins_length. lia.
Qed.

Lemma aggregate_labels_NoDup : forall k rows, 0 < k -> NoDup (map a_label (aggregate k rows)).
Proof.
  intros k rows Hk. destruct (month_range rows) as [->|(m0 & m1 & H0 & H1)]; [constructor|].
  rewrite (aggregate_labels _ _ _ _ H0 H1). apply Injective_map_NoDup; [|apply seq_NoDup].
  intros a b E. nia.
Qed.

Lemma aggregate_span : forall k rows m0 m1, 0 < k -> min_month rows = Some m0 -> max_month rows = Some m1 ->
  let jl := (m1 - m0) / k in
  In jl (bins k m0 m1) /\ m0 + k * jl <= m1 < m0 + k * (jl + 1).
Proof.
  intros k rows m0 m1 Hk H0 H1 jl.
  destruct (min_month_attained _ _ H0) as [r0 [Hr0 E0]].
  pose proof (max_month_ge _ _ _ H1 Hr0) as L. rewrite E0 in L.
  assert (Hp : 0 <= jl) by (apply Z.div_pos; lia).
  split; [apply bins_In; unfold jl in *; lia|].
  pose proof (proj1 (div_eq_iff k (m1 - m0) jl Hk) eq_refl). lia.
Qed.

Open Scope Q_scope.

Lemma bins_conserve : forall (col : drow -> cell) k rows m0 m1, (0 < k)%Z ->
  min_month rows = Some m0 -> max_month rows = Some m1 ->
  qsum (map (fun j => nansum (map col (days_of k m0 j rows))) (bins k m0 m1)) == nansum (map col rows).
Proof.
  intros col k rows m0 m1 Hk H0 H1. apply (partition_conserves drow (bin_of k m0)); [apply bins_NoDup|].
  intros r Hr. exact (bin_of_in_bins k rows m0 m1 r Hk H0 H1 Hr).
Qed.

Lemma aggregate_conserves : forall (col : drow -> cell) (acol : arow -> Q) k rows, (0 < k)%Z ->
  (forall m0 j g, acol (agg_row k m0 j g) = nansum (map col g)) ->
  qsum (map acol (aggregate k rows)) == nansum (map col rows).
Proof.
  intros col acol k rows Hk Hcol. destruct (month_range rows) as [->|(m0 & m1 & H0 & H1)]; [reflexivity|].
  rewrite (aggregate_unfold _ _ _ _ H0 H1), map_map, <- (bins_conserve col k rows m0 m1 Hk H0 H1).
  apply qsum_ext. intros j _. rewrite Hcol. reflexivity.
Qed.

(* uncertainty: the squared cells are summed like any other column *)
Lemma sumsq_conserved : forall k rows, (0 < k)%Z ->
  qsum (map a_uncsq (aggregate k rows)) == sumsq (map d_unc rows).
Proof.
  intros k rows Hk. unfold sumsq. rewrite map_map.
  apply (aggregate_conserves (fun r => sq (d_unc r)) a_uncsq k rows Hk).
  intros m0 j g. cbn [agg_row a_uncsq]. unfold sumsq. rewrite map_map. reflexivity.
Qed.

(* so the squared uncertainty of a period has a root *)
Lemma sumsq_nonneg : forall l, 0 <= sumsq l.
Proof.
  unfold sumsq. induction l as [|c l IH]; [cbn; discriminate|].
  cbn [map]. rewrite nansum_cons. destruct c as [q|]; cbn [sq cval].
  - assert (0 <= q * q) by (unfold Qle; cbn; rewrite Z.mul_1_r; apply Z.square_nonneg).
    replace 0 with (0 + 0) by reflexivity. apply Qplus_le_compat; assumption.
  - rewrite Qplus_0_l. exact IH.
Qed.

Lemma count_cons : forall c l, count (c :: l) = match c with Some _ => (1 + count l)%Z | None => count l end.
Proof. reflexivity. Qed.

Lemma count_nonneg : forall l, (0 <= count l)%Z.
Proof. induction l as [|c l IH]; [reflexivity|]. rewrite count_cons. destruct c; lia. Qed.

Lemma count_zero_nansum : forall l, count l = 0%Z -> nansum l == 0.
Proof.
  induction l as [|c l IH]; intros H; [reflexivity|]. rewrite count_cons in H.
  pose proof (count_nonneg l). destruct c as [q|]; [lia|]. rewrite nansum_cons. cbn [cval]. rewrite (IH H). ring.
Qed.

(* temperature: a period mean, weighted by the number of days that have a temperature, is the period's sum *)
Lemma nanmean_weighted : forall l,
  inject_Z (count l) * cval (nanmean l) == nansum l.
Proof.
  intros l. unfold nanmean. destruct (count l =? 0)%Z eqn:E.
  - apply Z.eqb_eq in E. rewrite E. cbn [cval]. rewrite (count_zero_nansum l E). ring.
  - apply Z.eqb_neq in E. cbn [cval]. rewrite Qred_correct. field.
    intros H. apply E. unfold Qeq in H. cbn in H. lia.
Qed.

Lemma parse_none : parse_arg ArgNone = NoAgg.
Proof. reflexivity. Qed.

Variant parse_str_spec (s : string) : parsed -> Prop :=
| ParseNone : lower s = "none"%string -> parse_str_spec s NoAgg
| ParseMonthly : s = "monthly"%string -> parse_str_spec s (Months 1)
| ParseBimonthly : s = "bimonthly"%string -> parse_str_spec s (Months 2)
| ParseBad : lower s <> "none"%string -> s <> "monthly"%string -> s <> "bimonthly"%string ->
             parse_str_spec s (Bad ValueErr).

Lemma parse_arg_str : forall s, parse_str_spec s (parse_arg (ArgStr s)).
Proof.
  intros s. cbn [parse_arg].
  destruct (String.eqb_spec (lower s) "none") as [E0|N0]; [exact (ParseNone s E0)|].
  destruct (String.eqb_spec s "monthly") as [E1|N1]; [exact (ParseMonthly s E1)|].
  destruct (String.eqb_spec s "bimonthly") as [E2|N2]; [exact (ParseBimonthly s E2)|].
  exact (ParseBad s N0 N1 N2).
Qed.

Lemma parse_months_values : forall a k, parse_arg a = Months k ->
  (a = ArgStr "monthly" /\ k = 1%Z) \/ (a = ArgStr "bimonthly" /\ k = 2%Z).
Proof.
  intros [|s|] k; try discriminate.
  destruct (parse_arg_str s) as [_| -> | -> |_ _ _]; intros H; try discriminate H; injection H as <-.
  - left. split; reflexivity.
  - right. split; reflexivity.
Qed.

Lemma parse_accepts_iff : forall a,
  (exists k, parse_arg a = Months k) <-> (a = ArgStr "monthly" \/ a = ArgStr "bimonthly").
Proof.
  intros a. split.
  - intros [k H]. destruct (parse_months_values a k H) as [[E _]|[E _]]; [left | right]; exact E.
  - intros [->| ->]; eexists; reflexivity.
Qed.

Lemma bad_argument_rejected : forall mode has_obs a rows,
  a <> ArgNone -> (forall s, a = ArgStr s -> lower s <> "none"%string /\ s <> "monthly"%string /\ s <> "bimonthly"%string) ->
  exists e, predict_agg mode has_obs a rows = Rejected e.
Proof.
  intros mode has_obs a rows Hn Hs. unfold predict_agg. destruct a as [|s|]; [contradiction| |].
  - destruct (Hs s eq_refl) as [H1 [H2 H3]].
    destruct (parse_arg_str s); try contradiction. exists ValueErr. reflexivity.
  - exists AttributeErr. reflexivity.
Qed.

Lemma documented_arguments_aggregate : forall mode has_obs rows, (mode = ObsOptional \/ has_obs = true) ->
  predict_agg mode has_obs (ArgStr "monthly") rows = Aggregated 1 (aggregate 1 rows) /\
  predict_agg mode has_obs (ArgStr "bimonthly") rows = Aggregated 2 (aggregate 2 rows).
Proof.
  intros mode has_obs rows [E|E]; subst; split; unfold predict_agg; cbn; try reflexivity; destruct mode; reflexivity.
Qed.

(* ---------------------------------------------------------------- calendar, closed by computation on 2000..2049 *)
Open Scope Z_scope.
(* day d lies in its own month: first day of month_index d <= d < first day of the next month; and the first day of a
   month is day 1 of that month *)
Definition calendar_ok (d : Z) : bool :=
  let mi := month_index d in
  (month_start_day mi <=? d) && (d <? month_start_day (mi + 1)) &&
  (let '(y, m, dd) := civil_from_days (month_start_day mi) in (12 * y + (m - 1) =? mi) && (dd =? 1)) &&
  (let '(_, m, dd) := civil_from_days d in (1 <=? m) && (m <=? 12) && (1 <=? dd) && (dd <=? 31)
                                           && (d - month_start_day mi =? dd - 1)).

(* [calendar_ok] is a sanity fact about the calendar the month labels are read from; no other theorem of C19 uses it.
   It is closed by evaluation, month by month rather than day by day: 600 evaluations instead of 18263 for an independent
   re-check that evaluates slowly.  A month stands for its days because Hinnant's algorithm goes through three step
   functions of the day number (400-year era, year of the era, month counted from March), each monotone: two days that agree
   on all three enclose only days that do, and between them the day of the month counts on.  So a month is checked at its
   first and last day.  The lemmas that connect a month to its days are stated about variables s, s' (Qed would otherwise
   try to convert [month_start_day] applied to open terms). *)
Definition civil_era (z0 : Z) : Z := (z0 + 719468) / 146097.
Definition civil_doe (z0 : Z) : Z := z0 + 719468 - civil_era z0 * 146097.
Definition civil_yoe (doe : Z) : Z := (doe - doe / 1460 + doe / 36524 - doe / 146096) / 365.
Definition civil_doy (doe : Z) : Z := let y := civil_yoe doe in doe - (365 * y + y / 4 - y / 100).
Definition civil_mp (doy : Z) : Z := (5 * doy + 2) / 153.

Lemma civil_parts : forall z0,
  civil_from_days z0 =
  let doe := civil_doe z0 in let mp := civil_mp (civil_doy doe) in let m := if mp <? 10 then mp + 3 else mp - 9 in
  ((if m <=? 2 then civil_yoe doe + civil_era z0 * 400 + 1 else civil_yoe doe + civil_era z0 * 400), m,
   civil_doy doe - (153 * mp + 2) / 5 + 1).
Proof. intros z0. unfold civil_from_days, civil_doe, civil_doy, civil_yoe, civil_mp, civil_era. cbv zeta. reflexivity. Qed.

Lemma doe_range : forall z0, 0 <= civil_doe z0 < 146097.
Proof.
  intros z0. unfold civil_doe, civil_era. pose proof (Z.div_mod (z0 + 719468) 146097 ltac:(lia)).
  pose proof (Z.mod_pos_bound (z0 + 719468) 146097 ltac:(lia)). lia.
Qed.

(* the subtracted term doe / 146096 is 1 only on the last day of the era, where doe / 1460 does not step *)
Lemma yoe_mono : forall a b, 0 <= a <= b -> b < 146097 -> civil_yoe a <= civil_yoe b.
Proof. intros a b H Hb. unfold civil_yoe. apply Z.div_le_mono; [lia|]. Z.div_mod_to_equations; lia. Qed.

Lemma civil_between : forall s d e, s <= d <= e ->
  civil_era s = civil_era e -> civil_yoe (civil_doe s) = civil_yoe (civil_doe e) ->
  civil_mp (civil_doy (civil_doe s)) = civil_mp (civil_doy (civil_doe e)) ->
  forall y m dd, civil_from_days s = (y, m, dd) -> civil_from_days d = (y, m, dd + (d - s)).
Proof.
  intros s d e Hd He Hy Hm y m dd Hs.
  assert (Ed : civil_era d = civil_era s).
  { unfold civil_era in *. pose proof (Z.div_le_mono (s + 719468) (d + 719468) 146097 ltac:(lia) ltac:(lia)).
    pose proof (Z.div_le_mono (d + 719468) (e + 719468) 146097 ltac:(lia) ltac:(lia)). lia. }
  assert (Dd : civil_doe d = civil_doe s + (d - s)) by (unfold civil_doe; rewrite Ed; lia).
  assert (De : civil_doe e = civil_doe s + (e - s)) by (unfold civil_doe; rewrite <- He; lia).
  pose proof (doe_range s) as Rs. pose proof (doe_range e) as Re.
  assert (Yd : civil_yoe (civil_doe d) = civil_yoe (civil_doe s)).
  { assert (H1 : civil_yoe (civil_doe s) <= civil_yoe (civil_doe d)) by (apply yoe_mono; lia).
    assert (H2 : civil_yoe (civil_doe d) <= civil_yoe (civil_doe e)) by (apply yoe_mono; lia). lia. }
  assert (Yd' : civil_doy (civil_doe d) = civil_doy (civil_doe s) + (d - s)) by (unfold civil_doy; rewrite Yd; cbv zeta; lia).
  assert (Ye' : civil_doy (civil_doe e) = civil_doy (civil_doe s) + (e - s)) by (unfold civil_doy; rewrite <- Hy; cbv zeta; lia).
  assert (Md : civil_mp (civil_doy (civil_doe d)) = civil_mp (civil_doy (civil_doe s))).
  { unfold civil_mp in *.
    pose proof (Z.div_le_mono (5 * civil_doy (civil_doe s) + 2) (5 * civil_doy (civil_doe d) + 2) 153 ltac:(lia) ltac:(lia)).
    pose proof (Z.div_le_mono (5 * civil_doy (civil_doe d) + 2) (5 * civil_doy (civil_doe e) + 2) 153 ltac:(lia) ltac:(lia)). lia. }
  rewrite civil_parts in *. cbv zeta in *. rewrite Md, Yd, Ed, Yd'.
  pose proof (f_equal fst Hs) as Hym. pose proof (f_equal snd Hs) as Hdd. cbn [fst snd] in Hym, Hdd.
  rewrite Hym. f_equal. lia.
Qed.

Definition month_ok (mi : Z) : bool :=
  let s := month_start_day mi in
  let e := month_start_day (mi + 1) - 1 in
  let ds := civil_doe s in
  let de := civil_doe e in
  (s <=? e) && (e - s <? 31) &&
  (civil_era s =? civil_era e) && (civil_yoe ds =? civil_yoe de) && (civil_mp (civil_doy ds) =? civil_mp (civil_doy de)) &&
  (let '(y, m, dd) := civil_from_days s in (12 * y + (m - 1) =? mi) && (1 <=? m) && (m <=? 12) && (dd =? 1)).

Lemma calendar_ok_in_month : forall mi d s s' y m, s = month_start_day mi -> s' = month_start_day (mi + 1) ->
  civil_from_days s = (y, m, 1) -> civil_from_days d = (y, m, 1 + (d - s)) ->
  12 * y + (m - 1) = mi -> 1 <= m <= 12 -> s <= d < s' -> s' - s <= 31 -> calendar_ok d = true.
Proof.
  intros mi d s s' y m Es Es' Hs Hcd Hmi Hm Hd Hlen. unfold calendar_ok, month_index.
  rewrite Hcd, Hmi, <- Es, <- Es', Hs, Hmi.
  repeat (apply andb_true_iff; split); try apply Z.leb_le; try apply Z.ltb_lt; try apply Z.eqb_eq; lia.
Qed.

Lemma month_ok_days : forall mi d, month_ok mi = true ->
  month_start_day mi <= d < month_start_day (mi + 1) -> calendar_ok d = true.
Proof.
  intros mi d. unfold month_ok. cbv zeta.
  remember (month_start_day mi) as s eqn:Es. remember (month_start_day (mi + 1)) as s' eqn:Es'. intros H Hd.
  destruct (civil_from_days s) as [[y m] dd] eqn:Hs.
  rewrite !andb_true_iff, !Z.leb_le, !Z.ltb_lt, !Z.eqb_eq in H.
  destruct H as [[[[[Hse Hlen] Hera] Hyoe] Hmp] [[[Hmi Hm1] Hm12] Hdd]]. subst dd.
  apply (calendar_ok_in_month mi d s s' y m Es Es' Hs); try lia.
  apply (civil_between s d (s' - 1)); [lia | exact Hera | exact Hyoe | exact Hmp | exact Hs].
Qed.

Lemma consecutive_intervals : forall (start : Z -> Z) (P : Z -> Prop) n lo,
  (forall i, lo <= i < lo + Z.of_nat n -> forall d, start i <= d < start (i + 1) -> P d) ->
  forall d, start lo <= d < start (lo + Z.of_nat n) -> P d.
Proof.
  intros start P. induction n as [|n IH]; intros lo H d Hd; [rewrite Z.add_0_r in Hd; lia|].
  destruct (Z_lt_dec d (start (lo + 1))) as [Hlt|Hge].
  - apply (H lo); lia.
  - apply (IH (lo + 1)).
    + intros i Hi. apply H. lia.
    + replace (lo + 1 + Z.of_nat n) with (lo + Z.of_nat (S n)) by lia. lia.
Qed.

(* month 24000 = January 2000 starts on day 10957, month 24600 = January 2050 on day 29220 *)
Lemma calendar_months : all_from (Z.to_nat 600) 24000 month_ok = true.
Proof. vm_cast_no_check (eq_refl true). Qed.

Lemma calendar_2000_2050 : forall d, 10957 <= d < 29220 -> calendar_ok d = true.
Proof.
  intros d Hd. apply (consecutive_intervals month_start_day (fun d => calendar_ok d = true) (Z.to_nat 600) 24000).
  - intros i Hi d' Hd'. apply (month_ok_days i); [|exact Hd']. apply (all_from_spec _ _ _ calendar_months). exact Hi.
  - rewrite Z2Nat.id by lia. change (10957 <= d < 29220). exact Hd.
Qed.
