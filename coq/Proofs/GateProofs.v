(* Lemmas about Model/Gate.v (C04): [predict] through its normal form behind the guards ([predict_behind_guards],
   [predict_frame_iff]); [fit] through the view [fit_outcome] ([fit_spec]); histories through [dq_of_fit].
   Lemmas about [Gate.step] / [Gate.run] carry the prefix gate_ (C02.v sees four machines with a step each). *)
From Coq Require Import ZArith List Bool.
From V Require Import Model.Gate.
Import ListNotations.
Open Scope Z_scope.

(* A property that every operation of a list preserves holds after running the list: the one induction behind the
   history theorems of all four machines (Gate, Store, HourlyState, Objects). *)
Lemma fold_left_invariant : forall (S O : Type) (step : S -> O -> S) (P : S -> Prop) (ops : list O),
  (forall o, In o ops -> forall s, P s -> P (step s o)) ->
  forall s, P s -> P (fold_left step ops s).
Proof.
  intros S O step P. induction ops as [|o ops IH]; intros Hstep s Hs; [exact Hs|].
  cbn [fold_left]. apply IH.
  - intros o' Ho'. apply Hstep. right. exact Ho'.
  - apply Hstep; [left; reflexivity | exact Hs].
Qed.

Lemma nonempty_false : forall (A : Type) (l : list A), nonempty l = false <-> l = [].
Proof. intros A [|a l]; cbn; split; congruence. Qed.
Lemma nonempty_true : forall (A : Type) (l : list A), nonempty l = true <-> l <> [].
Proof. intros A [|a l]; cbn; split; congruence. Qed.

(* the disqualification test, of fit on the data's list and of predict on the model's *)
Lemma disq_test_true : forall (A : Type) (l : list A) i, nonempty l && negb i = true <-> l <> [] /\ i = false.
Proof. intros. rewrite andb_true_iff, nonempty_true, negb_true_iff. reflexivity. Qed.
Lemma disq_test_false : forall (A : Type) (l : list A) i, nonempty l && negb i = false <-> l = [] \/ i = true.
Proof. intros. rewrite andb_false_iff, nonempty_false, negb_false_iff. reflexivity. Qed.

Lemma family_eqb_refl : forall f, family_eqb f f = true.
Proof. destruct f; reflexivity. Qed.
Lemma family_eqb_eq : forall f g, family_eqb f g = true <-> f = g.
Proof. destruct f, g; cbn; split; congruence. Qed.

Lemma is_data_has_attrs : forall f k, is_data_of f k = true -> has_attrs k = true.
Proof. intros f [g|g|]; cbn; congruence. Qed.

(* what a prediction reads of the model object *)
Definition predict_view (s : mstate) : bool * list Z * Z * bool := (fitted s, m_dq s, m_tz s, m_ghi s).

Lemma predict_same_view : forall f a b d i, predict_view a = predict_view b -> predict f a d i = predict f b d i.
Proof.
  intros f a b d i H. injection H as H1 H2 H3 H4. unfold predict. rewrite H1, H2, H3, H4. reflexivity.
Qed.

(* every guard of [predict] but the disqualification test *)
Definition guards_ok (f : family) (s : mstate) (d : dobj) : Prop :=
  fitted s = true /\ is_data_of f (d_kind d) = true /\ m_tz s = d_tz d /\
  (f = Hourly -> m_ghi s = true -> d_ghi d = true).

(* the feature guard of the hourly model: a model that uses ghi needs data that has it *)
Lemma ghi_test_false : forall m g : bool, m && negb g = false <-> (m = true -> g = true).
Proof. intros [] []; cbn; intuition congruence. Qed.

(* behind the other guards only the disqualification test is left *)
Lemma predict_behind_guards : forall f s d i, guards_ok f s d ->
  predict f s d i = if nonempty (m_dq s) && negb i then Err Disqualified else Frame.
Proof.
  intros f s d i (Hf & Ht & Hz & Hg).
  pose proof (is_data_has_attrs _ _ Ht) as Ha. apply Z.eqb_eq in Hz.
  destruct f; unfold predict; rewrite Hf, Ht, Hz, ?Ha; cbn [negb]; try reflexivity.
  rewrite (proj2 (ghi_test_false _ _) (Hg eq_refl)). reflexivity.
Qed.

Lemma guard_passed : forall (c : bool) e r, (if c then Err e else r) = Frame -> c = false /\ r = Frame.
Proof. intros [] e r H; [discriminate | auto]. Qed.

(* a frame is returned exactly behind every guard *)
Lemma predict_frame_iff : forall f s d i,
  predict f s d i = Frame <-> guards_ok f s d /\ (m_dq s = [] \/ i = true).
Proof.
  intros f s d i. split.
  - (* on the way to Frame every guard of the family's sequence was passed *)
    intros H. unfold guards_ok.
    destruct f; unfold predict in H; repeat (apply guard_passed in H; destruct H as [? H]);
      rewrite ?negb_false_iff, ?Z.eqb_eq, ?disq_test_false, ?ghi_test_false in *;
      repeat split; auto; discriminate.
  - intros [Hg Hq]. apply disq_test_false in Hq. rewrite (predict_behind_guards f s d i Hg), Hq. reflexivity.
Qed.

(* a guard raises or hands on, and every sequence ends in Frame *)
Lemma guard_frame_or_error : forall (c : bool) e r, (r = Frame \/ exists e', r = Err e') ->
  (if c then Err e else r) = Frame \/ exists e', (if c then Err e else r) = Err e'.
Proof. intros [] e r H; [right; exists e; reflexivity | exact H]. Qed.

Lemma predict_frame_or_error : forall f s d i, predict f s d i = Frame \/ exists e, predict f s d i = Err e.
Proof. intros f s d i. destruct f; unfold predict; repeat apply guard_frame_or_error; left; reflexivity. Qed.

Section GateProofs.
  Variable poor : dobj -> bool.

  (* the four ways fit can end, in guard order *)
  Inductive fit_outcome (f : family) (s : mstate) (d : dobj) (i : bool) : mstate * outcome -> Prop :=
  | FitWrongType : is_baseline_of f (d_kind d) = false -> fit_outcome f s d i (s, Err TypeErr)
  | FitDisqualified : is_baseline_of f (d_kind d) = true -> d_dq d <> [] -> i = false ->
      fit_outcome f s d i (s, Err DataSufficiency)
  | FitNoGhi : is_baseline_of f (d_kind d) = true -> d_dq d = [] \/ i = true ->
      f = Hourly -> m_ghi s = true -> d_ghi d = false -> fit_outcome f s d i (s, Err ValueMissingFeature)
  | FitOk : forall s', is_baseline_of f (d_kind d) = true -> d_dq d = [] \/ i = true ->
      fitted s' = true -> m_tz s' = d_tz d -> m_dq s' = d_dq d ++ (if poor d then [POOR_FIT] else []) ->
      fit_outcome f s d i (s', Fitted).

  Lemma fit_spec : forall f s d i, fit_outcome f s d i (fit poor f s d i).
  Proof.
    intros f s d i. unfold fit.
    destruct (is_baseline_of f (d_kind d)) eqn:Hb; cbn [negb]; [|apply FitWrongType; exact Hb].
    destruct (nonempty (d_dq d) && negb i) eqn:Hq.
    { apply disq_test_true in Hq. apply FitDisqualified; tauto. }
    apply disq_test_false in Hq.
    destruct (family_eqb f Hourly && m_ghi s && negb (d_ghi d)) eqn:Hg.
    - apply andb_prop in Hg. destruct Hg as [Hg Hd]. apply andb_prop in Hg. destruct Hg as [Hf Hm].
      apply FitNoGhi; [exact Hb | exact Hq | apply family_eqb_eq, Hf | exact Hm | apply negb_true_iff, Hd].
    - apply FitOk; [exact Hb | exact Hq | reflexivity ..].
  Qed.

  Lemma gate_run_state : forall f ops s,
    fst (run poor f s ops) = fold_left (fun s o => fst (step poor f s o)) ops s.
  Proof.
    intros f. induction ops as [|o ops IH]; intros s; [reflexivity|].
    cbn [run fold_left]. rewrite <- IH.
    destruct (step poor f s o) as [s' r]. cbn [fst]. destruct (run poor f s' ops). reflexivity.
  Qed.

  (* the disqualifications and the time zone of a fitted model object are those of some data object it was fitted
     on, with the poor-fit disqualification on top *)
  Definition dq_of_fit (s : mstate) : Prop :=
    fitted s = false \/
    exists d, m_dq s = d_dq d ++ (if poor d then [POOR_FIT] else []) /\ m_tz s = d_tz d.

  Lemma gate_step_dq_of_fit : forall f s o, dq_of_fit s -> dq_of_fit (fst (step poor f s o)).
  Proof.
    intros f s o H. destruct o as [d i|d i|]; cbn [step].
    - destruct (fit_spec f s d i) as [ | | |s' _ _ _ Hz Hq]; cbn [fst]; try exact H.
      right. exists d. split; assumption.
    - exact H.
    - destruct (fitted s) eqn:Hf; cbn [fst]; [|exact H].
      destruct H as [H|H]; [congruence | right; exact H].
  Qed.

  Lemma gate_run_dq_of_fit : forall f ops s, dq_of_fit s -> dq_of_fit (fst (run poor f s ops)).
  Proof.
    intros f ops s. rewrite gate_run_state. apply fold_left_invariant. intros o _ s'. apply gate_step_dq_of_fit.
  Qed.

  Lemma run_app : forall f ops1 ops2 s,
    run poor f s (ops1 ++ ops2) =
    let '(s1, r1) := run poor f s ops1 in
    let '(s2, r2) := run poor f s1 ops2 in (s2, r1 ++ r2).
  Proof.
    intros f. induction ops1 as [|o ops1 IH]; intros ops2 s.
    - cbn [app run]. destruct (run poor f s ops2); reflexivity.
    - cbn [app run]. destruct (step poor f s o) as [s' r]. rewrite IH.
      destruct (run poor f s' ops1) as [s1 r1]. destruct (run poor f s1 ops2) as [s2 r2]. reflexivity.
  Qed.
End GateProofs.
