(* Lemmas about Model/HourlyPrep.v (C17).  Every stage of the interpolation [keeps] what is there; after the time method a
   column is [settled], so the later fall-backs are idle ([fallbacks_time_only]); the prepared column is described once,
   row by row ([frame_of], [prep_col_spec]), and Properties/C17.v reads its theorems about the frame off that. *)
From Coq Require Import ZArith List Bool Lia ZifyBool FMapPositive.
From V Require Import Model.HourlyPrep Proofs.ListFacts.
Import ListNotations.
Open Scope Z_scope.

Lemma present_true : forall {B} (o : option B), present o = true <-> o <> None.
Proof. intros B [b|]; cbn; split; congruence. Qed.
Lemma present_false : forall {B} (o : option B), present o = false <-> o = None.
Proof. intros B [b|]; cbn; split; congruence. Qed.
Lemma missing_true : forall {B} (o : option B), missing o = true <-> o = None.
Proof. intros B [b|]; cbn; split; congruence. Qed.
Lemma missing_false : forall {B} (o : option B), missing o = false <-> o <> None.
Proof. intros B [b|]; cbn; split; congruence. Qed.

Lemma grid_from_In : forall n lo t,
  In t (grid_from n lo) <-> exists k, 0 <= k < Z.of_nat n /\ t = lo + STEP * k.
Proof.
  induction n as [|n IH]; intros lo t; cbn [grid_from In].
  - split; [tauto | intros [k [H _]]; lia].
  - rewrite IH. split.
    + intros [E | [k [Hk E]]].
      * exists 0. lia.
      * exists (k + 1). unfold STEP in *. lia.
    + intros [k [Hk E]]. destruct (Z.eq_dec k 0) as [K | K].
      * left. subst k. lia.
      * right. exists (k - 1). unfold STEP in *. lia.
Qed.

Lemma grid_In : forall lo hi t,
  In t (grid lo hi) <-> lo <= t <= hi /\ (t - lo) mod STEP = 0.
Proof.
  intros lo hi t. unfold grid. rewrite grid_from_In. unfold STEP. split.
  - intros [k [Hk E]]. Z.div_mod_to_equations. lia.
  - intros [[H1 H2] M]. exists ((t - lo) / 60). Z.div_mod_to_equations. lia.
Qed.

(* when lo and hi + STEP are whole hours apart the upper bound can be read exclusively *)
Lemma grid_In_aligned : forall lo hi t, (hi + STEP - lo) mod STEP = 0 ->
  (In t (grid lo hi) <-> lo <= t < hi + STEP /\ (t - lo) mod STEP = 0).
Proof. intros lo hi t Al. rewrite grid_In. unfold STEP in *. Z.div_mod_to_equations. lia. Qed.

Lemma grid_from_length : forall n lo, length (grid_from n lo) = n.
Proof. induction n; intros; cbn; auto. Qed.

Lemma grid_from_nth : forall n lo i a,
  nth_error (grid_from n lo) i = Some a -> a = lo + STEP * Z.of_nat i.
Proof.
  induction n as [|n IH]; intros lo i a H.
  - destruct i; discriminate.
  - destruct i as [|i]; cbn in H.
    + inversion H. lia.
    + apply IH in H. unfold STEP in *. lia.
Qed.

Lemma grid_step : forall lo hi i a b,
  nth_error (grid lo hi) i = Some a -> nth_error (grid lo hi) (S i) = Some b -> b = a + STEP.
Proof.
  unfold grid. intros lo hi i a b Ha Hb.
  apply grid_from_nth in Ha. apply grid_from_nth in Hb. unfold STEP in *. lia.
Qed.

Lemma grid_from_NoDup : forall n lo, NoDup (grid_from n lo).
Proof.
  induction n as [|n IH]; intros lo; cbn; constructor; auto.
  rewrite grid_from_In. intros [k [Hk E]]. unfold STEP in *. lia.
Qed.
Lemma grid_NoDup : forall lo hi, NoDup (grid lo hi).
Proof. intros. apply grid_from_NoDup. Qed.

Fixpoint ascending (l : list Z) : Prop :=
  match l with
  | [] => True
  | a :: rest => (forall b, In b rest -> a < b) /\ ascending rest
  end.

(* the start of the local day that contains t, and of the day after it, as relations *)
Definition day_start_of (bnds : list Z) (t b : Z) : Prop := In b bnds /\ b <= t /\ forall b', In b' bnds -> b' <= t -> b' <= b.
Definition next_day_of (bnds : list Z) (t b : Z) : Prop := In b bnds /\ t < b /\ forall b', In b' bnds -> t < b' -> b <= b'.

Lemma day_start_of_unique : forall bnds t b b', day_start_of bnds t b -> day_start_of bnds t b' -> b = b'.
Proof. intros bnds t b b' [I [L M]] [I' [L' M']]. specialize (M b' I' L'). specialize (M' b I L). lia. Qed.
Lemma next_day_of_unique : forall bnds t b b', next_day_of bnds t b -> next_day_of bnds t b' -> b = b'.
Proof. intros bnds t b b' [I [L M]] [I' [L' M']]. specialize (M b' I' L'). specialize (M' b I L). lia. Qed.

(* [day_start] falls back on [cur] exactly when no boundary is at or before t *)
Lemma day_start_cases : forall bnds t cur, ascending bnds ->
  (forall b, In b bnds -> t < b) /\ day_start bnds t cur = cur \/ day_start_of bnds t (day_start bnds t cur).
Proof.
  induction bnds as [|b0 rest IH]; intros t cur Asc; cbn [day_start].
  - left. split; [intros b [] | reflexivity].
  - destruct Asc as [A1 A2]. destruct (Z.leb_spec b0 t) as [E | E].
    + right. destruct (IH t b0 A2) as [[N S] | [I [L M]]].
      * rewrite S. split; [left; reflexivity|]. split; [exact E|].
        intros b [B | B] Hb; [lia | specialize (N b B); lia].
      * split; [right; exact I|]. split; [exact L|].
        intros b [B | B] Hb; [specialize (A1 _ I); lia | apply M; assumption].
    + left. split; [|reflexivity].
      intros b [B | B]; [lia | specialize (A1 b B); lia].
Qed.

Lemma day_start_spec : forall bnds t cur,
  ascending bnds -> (exists b, In b bnds /\ b <= t) -> day_start_of bnds t (day_start bnds t cur).
Proof.
  intros bnds t cur Asc [b [B L]]. destruct (day_start_cases bnds t cur Asc) as [[N _] | S]; [|exact S].
  specialize (N b B). lia.
Qed.

Lemma day_next_spec : forall bnds t dflt,
  ascending bnds -> (exists b, In b bnds /\ t < b) -> next_day_of bnds t (day_next bnds t dflt).
Proof.
  induction bnds as [|b0 rest IH]; intros t dflt Asc [b [Hb Hlt]]; [destruct Hb|].
  cbn [day_next]. destruct Asc as [A1 A2]. destruct (Z.ltb_spec t b0) as [E | E].
  - split; [left; reflexivity|]. split; [exact E|].
    intros b' [Hb' | Hb'] _; [lia | specialize (A1 b' Hb'); lia].
  - destruct Hb as [Hb | Hb]; [lia|].
    destruct (IH t dflt A2 (ex_intro _ b (conj Hb Hlt))) as [N1 [N2 N3]].
    split; [right; exact N1|]. split; [exact N2|].
    intros b' [Hb' | Hb'] Hlt'; [lia | auto].
Qed.

Definition covers (bnds : list Z) (t : Z) : Prop := (exists b, In b bnds /\ b <= t) /\ (exists b, In b bnds /\ t < b).
Lemma covers_between : forall bnds b0 b1 t, In b0 bnds -> In b1 bnds -> b0 <= t < b1 -> covers bnds t.
Proof. intros bnds b0 b1 t I0 I1 [L U]. split; [exists b0 | exists b1]; auto. Qed.

Definition hour_aligned (bnds : list Z) : Prop := forall b b', In b bnds -> In b' bnds -> (b' - b) mod STEP = 0.

Lemma whole_days_range : forall bnds tmin tmax lo hi,
  ascending bnds -> covers bnds tmin -> covers bnds tmax -> day_range bnds no_skip tmin tmax = (lo, hi) ->
  day_start_of bnds tmin lo /\ next_day_of bnds tmax (hi + STEP).
Proof.
  intros bnds tmin tmax lo hi Asc [C1 _] [_ C2] E.
  unfold day_range, no_skip in E. cbn [lo_fwd hi_back] in E. injection E as E1 E2. subst lo hi.
  rewrite Z.add_0_r, Z.sub_add. split; [apply day_start_spec | apply day_next_spec]; assumption.
Qed.

Section Prep.
  Variable A : Type.
  Variable is_zero : A -> bool.
  Variable lin : A -> A -> Z -> Z -> A.
  Variable est : colname -> col A -> col A.

  Notation cell := (cell A).
  Notation col := (col A).
  Notation row := (row A).

  Definition keeps (x y : col) : Prop := Forall2 (fun a b : cell => forall v, a = Some v -> b = Some v) x y.

  Lemma keeps_refl : forall x, keeps x x.
  Proof. induction x; constructor; auto. Qed.
  Lemma keeps_trans : forall x y z, keeps x y -> keeps y z -> keeps x z.
  Proof.
    intros x y z H. revert z. induction H; intros z Hz; inversion Hz; subst; constructor; auto.
    apply IHForall2. assumption.
  Qed.
  Lemma keeps_length : forall x y, keeps x y -> length y = length x.
  Proof. intros x y H. symmetry. exact (Forall2_len _ _ _ x y H). Qed.

  Lemma merge_fill_keeps : forall x e, keeps x (merge_fill x e).
  Proof.
    induction x as [|xi x IH]; intros e; cbn [merge_fill]; constructor; [|apply IH].
    intros v E. subst xi. reflexivity.
  Qed.

  Lemma autocorr_stage_keeps : forall c x, keeps x (autocorr_stage est c x).
  Proof.
    intros c x. unfold autocorr_stage. destruct (_ <? _); [apply merge_fill_keeps | apply keeps_refl].
  Qed.

  Lemma ann_fst : forall l : col, map fst (fst (ann l)) = l.
  Proof.
    induction l as [|c l IH]; cbn [ann]; auto.
    destruct (ann l) as [r nx] eqn:E. cbn in *. rewrite IH. reflexivity.
  Qed.

  Lemma tl_fwd_keeps : forall l prev, keeps (map fst l) (tl_fwd lin prev l).
  Proof.
    induction l as [|[c nx] l IH]; intros prev; cbn [map tl_fwd fst]; [constructor|].
    destruct c as [v|]; constructor; try apply IH; [auto | intros v E; discriminate].
  Qed.

  Lemma time_linear_keeps : forall x, keeps x (time_linear lin x).
  Proof.
    intros x. unfold time_linear. rewrite <- (ann_fst x) at 1. apply tl_fwd_keeps.
  Qed.

  Lemma ffill_from_keeps : forall x prev, keeps x (ffill_from prev x).
  Proof.
    induction x as [|[v|] x IH]; intros prev; cbn [ffill_from]; constructor; try apply IH; [auto | intros v E; discriminate].
  Qed.

  Lemma bfill_keeps : forall x, keeps x (bfill x).
  Proof.
    induction x as [|c x IH]; cbn [bfill]; constructor; [|apply IH].
    intros v E. subst c. reflexivity.
  Qed.

  (* one step of the loop `for method in ["time", "ffill", "bfill"]`: the method runs only while something is missing *)
  Definition stage (f : col -> col) (z : col) : col := if has_missing z then f z else z.

  Lemma fallbacks_stages : forall x, fallbacks lin x = stage bfill (stage ffill (stage (time_linear lin) x)).
  Proof. reflexivity. Qed.

  Lemma stage_keeps : forall (f : col -> col) z, keeps z (f z) -> keeps z (stage f z).
  Proof. intros f z K. unfold stage. destruct (has_missing z); [exact K | apply keeps_refl]. Qed.

  Lemma fallbacks_keeps : forall x, keeps x (fallbacks lin x).
  Proof.
    intros x. rewrite fallbacks_stages.
    eapply keeps_trans; [apply (stage_keeps (time_linear lin)), time_linear_keeps|].
    eapply keeps_trans; [apply (stage_keeps ffill), ffill_from_keeps | apply (stage_keeps bfill), bfill_keeps].
  Qed.

  Lemma interp_col_keeps : forall c x, keeps x (interp_col lin est c x).
  Proof.
    intros c x. unfold interp_col. eapply keeps_trans; [apply autocorr_stage_keeps | apply fallbacks_keeps].
  Qed.

  Lemma interp_col_length : forall c x, length (interp_col lin est c x) = length x.
  Proof. intros. apply keeps_length. apply interp_col_keeps. Qed.

  Definition has_value (x : col) : Prop := exists v, In (Some v) x.
  Definition all_present (x : col) : Prop := Forall (fun c : cell => c <> None) x.
  Definition all_missing (x : col) : Prop := Forall (fun c : cell => c = None) x.

  Lemma has_missing_false : forall x, has_missing x = false <-> all_present x.
  Proof.
    unfold has_missing, all_present. induction x as [|c x IH]; cbn [existsb]; [split; auto|].
    rewrite orb_false_iff, IH, Forall_cons_iff, missing_false. reflexivity.
  Qed.

  Lemma all_missing_no_value : forall x, all_missing x -> has_missing x = true \/ x = [].
  Proof. intros [|c x] H; [right; reflexivity | left]. inversion H; subst. reflexivity. Qed.

  Lemma value_or_empty : forall x : col, has_value x \/ all_missing x.
  Proof.
    induction x as [|c x IH]; [right; constructor|].
    destruct c as [v|]; [left; exists v; left; reflexivity|].
    destruct IH as [[v Hv] | Hm]; [left; exists v; right; exact Hv | right; constructor; auto].
  Qed.

  Lemma keeps_has_value : forall x y, keeps x y -> has_value x -> has_value y.
  Proof.
    intros x y K [v Hv]. exists v. induction K; [destruct Hv|].
    destruct Hv as [Hv | Hv]; [left; apply H; auto | right; auto].
  Qed.

  Lemma keeps_all_present : forall x y, keeps x y -> all_present x -> all_present y.
  Proof.
    intros x y K. induction K; intros P; [constructor|].
    inversion P; subst. constructor; [|apply IHK; assumption].
    destruct x as [v|]; [rewrite (H v eq_refl); discriminate | congruence].
  Qed.

  Lemma ann_snd_some : forall l : col, has_value l -> snd (ann l) <> None.
  Proof.
    induction l as [|c l IH]; intros [v Hv]; [destruct Hv|].
    cbn [ann]. destruct (ann l) as [r nx] eqn:E. cbn [snd] in *.
    destruct c as [w|]; [cbn; discriminate|].
    destruct Hv as [Hv | Hv]; [discriminate|].
    assert (N : nx <> None) by (apply IH; exists v; auto).
    destruct nx as [[d u]|]; [cbn; discriminate | congruence].
  Qed.

  (* a cell stays empty only with no value behind it and none ahead *)
  Lemma tl_fwd_complete : forall l prev,
    (prev = None -> snd (ann l) <> None) -> all_present (tl_fwd lin prev (fst (ann l))).
  Proof.
    induction l as [|c l IH]; intros prev H; [constructor|].
    cbn [ann] in *. destruct (ann l) as [r nx]. cbn [fst snd tl_fwd] in *.
    destruct c as [w|]; constructor.
    - discriminate.
    - apply IH. discriminate.
    - destruct prev as [[d0 v0]|], nx as [[d1 v1]|]; try discriminate. destruct (H eq_refl eq_refl).
    - apply IH. destruct prev as [[d0 v0]|]; [discriminate|]. intros _.
      destruct nx as [[d1 v1]|]; [discriminate | exact (H eq_refl)].
  Qed.

  Lemma time_linear_complete : forall x, has_value x -> all_present (time_linear lin x).
  Proof. intros x H. unfold time_linear. apply tl_fwd_complete. intros _. apply ann_snd_some. exact H. Qed.

  Lemma ann_all_missing : forall x : col, all_missing x -> snd (ann x) = None /\ fst (ann x) = map (fun c => (c, None)) x.
  Proof.
    induction x as [|c x IH]; intros H; [split; reflexivity|].
    apply Forall_cons_iff in H. destruct H as [-> H]. destruct (IH H) as [S F].
    cbn [ann]. destruct (ann x) as [r nx]. cbn [fst snd] in *. subst nx r. split; reflexivity.
  Qed.

  Lemma tl_fwd_all_missing : forall x : col, all_missing x -> tl_fwd lin None (map (fun c => (c, None)) x) = x.
  Proof.
    induction x as [|c x IH]; intros H; [reflexivity|]. apply Forall_cons_iff in H. destruct H as [-> H].
    cbn [map tl_fwd]. rewrite (IH H). reflexivity.
  Qed.

  Lemma time_linear_all_missing : forall x, all_missing x -> time_linear lin x = x.
  Proof. intros x H. unfold time_linear. destruct (ann_all_missing x H) as [_ F]. rewrite F. apply tl_fwd_all_missing. exact H. Qed.

  Lemma ffill_all_missing : forall x, all_missing x -> ffill x = x.
  Proof.
    unfold ffill. induction x as [|c x IH]; intros H; [reflexivity|]. apply Forall_cons_iff in H. destruct H as [-> H].
    cbn [ffill_from]. rewrite (IH H). reflexivity.
  Qed.

  Lemma bfill_all_missing : forall x, all_missing x -> bfill x = x.
  Proof.
    induction x as [|c x IH]; intros H; [reflexivity|]. apply Forall_cons_iff in H. destruct H as [-> H].
    cbn [bfill present]. rewrite (IH H).
    destruct x as [|d x]; [reflexivity|]. apply Forall_cons_iff in H. destruct H as [-> _]. reflexivity.
  Qed.

  Lemma merge_fill_all_missing : forall x e, all_missing x -> all_missing e -> merge_fill x e = x.
  Proof.
    induction x as [|c x IH]; intros e Hx He; [reflexivity|]. apply Forall_cons_iff in Hx. destruct Hx as [-> Hx].
    cbn [merge_fill present]. destruct e as [|d e]; cbn [hd tl].
    - rewrite (IH [] Hx (Forall_nil _)). reflexivity.
    - apply Forall_cons_iff in He. destruct He as [-> He]. rewrite (IH e Hx He). reflexivity.
  Qed.

  Lemma flags_all_missing : forall x : col, all_missing x -> flags x x = map (fun _ => false) x.
  Proof.
    induction x as [|c x IH]; intros H; [reflexivity|]. apply Forall_cons_iff in H. destruct H as [-> H].
    unfold flags in *. cbn. rewrite (IH H). reflexivity.
  Qed.

  (* after the time method the column is complete, or empty: no later method has anything left to do *)
  Definition settled (z : col) : Prop := has_missing z = false \/ all_missing z.

  Lemma after_time_settled : forall x, settled (stage (time_linear lin) x).
  Proof.
    intros x. unfold stage. destruct (has_missing x) eqn:E; [|left; exact E].
    destruct (value_or_empty x) as [Hv | Hm].
    - left. apply has_missing_false. apply time_linear_complete. exact Hv.
    - right. rewrite time_linear_all_missing by exact Hm. exact Hm.
  Qed.

  Lemma stage_idle : forall (f : col -> col) z, settled z -> (all_missing z -> f z = z) -> stage f z = z.
  Proof. intros f z [S | S] F; unfold stage; [rewrite S; reflexivity | destruct (has_missing z); auto]. Qed.

  Lemma fallbacks_time_only : forall x, fallbacks lin x = stage (time_linear lin) x.
  Proof.
    intros x. rewrite fallbacks_stages. pose proof (after_time_settled x) as S.
    rewrite (stage_idle ffill _ S (ffill_all_missing _)). exact (stage_idle bfill _ S (bfill_all_missing _)).
  Qed.

  Lemma fallbacks_complete : forall x, has_value x -> all_present (fallbacks lin x).
  Proof.
    intros x HV. rewrite fallbacks_time_only. unfold stage. destruct (has_missing x) eqn:E.
    - apply time_linear_complete. exact HV.
    - apply has_missing_false. exact E.
  Qed.

  Lemma fallbacks_all_missing : forall x, all_missing x -> fallbacks lin x = x.
  Proof.
    intros x H. rewrite fallbacks_time_only. unfold stage.
    destruct (has_missing x); [apply time_linear_all_missing; exact H | reflexivity].
  Qed.

  Lemma interp_col_complete : forall c x, has_value x -> all_present (interp_col lin est c x).
  Proof.
    intros c x HV. unfold interp_col. apply fallbacks_complete.
    eapply keeps_has_value; [apply autocorr_stage_keeps | exact HV].
  Qed.

  Lemma ffill_from_present : forall x prev, prev <> None -> all_present (ffill_from prev x).
  Proof.
    induction x as [|[v|] x IH]; intros prev P; cbn [ffill_from]; [constructor | |].
    - constructor; [discriminate | apply IH; discriminate].
    - constructor; [exact P | apply IH; exact P].
  Qed.

  Lemma lookup_cons : forall t (r : row) rows,
    lookup t (r :: rows) = if ts r =? t then Some r else lookup t rows.
  Proof. reflexivity. Qed.

  Lemma lookup_app : forall t (l1 l2 : list row),
    lookup t (l1 ++ l2) = match lookup t l1 with Some r => Some r | None => lookup t l2 end.
  Proof.
    intros t. induction l1 as [|r l1 IH]; intros l2; [reflexivity|].
    cbn [app]. rewrite !lookup_cons. destruct (ts r =? t); [reflexivity | apply IH].
  Qed.

  Lemma lookup_ts : forall t (rows : list row) r, lookup t rows = Some r -> ts r = t /\ In r rows.
  Proof.
    intros t rows r H. apply find_some in H. destruct H as [H1 H2]. apply Z.eqb_eq in H2. auto.
  Qed.

  Lemma lookup_some_iff : forall t (rows : list row), (exists r, lookup t rows = Some r) <-> In t (map ts rows).
  Proof.
    intros t rows. split.
    - intros [r H]. apply lookup_ts in H. destruct H as [E I]. rewrite <- E. apply in_map. exact I.
    - intros I. apply in_map_iff in I. destruct I as [x [E I]].
      destruct (lookup t rows) as [r|] eqn:L; [exists r; reflexivity|].
      pose proof (find_none _ _ L x I) as N. cbn beta in N. lia.
  Qed.

  Lemma lookup_remove_dups_from : forall t (rows : list row) seen,
    lookup t (remove_dups_from seen rows) = if existsb (Z.eqb t) seen then None else lookup t rows.
  Proof.
    intros t. induction rows as [|r rows IH]; intros seen.
    - cbn. destruct (existsb _ seen); reflexivity.
    - cbn [remove_dups_from]. destruct (existsb (Z.eqb (ts r)) seen) eqn:E.
      + rewrite IH, lookup_cons. destruct (ts r =? t) eqn:Et; [|reflexivity].
        apply Z.eqb_eq in Et. subst t. rewrite E. reflexivity.
      + rewrite !lookup_cons, IH. cbn [existsb]. destruct (ts r =? t) eqn:Et.
        * apply Z.eqb_eq in Et. subst t. rewrite E. reflexivity.
        * rewrite Z.eqb_sym, Et. reflexivity.
  Qed.

  Lemma lookup_remove_duplicates : forall t (rows : list row), lookup t (remove_duplicates rows) = lookup t rows.
  Proof. intros. unfold remove_duplicates. rewrite lookup_remove_dups_from. reflexivity. Qed.

  Lemma lookup_map : forall (f : row -> row), (forall r, ts (f r) = ts r) ->
    forall t rows, lookup t (map f rows) = option_map f (lookup t rows).
  Proof.
    intros f Hf t. induction rows as [|r rows IH]; [reflexivity|].
    cbn [map]. rewrite !lookup_cons, Hf. destruct (ts r =? t); [reflexivity | exact IH].
  Qed.

  Lemma lookup_later_duplicate : forall t (l1 : list row) r l2 r' l3, ts r' = ts r ->
    lookup t (l1 ++ r :: l2 ++ r' :: l3) = lookup t (l1 ++ r :: l2 ++ l3).
  Proof.
    intros t l1 r l2 r' l3 E. rewrite !lookup_app, !lookup_cons, !lookup_app, lookup_cons, E.
    destruct (ts r =? t); reflexivity.
  Qed.

  Lemma supplied_other_columns : forall elec (rows : list row) t c, c <> Obs ->
    supplied is_zero elec rows t c = match lookup t rows with Some r => get c r | None => None end.
  Proof. intros elec rows t c N. unfold supplied. destruct (lookup t rows); [|reflexivity]. destruct c; [reflexivity | congruence | reflexivity]. Qed.

  Lemma reindexed_is_supplied : forall elec g rows c,
    map (get c) (reindex g (remove_duplicates (map (zero_to_nan is_zero elec) rows))) =
    map (fun t => supplied is_zero elec rows t c) g.
  Proof.
    intros elec g rows c. unfold reindex. rewrite map_map. apply map_ext. intros t.
    rewrite lookup_remove_duplicates, (lookup_map (zero_to_nan is_zero elec)) by reflexivity. unfold supplied.
    destruct (lookup t rows); cbn [option_map]; [reflexivity | destruct c; reflexivity].
  Qed.

  (* the row of the frame at a stamp, given the cell the interpolation left there; [h]: what was supplied *)
  Definition flagged (h : Z -> cell) (p : Z * cell) : Z * cell * bool :=
    (fst p, snd p, missing (h (fst p)) && present (snd p)).

  Lemma flagged_rows : forall (h : Z -> cell) g y,
    combine (combine g y) (flags (map h g) y) = map (flagged h) (combine g y).
  Proof.
    intros h. induction g as [|t g IH]; intros [|v y]; try reflexivity.
    unfold flags in *. cbn [map combine]. rewrite IH. reflexivity.
  Qed.

  Lemma in_flagged : forall (h : Z -> cell) gy t v f,
    In (t, v, f) (map (flagged h) gy) <-> In (t, v) gy /\ f = missing (h t) && present v.
  Proof.
    intros h gy t v f. rewrite in_map_iff. split.
    - intros [[t' v'] [E I]]. injection E as -> -> <-. auto.
    - intros [I ->]. exists (t, v). auto.
  Qed.

  Lemma keeps_rows : forall (h : Z -> cell) g y, keeps (map h g) y ->
    forall t v a, In (t, v) (combine g y) -> h t = Some a -> v = Some a.
  Proof.
    intros h. induction g as [|t0 g IH]; intros y K t v a I E; inversion K; subst; [destruct I|].
    destruct I as [I | I]; [injection I as <- <-; auto | eauto].
  Qed.

  Lemma in_map_fst : forall (gy : list (Z * cell)) t, In t (map fst gy) <-> exists v, In (t, v) gy.
  Proof.
    intros gy t. rewrite in_map_iff. split.
    - intros [[t' v] [<- I]]. exists v. exact I.
    - intros [v I]. exists (t, v). auto.
  Qed.

  Lemma flags_length : forall x y : col, length y = length x -> length (flags x y) = length x.
  Proof. intros. unfold flags. rewrite map_length, combine_length. lia. Qed.

  Lemma prep_col_range_rows : forall elec lo hi rows c,
    let sup := fun t => supplied is_zero elec rows t c in
    prep_col_range is_zero lin est elec lo hi rows c =
    map (flagged sup) (combine (grid lo hi) (interp_col lin est c (map sup (grid lo hi)))).
  Proof. intros. unfold prep_col_range. cbn zeta. rewrite reindexed_is_supplied. apply flagged_rows. Qed.

  (* What every theorem about the frame reads off: [o] is a frame over the stamps [g] for the supplied cells [h].
     Each stamp of g is paired with a cell that agrees with what was supplied there, and flagged when it holds a value
     that was not supplied; no cell is empty once one stamp of g carries a supplied value. *)
  Definition frame_of (h : Z -> cell) (g : list Z) (o : out_col A) : Prop :=
    exists gy : list (Z * cell),
      o = map (flagged h) gy /\ map fst gy = g /\
      (forall t v a, In (t, v) gy -> h t = Some a -> v = Some a) /\
      ((exists t a, In t g /\ h t = Some a) -> forall t v, In (t, v) gy -> v <> None).

  Definition stamps (o : out_col A) : list Z := map (fun p : Z * cell * bool => fst (fst p)) o.

  Lemma frame_of_stamps : forall h g o, frame_of h g o -> stamps o = g.
  Proof. intros h g o [gy [-> [F _]]]. unfold stamps. rewrite map_map. exact F. Qed.

  Lemma frame_of_row : forall h g o t v f, frame_of h g o -> In (t, v, f) o ->
    In t g /\ f = missing (h t) && present v /\ forall a, h t = Some a -> v = Some a.
  Proof.
    intros h g o t v f [gy [-> [F [K _]]]] I. apply in_flagged in I. destruct I as [I ->].
    split; [rewrite <- F; apply in_map_fst; exists v; exact I|]. split; [reflexivity | intros a S; exact (K t v a I S)].
  Qed.

  Lemma frame_of_stamp_row : forall h g o t, frame_of h g o -> In t g -> exists v, In (t, v, missing (h t) && present v) o.
  Proof.
    intros h g o t [gy [-> [F _]]] G. rewrite <- F in G. apply in_map_fst in G. destruct G as [v I].
    exists v. apply in_flagged. auto.
  Qed.

  Lemma frame_of_complete : forall h g o, frame_of h g o -> (exists t a, In t g /\ h t = Some a) ->
    forall t v f, In (t, v, f) o -> v <> None.
  Proof. intros h g o [gy [-> [_ [_ C]]]] W t v f I. apply in_flagged in I. exact (C W t v (proj1 I)). Qed.

  (* blanking what is flagged gives back what was supplied: a supplied cell is there unflagged; an empty one is either
     still empty or flagged, hence blanked *)
  Lemma frame_of_sufficiency : forall h g o, frame_of h g o -> sufficiency_col o = map (fun t => (t, h t)) g.
  Proof.
    intros h g o [gy [-> [<- [K _]]]]. unfold sufficiency_col. rewrite !map_map. apply map_ext_in. intros [t v] I.
    cbn [flagged fst snd]. f_equal.
    destruct (h t) as [a|] eqn:S; [rewrite (K t v a I S); reflexivity | destruct v; reflexivity].
  Qed.

  Lemma prep_col_range_spec : forall elec lo hi rows c,
    frame_of (fun t => supplied is_zero elec rows t c) (grid lo hi) (prep_col_range is_zero lin est elec lo hi rows c).
  Proof.
    intros elec lo hi rows c.
    set (sup := fun t => supplied is_zero elec rows t c).
    exists (combine (grid lo hi) (interp_col lin est c (map sup (grid lo hi)))).
    split; [apply prep_col_range_rows|].
    split; [apply map_fst_combine; rewrite interp_col_length, map_length; apply Nat.le_refl|].
    split; [apply (keeps_rows sup), interp_col_keeps|].
    intros [t0 [a [G S]]] t v I. apply in_combine_r in I.
    revert v I. apply Forall_forall. apply interp_col_complete.
    exists a. rewrite <- S. apply (in_map sup). exact G.
  Qed.

  Section Range.
    Variable elec : bool.
    Variables lo hi : Z.
    Variable rows : list row.
    Variable c : colname.
    Let sup := fun t => supplied is_zero elec rows t c.
    Let out := prep_col_range is_zero lin est elec lo hi rows c.

    Lemma every_stamp_l : forall t, In t (grid lo hi) -> exists v f, In (t, v, f) out.
    Proof.
      intros t G. destruct (frame_of_stamp_row _ _ _ t (prep_col_range_spec elec lo hi rows c) G) as [v I].
      exists v, (missing (sup t) && present v). exact I.
    Qed.
  End Range.

  Lemma prep_col_spec : forall elec bnds e rows c, exists lo hi, frame_range bnds e rows = (lo, hi) /\
    frame_of (fun t => supplied is_zero elec rows t c) (grid lo hi) (prep_col is_zero lin est elec bnds e rows c).
  Proof.
    intros elec bnds e rows c. unfold prep_col. destruct (frame_range bnds e rows) as [lo hi].
    exists lo, hi. split; [reflexivity | apply prep_col_range_spec].
  Qed.

  Lemma prep_col_row : forall elec bnds e rows c t v f, In (t, v, f) (prep_col is_zero lin est elec bnds e rows c) ->
    f = missing (supplied is_zero elec rows t c) && present v /\
    forall a, supplied is_zero elec rows t c = Some a -> v = Some a.
  Proof.
    intros elec bnds e rows c t v f H. destruct (prep_col_spec elec bnds e rows c) as (lo & hi & _ & F).
    exact (proj2 (frame_of_row _ _ _ _ _ _ F H)).
  Qed.

  Definition is_min (rows : list row) (m : Z) : Prop := (exists x, In x rows /\ ts x = m) /\ forall x, In x rows -> m <= ts x.
  Definition is_max (rows : list row) (m : Z) : Prop := (exists x, In x rows /\ ts x = m) /\ forall x, In x rows -> ts x <= m.

  (* [is_min] and [is_max] at once: an order [le] with its binary extremum [op], Z.le with Z.min or the converse with Z.max;
     [is_min] is [extreme Z.le], [is_max] is [extreme (fun a b => b <= a)] by unfolding *)
  Section Extreme.
    Variable le : Z -> Z -> Prop.
    Variable op : Z -> Z -> Z.
    Hypothesis le_trans : forall a b c, le a b -> le b c -> le a c.
    Hypothesis le_refl : forall a, le a a.
    Hypothesis op_spec : forall a b, le (op a b) a /\ le (op a b) b /\ (op a b = a \/ op a b = b).

    Definition extreme (rows : list row) (m : Z) : Prop :=
      (exists x, In x rows /\ ts x = m) /\ forall x, In x rows -> le m (ts x).

    Lemma extreme_snoc : forall rows x m, extreme rows m -> extreme (rows ++ [x]) (op m (ts x)).
    Proof.
      intros rows x m [[y [Y1 Y2]] B]. destruct (op_spec m (ts x)) as [O1 [O2 O3]]. split.
      - destruct O3 as [-> | ->]; [exists y | exists x]; rewrite in_app_iff; cbn; auto.
      - intros z Z. apply in_app_iff in Z.
        destruct Z as [Z | [<- | []]]; [eapply le_trans; [exact O1 | apply B, Z] | exact O2].
    Qed.

    Lemma fold_extreme : forall (r : row) rest, extreme (r :: rest) (fold_left (fun m x => op m (ts x)) rest (ts r)).
    Proof.
      intros r rest. induction rest as [|x rest IH] using rev_ind.
      - split; [exists r; split; [left|]; reflexivity | intros x [<- | []]; apply le_refl].
      - rewrite fold_left_app. apply (extreme_snoc (r :: rest)). exact IH.
    Qed.

    Lemma extreme_same_stamps : forall (rows rows' : list row) m,
      (forall t, In t (map ts rows) <-> In t (map ts rows')) -> extreme rows m -> extreme rows' m.
    Proof.
      intros rows rows' m S [[x [X1 X2]] M]. split.
      - assert (I : In m (map ts rows')) by (apply S; rewrite <- X2; apply in_map; exact X1).
        apply in_map_iff in I. destruct I as [y [Y1 Y2]]. exists y. auto.
      - intros y Y. assert (I : In (ts y) (map ts rows)) by (apply S; apply in_map; exact Y).
        apply in_map_iff in I. destruct I as [z [Z1 Z2]]. rewrite <- Z1. auto.
    Qed.

    Lemma extreme_unique : (forall a b, le a b -> le b a -> a = b) ->
      forall rows a b, extreme rows a -> extreme rows b -> a = b.
    Proof. intros Anti rows a b [[x [X1 X2]] HA] [[y [Y1 Y2]] HB]. subst a b. exact (Anti _ _ (HA y Y1) (HB x X1)). Qed.
  End Extreme.

  Lemma ts_min_is_min : forall (r : row) rest, is_min (r :: rest) (ts_min r rest).
  Proof. apply (fold_extreme Z.le Z.min); intros; lia. Qed.
  Lemma ts_max_is_max : forall (r : row) rest, is_max (r :: rest) (ts_max r rest).
  Proof. apply (fold_extreme (fun a b => b <= a) Z.max); intros; lia. Qed.

  Lemma is_min_unique : forall rows a b, is_min rows a -> is_min rows b -> a = b.
  Proof. apply (extreme_unique Z.le). intros; lia. Qed.
  Lemma is_max_unique : forall rows a b, is_max rows a -> is_max rows b -> a = b.
  Proof. apply (extreme_unique (fun a b => b <= a)). intros; lia. Qed.

  Lemma min_max_exist : forall rows : list row, rows <> [] -> exists tmin tmax, is_min rows tmin /\ is_max rows tmax.
  Proof.
    intros [|r rest] N; [congruence|]. exists (ts_min r rest), (ts_max r rest). split; [apply ts_min_is_min | apply ts_max_is_max].
  Qed.

  Lemma frame_range_spec : forall bnds e (rows : list row) tmin tmax, is_min rows tmin -> is_max rows tmax ->
    frame_range bnds e rows = day_range bnds e tmin tmax.
  Proof.
    intros bnds e [|r rest] tmin tmax Hmin Hmax; [destruct Hmin as [[x [[] _]] _]|].
    rewrite (is_min_unique _ _ _ Hmin (ts_min_is_min r rest)), (is_max_unique _ _ _ Hmax (ts_max_is_max r rest)). reflexivity.
  Qed.

  Lemma frame_range_same_stamps : forall bnds e (rows rows' : list row),
    (forall t, In t (map ts rows) <-> In t (map ts rows')) -> frame_range bnds e rows = frame_range bnds e rows'.
  Proof.
    intros bnds e rows rows' S. destruct rows as [|r rest].
    - destruct rows' as [|r' rest']; [reflexivity|]. exfalso. apply (S (ts r')). left. reflexivity.
    - symmetry. apply frame_range_spec.
      + apply (extreme_same_stamps Z.le (r :: rest)); [exact S | apply ts_min_is_min].
      + apply (extreme_same_stamps (fun a b => b <= a) (r :: rest)); [exact S | apply ts_max_is_max].
  Qed.

  (* the frame depends on the input only through [lookup]: through the first row of every stamp *)
  Lemma prep_col_range_lookup_ext : forall elec lo hi (rows rows' : list row) c,
    (forall t, lookup t rows = lookup t rows') ->
    prep_col_range is_zero lin est elec lo hi rows c = prep_col_range is_zero lin est elec lo hi rows' c.
  Proof.
    intros elec lo hi rows rows' c H. unfold prep_col_range. cbn zeta. rewrite !reindexed_is_supplied.
    rewrite (map_ext (fun t => supplied is_zero elec rows t c) (fun t => supplied is_zero elec rows' t c)); [reflexivity|].
    intros t. unfold supplied. rewrite H. reflexivity.
  Qed.

  Lemma prep_col_lookup_ext : forall elec bnds e (rows rows' : list row) c,
    (forall t, lookup t rows = lookup t rows') ->
    prep_col is_zero lin est elec bnds e rows c = prep_col is_zero lin est elec bnds e rows' c.
  Proof.
    intros elec bnds e rows rows' c H. unfold prep_col.
    rewrite (frame_range_same_stamps bnds e rows rows') by (intros t; rewrite <- !lookup_some_iff, H; reflexivity).
    destruct (frame_range bnds e rows') as [lo hi]. apply prep_col_range_lookup_ext. exact H.
  Qed.

  Definition on_the_hour (bnds : list Z) (rows : list row) : Prop :=
    forall r b, In r rows -> In b bnds -> (ts r - b) mod STEP = 0.
  Definition well_formed (bnds : list Z) (rows : list row) : Prop :=
    rows <> [] /\ ascending bnds /\ hour_aligned bnds /\ (forall r, In r rows -> covers bnds (ts r)) /\ on_the_hour bnds rows.

  (* boundaries and stamps on the hour grid of the epoch, the stamps between two of the boundaries; in a form a concrete
     calendar and input meet by evaluation *)
  Lemma well_formed_intro : forall bnds (rows : list row) b0 b1,
    rows <> [] -> ascending bnds -> In b0 bnds -> In b1 bnds ->
    forallb (fun b => b mod STEP =? 0) bnds = true ->
    forallb (fun r => (ts r mod STEP =? 0) && (b0 <=? ts r) && (ts r <? b1)) rows = true -> well_formed bnds rows.
  Proof.
    intros bnds rows b0 b1 N Asc I0 I1 M H. rewrite forallb_forall in M, H. split; [exact N|]. split; [exact Asc|].
    split; [intros b b' B B'; pose proof (M b B); pose proof (M b' B'); unfold STEP in *; Z.div_mod_to_equations; lia|].
    split; [intros r R; apply (covers_between bnds b0 b1); [assumption.. | specialize (H r R); lia]|].
    intros r b R B. specialize (H r R). specialize (M b B). unfold STEP in *. Z.div_mod_to_equations. lia.
  Qed.

  (* on a regular calendar, without a `fold` situation: from the start of the first supplied day to the start of the
     day after the last, every hour *)
  Lemma frame_whole_days : forall bnds rows lo hi tmin tmax,
    ascending bnds -> hour_aligned bnds -> (forall r, In r rows -> covers bnds (ts r)) ->
    is_min rows tmin -> is_max rows tmax -> frame_range bnds no_skip rows = (lo, hi) ->
    day_start_of bnds tmin lo /\ next_day_of bnds tmax (hi + STEP) /\
    forall t, In t (grid lo hi) <-> lo <= t < hi + STEP /\ (t - lo) mod STEP = 0.
  Proof.
    intros bnds rows lo hi tmin tmax Asc Al Cov Hmin Hmax E.
    rewrite (frame_range_spec _ _ _ _ _ Hmin Hmax) in E.
    destruct Hmin as [[x [X1 X2]] _]. destruct Hmax as [[y [Y1 Y2]] _].
    assert (C1 : covers bnds tmin) by (rewrite <- X2; apply Cov; exact X1).
    assert (C2 : covers bnds tmax) by (rewrite <- Y2; apply Cov; exact Y1).
    destruct (whole_days_range bnds tmin tmax lo hi Asc C1 C2 E) as [D N].
    split; [exact D|]. split; [exact N|]. intros t. apply grid_In_aligned. apply Al; [apply D | apply N].
  Qed.

  Definition whole_days_for (bnds : list Z) (rows : list row) (o : out_col A) : Prop :=
    forall tmin tmax b0 b1, is_min rows tmin -> is_max rows tmax -> day_start_of bnds tmin b0 -> next_day_of bnds tmax b1 ->
    forall t, In t (stamps o) <-> b0 <= t < b1 /\ (t - b0) mod STEP = 0.

  Lemma prep_col_whole_days : forall elec bnds rows c,
    ascending bnds -> hour_aligned bnds -> (forall r, In r rows -> covers bnds (ts r)) ->
    whole_days_for bnds rows (prep_col is_zero lin est elec bnds no_skip rows c).
  Proof.
    intros elec bnds rows c Asc Al Cov tmin tmax b0 b1 Hmin Hmax D0 N1 t.
    destruct (prep_col_spec elec bnds no_skip rows c) as (lo & hi & R & F).
    destruct (frame_whole_days bnds rows lo hi tmin tmax Asc Al Cov Hmin Hmax R) as [D [N G]].
    rewrite (day_start_of_unique _ _ _ _ D0 D), (next_day_of_unique _ _ _ _ N1 N), (frame_of_stamps _ _ _ F). apply G.
  Qed.

  Lemma supplied_stamp_in_frame : forall bnds rows lo hi r, well_formed bnds rows ->
    frame_range bnds no_skip rows = (lo, hi) -> In r rows -> In (ts r) (grid lo hi).
  Proof.
    intros bnds rows lo hi r [N [Asc [Al [Cov OH]]]] E R.
    destruct (min_max_exist rows N) as [tmin [tmax [Hmin Hmax]]].
    destruct (frame_whole_days bnds rows lo hi tmin tmax Asc Al Cov Hmin Hmax E) as [[Lo_bnd [Lo_le _]] [[_ [Hi_gt _]] G]].
    (* lo <= tmin <= ts r <= tmax < hi + STEP, and ts r is whole hours from the boundary lo *)
    apply G. pose proof (proj2 Hmin r R). pose proof (proj2 Hmax r R). split; [lia | apply OH; assumption].
  Qed.

  Lemma key_inj : forall lo a b, lo <= a -> lo <= b -> key lo a = key lo b -> a = b.
  Proof. unfold key. intros lo a b Ha Hb E. apply Z2Pos.inj in E; lia. Qed.

  Definition index_step (lo : Z) (m : PositiveMap.t row) (r : row) : PositiveMap.t row :=
    if ts r <? lo then m
    else if PositiveMap.mem (key lo (ts r)) m then m
    else PositiveMap.add (key lo (ts r)) r m.

  Lemma index_fold_find : forall lo t, lo <= t -> forall rows m,
    PositiveMap.find (key lo t) (fold_left (index_step lo) rows m) =
    match PositiveMap.find (key lo t) m with Some r => Some r | None => lookup t rows end.
  Proof.
    intros lo t Ht. induction rows as [|r rows IH]; intros m; cbn [fold_left].
    - destruct (PositiveMap.find _ m); reflexivity.
    - rewrite IH, lookup_cons. unfold index_step. destruct (Z.eqb_spec (ts r) t) as [Et | Et].
      + (* r carries the stamp looked for: it is entered unless the stamp is taken *)
        subst t. replace (ts r <? lo) with false by lia.
        rewrite PositiveMap.mem_find. destruct (PositiveMap.find (key lo (ts r)) m) eqn:F; [rewrite F | rewrite PositiveMap.gss]; reflexivity.
      + (* another stamp: whatever happens to r, the entry of t is untouched *)
        destruct (ts r <? lo) eqn:E1; [reflexivity|]. destruct (PositiveMap.mem (key lo (ts r)) m); [reflexivity|].
        rewrite PositiveMap.gso; [reflexivity|]. intros K. apply key_inj in K; lia.
  Qed.

  Lemma index_rows_find : forall lo t (rows : list row), lo <= t ->
    PositiveMap.find (key lo t) (index_rows lo rows) = lookup t rows.
  Proof.
    intros lo t rows Ht. change (index_rows lo rows) with (fold_left (index_step lo) rows (PositiveMap.empty row)).
    rewrite (index_fold_find lo t Ht). rewrite PositiveMap.gempty. reflexivity.
  Qed.

  Lemma reindex_fast_eq : forall lo g (rows : list row), (forall t, In t g -> lo <= t) ->
    reindex_fast lo g rows = reindex g (remove_duplicates rows).
  Proof.
    intros lo g rows H. unfold reindex_fast, reindex. apply map_ext_in. intros t Ht.
    rewrite index_rows_find by auto. rewrite lookup_remove_duplicates. reflexivity.
  Qed.

  Lemma prep_col_range_fast_eq : forall elec lo hi rows c,
    prep_col_range_fast is_zero lin est elec lo hi rows c = prep_col_range is_zero lin est elec lo hi rows c.
  Proof.
    intros. unfold prep_col_range_fast, prep_col_range. cbn zeta.
    rewrite reindex_fast_eq; [reflexivity|]. intros t Ht. apply grid_In in Ht. lia.
  Qed.
End Prep.

(* outside the section the payload type, and whatever a hypothesis of the lemma fixes, is implicit *)
Arguments frame_of_stamps {A h g o}.
Arguments frame_of_row {A h g o t v f}.
Arguments frame_of_stamp_row {A h g o t}.
Arguments frame_of_complete {A h g o}.
Arguments frame_of_sufficiency {A h g o}.
Arguments prep_col_spec {A}.
Arguments prep_col_row {A is_zero lin est elec bnds e rows c t v f}.
Arguments prep_col_whole_days {A}.
Arguments stage {A}.
Arguments stage_idle {A}.
Arguments frame_whole_days {A bnds rows lo hi tmin tmax}.
Arguments supplied_stamp_in_frame {A bnds rows lo hi r}.

Lemma not_in_by_existsb : forall t l, existsb (Z.eqb t) l = false -> ~ In t l.
Proof.
  intros t l H I. assert (E : existsb (Z.eqb t) l = true) by (apply existsb_exists; exists t; split; [auto | apply Z.eqb_refl]).
  congruence.
Qed.

(* concrete witnesses (payload Z) for the refuted statements of Properties/C17.v *)
Definition zlin (v0 v1 d0 d1 : Z) : Z := v0 + (v1 - v0) * d0 / (d0 + d1).
Definition zzero (v : Z) : bool := v =? 0.
Definition id_est (c : colname) (x : col Z) : col Z := x.
Definition R (t : Z) (a b c : option Z) : row Z := mkrow t a b c.

(* one 25-hour day (boundaries 0 and 1500), one supplied row *)
Definition w_bnds : list Z := [0; 1500].
Definition w_rows (t : Z) : list (row Z) := [R t (Some 5) (Some 1) None].

Lemma w_wf : forall t, 0 <= t < 1500 -> t mod 60 = 0 -> well_formed Z w_bnds (w_rows t).
Proof.
  intros t Ht Hm. apply (well_formed_intro Z w_bnds (w_rows t) 0 1500).
  - discriminate.
  - cbn. repeat split; intros b H; lia.
  - left. reflexivity.
  - right. left. reflexivity.
  - reflexivity.
  - cbn [w_rows forallb R ts]. unfold STEP. lia.
Qed.

Lemma w_min : forall t, is_min Z (w_rows t) t.
Proof. intros t. exact (ts_min_is_min Z (R t (Some 5) (Some 1) None) []). Qed.
Lemma w_max : forall t, is_max Z (w_rows t) t.
Proof. intros t. exact (ts_max_is_max Z (R t (Some 5) (Some 1) None) []). Qed.
Lemma w_day_start : forall t, 0 <= t < 1500 -> day_start_of w_bnds t 0.
Proof. intros t Ht. split; [left; reflexivity|]. split; [lia|]. intros b' [B | [B | []]] L; subst; lia. Qed.
Lemma w_next_day : forall t, 0 <= t < 1500 -> next_day_of w_bnds t 1500.
Proof. intros t Ht. split; [right; left; reflexivity|]. split; [lia|]. intros b' [B | [B | []]] L; subst; lia. Qed.

Lemma w_last_not_in : ~ In 1440 (stamps Z (prep_col zzero zlin id_est true w_bnds (mkedges 0 120) (w_rows 600) Temp)).
Proof. apply not_in_by_existsb. vm_compute. reflexivity. Qed.
Lemma w_first_not_in : ~ In 0 (stamps Z (prep_col zzero zlin id_est true w_bnds (mkedges 60 60) (w_rows 60) Temp)).
Proof. apply not_in_by_existsb. vm_compute. reflexivity. Qed.

(* a calendar whose second day starts 30 minutes off the hour grid of the first *)
Definition s_bnds : list Z := [0; 1410; 2850].
Definition s_rows : list (row Z) := [R 0 (Some 5) (Some 1) None; R 1470 (Some 9) (Some 2) None].
Lemma s_covers : forall r, In r s_rows -> covers s_bnds (ts r).
Proof.
  intros r H. apply (covers_between s_bnds 0 2850); [left; reflexivity | do 2 right; left; reflexivity|].
  destruct H as [H | [H | []]]; subst r; cbn; lia.
Qed.
