(* The structure of the selection code as it is modelled ([reference_tables]: the loop shape of _best_combination,
   the guards and expressions of selection_criteria.py, the three expressions of _combination_selection_criteria /
   _get_error_metrics - written down here once, in the vocabulary of Model/SelectShape.v) means exactly the
   hand-written models: Model/SelCrit.v (for every numeric instance and every input) and Model/Splits.v (best).
   Every lemma is stated for any tables equal to the reference, so that Properties/C13.v can apply it to the tables
   harness/translate_select.py regenerates from the source text on every run (Generated/SelectGen.v) by [eq_refl]:
   a source edit then breaks that obligation.  Nothing here is over the reals. *)
From Coq Require Import ZArith List Bool String.
From V Require Import Model.Num Model.SelCrit Model.Splits Model.SelectShape.
Import ListNotations.
Open Scope string_scope.

(* DailyModel._best_combination: start from +inf; `new < incumbent` alone; both fields updated; the name returned *)
Definition ref_best_loop : loop_shape :=
  {| ls_init := InitPosInf; ls_iter := "self.combinations"%string; ls_crit_call := "self._combination_selection_criteria"%string; ls_cmp := CmpLt; ls_new_on_left := true;
     ls_extra_conditions := 0%nat; ls_updates_name := true; ls_updates_crit := true; ls_other_statements := 0%nat;
     ls_returns_name := true |}.

(* DailyModel._combination_selection_criteria / _get_error_metrics *)
Definition ref_components_src : string := "combination.split('__')"%string.
Definition ref_num_coeffs : expr := (ELen "components"%string).
Definition ref_loss : expr := (EDiv (EVar "wRMSE"%string) (EVar "self.wRMSE_base"%string)).
Definition ref_wrmse : expr := (ESqrt (EDiv (EVar "wSSE"%string) (EVar "N"%string))).
Definition ref_call_args : list string := ["loss"%string; "TSS"%string; "N"%string; "num_coeffs"%string; "criteria_type"%string; "penalty_multiplier"%string; "penalty_power"%string].

(* selection_criteria.py *)
Definition ref_nll_guards : list (string * cmp_op * Z) := [("loss"%string, CmpLe, 0%Z); ("N"%string, CmpLe, 0%Z)].
Definition ref_nll : expr := (EMul (EDiv (ENeg (EVar "N"%string)) (EConst 2%Z)) (EAdd (EAdd (ELog ETwoPi) (ELog (EDiv (EVar "loss"%string) (EVar "N"%string)))) (EConst 1%Z))).
Definition ref_crit_args : list string := ["loss"%string; "TSS"%string; "N"%string; "num_coeffs"%string; "model_selection_criteria"%string; "penalty_multiplier"%string; "penalty_power"%string].
Definition ref_dfp : expr := (ESub (ESub (EVar "N"%string) (EVar "num_coeffs"%string)) (EConst 1%Z)).
Definition ref_dfp_guard : string * cmp_op * Z := ("df_penalized"%string, CmpLe, 0%Z).
Definition ref_dfp_fallback : expr := ETiny.
Definition ref_branches : list (string * expr) :=
  [
   ("rmse"%string, (ESqrt (EDiv (EVar "loss"%string) (EVar "N"%string)))); 
   ("rmse_adj"%string, (ESqrt (EDiv (EVar "loss"%string) (EVar "df_penalized"%string)))); 
   ("r_squared"%string, (EMul (ESub (EConst 1%Z) (ESub (EConst 1%Z) (EDiv (EVar "loss"%string) (EVar "TSS"%string)))) (EConst 100%Z))); 
   ("r_squared_adj"%string, (EMul (ESub (EConst 1%Z) (ESub (EConst 1%Z) (EMul (ESub (EConst 1%Z) (ESub (EConst 1%Z) (EDiv (EVar "loss"%string) (EVar "TSS"%string)))) (EDiv (ESub (EVar "N"%string) (EConst 1%Z)) (EVar "df_penalized"%string))))) (EConst 100%Z))); 
   ("fpe"%string, (EDiv (EMul (EVar "loss"%string) (EAdd (EAdd (EVar "N"%string) (EVar "num_coeffs"%string)) (EConst 1%Z))) (EVar "df_penalized"%string))); 
   ("aic"%string, (EAdd (EMul (ENeg (EConst 2%Z)) (ECall "neg_log_likelihood"%string ["loss"%string; "N"%string])) (EMul (EMul (EVar "penalty_multiplier"%string) (EConst 2%Z)) (EPow (EVar "num_coeffs"%string) (EVar "penalty_power"%string))))); 
   ("aicc"%string, (EAdd (EMul (ENeg (EConst 2%Z)) (ECall "neg_log_likelihood"%string ["loss"%string; "N"%string])) (EMul (EVar "penalty_multiplier"%string) (EPow (EAdd (EMul (EConst 2%Z) (EVar "num_coeffs"%string)) (EDiv (EMul (EMul (EConst 2%Z) (EVar "num_coeffs"%string)) (EAdd (EVar "num_coeffs"%string) (EConst 1%Z))) (EVar "df_penalized"%string))) (EVar "penalty_power"%string))))); 
   ("caic"%string, (EAdd (EMul (ENeg (EConst 2%Z)) (ECall "neg_log_likelihood"%string ["loss"%string; "N"%string])) (EMul (EMul (EVar "penalty_multiplier"%string) (EVar "num_coeffs"%string)) (EPow (EAdd (ELog (EVar "N"%string)) (EConst 1%Z)) (EVar "penalty_power"%string))))); 
   ("bic"%string, (EAdd (EMul (ENeg (EConst 2%Z)) (ECall "neg_log_likelihood"%string ["loss"%string; "N"%string])) (EMul (EMul (EVar "penalty_multiplier"%string) (EVar "num_coeffs"%string)) (EPow (ELog (EVar "N"%string)) (EVar "penalty_power"%string))))); 
   ("sabic"%string, (EAdd (EMul (ENeg (EConst 2%Z)) (ECall "neg_log_likelihood"%string ["loss"%string; "N"%string])) (EMul (EMul (EVar "penalty_multiplier"%string) (EVar "num_coeffs"%string)) (EPow (ELog (EDiv (EAdd (EVar "N"%string) (EConst 2%Z)) (EConst 24%Z))) (EVar "penalty_power"%string)))))].
Definition ref_unnormalised : list string := ["rmse"%string; "rmse_adj"%string].
Definition ref_normalise_by : string := "N"%string.

Definition reference_tables : sel_tables :=
  {| t_loop := ref_best_loop; t_components_src := ref_components_src; t_num_coeffs := ref_num_coeffs; t_loss := ref_loss;
     t_wrmse := ref_wrmse; t_call_args := ref_call_args; t_nll_guards := ref_nll_guards; t_nll := ref_nll;
     t_crit_args := ref_crit_args; t_dfp := ref_dfp; t_dfp_guard := ref_dfp_guard; t_dfp_fallback := ref_dfp_fallback;
     t_branches := ref_branches; t_unnormalised := ref_unnormalised; t_normalise_by := ref_normalise_by |}.

Theorem reference_loop_is_best : forall t, t = reference_tables ->
  exists f : loop_fn, loop_model (t_loop t) = Some f /\
    forall A lt top l, f A lt top l = best A lt top l.
Proof. intros t ->. eexists. split; [vm_compute; reflexivity|]. intros. reflexivity. Qed.

(* a loop with "<=" instead of "<", or with a further condition, is not this model *)
Example other_loops_are_not_best :
  loop_model {| ls_init := InitPosInf; ls_iter := "self.combinations"; ls_crit_call := "self._combination_selection_criteria";
                ls_cmp := CmpLe; ls_new_on_left := true; ls_extra_conditions := 0; ls_updates_name := true;
                ls_updates_crit := true; ls_other_statements := 0; ls_returns_name := true |} = None /\
  loop_model {| ls_init := InitPosInf; ls_iter := "self.combinations"; ls_crit_call := "self._combination_selection_criteria";
                ls_cmp := CmpLt; ls_new_on_left := true; ls_extra_conditions := 1; ls_updates_name := true;
                ls_updates_crit := true; ls_other_statements := 0; ls_returns_name := true |} = None.
Proof. split; reflexivity. Qed.

Section Criterion.
  Variable N : num.
  Variable x_ln x_sqrt : N -> N.
  Variable x_pow : N -> N -> N.
  Variable two_pi tiny : N.
  Variable absorb : N -> ext N.

  Lemma ref_nll_as_model : forall c0 d0 loss tss n k,
    interp_nll N x_ln x_sqrt x_pow two_pi tiny ref_nll_guards ref_nll (base_env N c0 d0 loss tss n k)
    = neg_log_likelihood N x_ln two_pi loss n.
  Proof.
    intros. unfold interp_nll, neg_log_likelihood, ref_nll_guards. cbn [existsb guard_holds cmp_holds base_env].
    cbn. rewrite orb_false_r. reflexivity.
  Qed.

  Lemma ref_dfp_as_model : forall c0 d0 loss tss n k,
    interp_dfp N x_ln x_sqrt x_pow two_pi tiny ref_dfp ref_dfp_fallback ref_dfp_guard (base_env N c0 d0 loss tss n k)
    = df_penalized N tiny n k.
  Proof. intros. reflexivity. Qed.

  (* the coded criterion, rebuilt from the expressions of the source text, IS the model, for every criterion type,
     every input and every numeric instance *)
  Theorem reference_criterion_is_model : forall t, t = reference_tables -> forall ty c0 d0 loss tss n k,
    tables_criterion N x_ln x_sqrt x_pow two_pi tiny absorb t ty c0 d0 loss tss n k
    = selection_criteria N x_ln x_sqrt x_pow two_pi tiny absorb ty c0 d0 loss tss n k.
  Proof.
    intros t -> ty c0 d0 loss tss n k.
    (* rmse, rmse_adj, r_squared, r_squared_adj, fpe: by evaluation of the looked-up expression *)
    destruct ty; try reflexivity.
    (* the information criteria: both sides branch on neg_log_likelihood *)
    all: unfold tables_criterion, reference_tables, interp_criterion.
    all: cbn [t_nll_guards t_nll t_dfp t_dfp_fallback t_dfp_guard t_branches t_unnormalised t_normalise_by
              crit_name lookup find ref_branches fst snd String.eqb Ascii.eqb Bool.eqb existsb ref_unnormalised orb].
    all: rewrite ref_nll_as_model; unfold selection_criteria, info_criterion.
    all: destruct (neg_log_likelihood N x_ln two_pi loss n); reflexivity.
  Qed.

  (* the three small expressions of _combination_selection_criteria / _get_error_metrics *)
  Theorem reference_expressions_are_model : forall t, t = reference_tables -> forall (l base : list (cfit N)) (len : N),
    eval N x_ln x_sqrt x_pow two_pi tiny (env_wrmse N (sum_of N f_wsse l) (sum_of N f_n l)) (t_wrmse t) = wrmse N x_sqrt l /\
    eval N x_ln x_sqrt x_pow two_pi tiny (env_loss N (wrmse N x_sqrt l) (wrmse N x_sqrt base)) (t_loss t)
      = combo_loss N x_sqrt base l /\
    eval N x_ln x_sqrt x_pow two_pi tiny (env_len N "components" len) (t_num_coeffs t) = len /\
    t_components_src t = "combination.split('__')" /\
    t_call_args t = ["loss"; "TSS"; "N"; "num_coeffs"; "criteria_type"; "penalty_multiplier"; "penalty_power"] /\
    t_crit_args t = ["loss"; "TSS"; "N"; "num_coeffs"; "model_selection_criteria"; "penalty_multiplier"; "penalty_power"].
  Proof. intros t -> l base len. repeat split; reflexivity. Qed.
End Criterion.

Theorem reference_constants_known : forall t, t = reference_tables -> tables_consts_known t = true.
Proof. intros t ->. vm_compute. reflexivity. Qed.
