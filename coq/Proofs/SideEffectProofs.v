(* C02 on the life-cycle machine of Model/Gate.v (shared with C04): a step that is not a fit, and so any history
   without a fit, leaves what a prediction reads of the model object ([predict_view]) as it was. *)
From Coq Require Import ZArith List Bool.
From V Require Import Model.Gate Proofs.GateProofs.
Import ListNotations.
Open Scope Z_scope.

Section SideEffects.
  Variable poor : dobj -> bool.

  Definition no_fit (ops : list op) : bool :=
    forallb (fun o => match o with OFit _ _ => false | _ => true end) ops.

  Lemma gate_step_keeps_view : forall f s o, (forall d i, o <> OFit d i) ->
    predict_view (fst (step poor f s o)) = predict_view s.
  Proof.
    intros f s o H. destruct o as [d i|d i|]; [destruct (H d i eq_refl) | reflexivity |].
    cbn [step]. destruct (fitted s) eqn:E; [|reflexivity].
    unfold reload, predict_view. cbn [fst fitted m_dq m_tz m_ghi]. rewrite E. reflexivity.
  Qed.

  Lemma gate_run_no_fit_keeps_view : forall f ops s, no_fit ops = true ->
    predict_view (fst (run poor f s ops)) = predict_view s.
  Proof.
    intros f ops s H. rewrite gate_run_state.
    apply fold_left_invariant with (P := fun s' => predict_view s' = predict_view s); [|reflexivity].
    intros o Ho s' Hs'. rewrite <- Hs'. apply gate_step_keeps_view.
    intros d i ->. apply (proj1 (forallb_forall _ ops) H) in Ho. discriminate Ho.
  Qed.
End SideEffects.
