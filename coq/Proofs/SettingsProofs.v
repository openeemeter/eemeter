(* C14 — generic lemmas about Model/Settings.v (no generated content). *)
From Coq Require Import ZArith QArith List Bool String Ascii.
From V Require Import Model.Settings.
Import ListNotations.
Open Scope string_scope.

Lemma is_ws_lower : forall c, is_ws (lower_ascii c) = is_ws c.
Proof. intros [[] [] [] [] [] [] [] []]; reflexivity. Qed.
Lemma lower_ascii_idem : forall c, lower_ascii (lower_ascii c) = lower_ascii c.
Proof. intros [[] [] [] [] [] [] [] []]; reflexivity. Qed.

Lemma lower_idem : forall s, lower (lower s) = lower s.
Proof. induction s as [|c r IH]; cbn; [reflexivity|]. now rewrite lower_ascii_idem, IH. Qed.

Lemma lower_lstrip : forall s, lower (lstrip s) = lstrip (lower s).
Proof.
  induction s as [|c r IH]; cbn; [reflexivity|].
  rewrite is_ws_lower. destruct (is_ws c); [exact IH|reflexivity].
Qed.

Lemma lower_rstrip : forall s, lower (rstrip s) = rstrip (lower s).
Proof.
  induction s as [|c r IH]; cbn [rstrip lower]; [reflexivity|].
  rewrite <- IH. destruct (rstrip r) as [|d r'] eqn:E; cbn [lower].
  - rewrite is_ws_lower. destruct (is_ws c); reflexivity.
  - reflexivity.
Qed.

Lemma lower_strip : forall s, lower (strip s) = strip (lower s).
Proof. intros s. unfold strip. now rewrite lower_rstrip, lower_lstrip. Qed.

Definition head_not_ws (s : string) : Prop :=
  match s with EmptyString => True | String c _ => is_ws c = false end.

Lemma lstrip_head : forall s, head_not_ws (lstrip s).
Proof.
  induction s as [|c r IH]; cbn; [exact I|].
  destruct (is_ws c) eqn:E; [exact IH|exact E].
Qed.
Lemma lstrip_fix : forall s, head_not_ws s -> lstrip s = s.
Proof. intros [|c r] H; cbn in *; [reflexivity|]. now rewrite H. Qed.
Lemma rstrip_head : forall s, head_not_ws s -> head_not_ws (rstrip s).
Proof.
  intros [|c r] H; cbn in *; [exact I|].
  destruct (rstrip r); [rewrite H|]; exact H.
Qed.
Lemma rstrip_cons : forall c r,
  rstrip (String c r) = match rstrip r with
                        | EmptyString => if is_ws c then EmptyString else String c EmptyString
                        | String a b => String c (String a b)
                        end.
Proof. reflexivity. Qed.
Lemma rstrip_idem : forall s, rstrip (rstrip s) = rstrip s.
Proof.
  induction s as [|c r IH]; [reflexivity|]. rewrite rstrip_cons.
  destruct (rstrip r) as [|d r'] eqn:E.
  - destruct (is_ws c) eqn:W; [reflexivity|]. cbn [rstrip]. now rewrite W.
  - rewrite rstrip_cons, IH. reflexivity.
Qed.

Lemma strip_idem : forall s, strip (strip s) = strip s.
Proof.
  intros s. unfold strip.
  rewrite (lstrip_fix (rstrip (lstrip s))); [apply rstrip_idem|].
  apply rstrip_head, lstrip_head.
Qed.

Lemma norm_str_idem : forall s, norm_str (norm_str s) = norm_str s.
Proof. intros s. unfold norm_str. now rewrite lower_strip, lower_idem, strip_idem. Qed.

(* in force for every file that imports this one: cbn / simpl leave [norm_str s] alone *)
Arguments norm_str : simpl never.

(* induction principles for the nested inductives: the hypothesis for a constructor that holds a list is Forall over it *)
Definition Forall_all {A} (P : A -> Prop) (f : forall x, P x) : forall l, Forall P l :=
  fix go l := match l with [] => Forall_nil _ | x :: r => Forall_cons x (f x) (go r) end.

Section jv_ind2.
  Variable P : jv -> Prop.
  Hypothesis HNull : P JNull.
  Hypothesis HBool : forall b, P (JBool b).
  Hypothesis HNum : forall q, P (JNum q).
  Hypothesis HStr : forall s, P (JStr s).
  Hypothesis HList : forall l, Forall P l -> P (JList l).
  Hypothesis HObj : forall kvs, Forall (fun kv => P (snd kv)) kvs -> P (JObj kvs).
  Hypothesis HInst : forall c kvs, Forall (fun kv => P (snd kv)) kvs -> P (JInst c kvs).
  Fixpoint jv_ind2 (v : jv) : P v :=
    match v with
    | JNull => HNull
    | JBool b => HBool b
    | JNum q => HNum q
    | JStr s => HStr s
    | JList l => HList l (Forall_all P jv_ind2 l)
    | JObj kvs => HObj kvs (Forall_all (fun kv => P (snd kv)) (fun kv => jv_ind2 (snd kv)) kvs)
    | JInst c kvs => HInst c kvs (Forall_all (fun kv => P (snd kv)) (fun kv => jv_ind2 (snd kv)) kvs)
    end.
End jv_ind2.

Section stree_ind2.
  Variable P : stree -> Prop.
  Hypothesis HL : forall l, P (Leaf l).
  Hypothesis HN : forall n d c o v ch, Forall P ch -> P (Node n d c o v ch).
  Fixpoint stree_ind2 (t : stree) : P t :=
    match t with
    | Leaf l => HL l
    | Node n d c o v ch => HN n d c o v ch (Forall_all P stree_ind2 ch)
    end.
End stree_ind2.

(* the object case of the lemmas below: two passes over the values of a dict, keys normalised at each *)
Lemma kv_map_compose : forall (f g h : jv -> jv) kvs,
  Forall (fun kv => f (g (snd kv)) = h (snd kv)) kvs ->
  map (fun kv => (norm_str (fst kv), f (snd kv))) (map (fun kv => (norm_str (fst kv), g (snd kv))) kvs)
  = map (fun kv => (norm_str (fst kv), h (snd kv))) kvs.
Proof.
  intros f g h kvs H. rewrite map_map. apply map_ext_Forall.
  eapply Forall_impl; [|exact H]. intros [k x] Hx; cbn [fst snd] in *. now rewrite norm_str_idem, Hx.
Qed.

Lemma normalise_idempotent : forall v, normalise (normalise v) = normalise v.
Proof.
  induction v using jv_ind2; cbn; try reflexivity.
  - now rewrite norm_str_idem.
  - f_equal. apply kv_map_compose. exact H.
Qed.

Lemma normalise_kvs_idempotent : forall kvs, normalise_kvs (normalise_kvs kvs) = normalise_kvs kvs.
Proof.
  intros kvs. apply kv_map_compose, Forall_forall. intros kv _. apply normalise_idempotent.
Qed.

Lemma norm_doc_idempotent_l : forall v, norm_doc (norm_doc v) = norm_doc v.
Proof.
  induction v using jv_ind2; cbn; try reflexivity.
  f_equal. apply kv_map_compose. exact H.
Qed.

(* value normalisation absorbs key normalisation *)
Lemma normalise_norm_doc : forall v, normalise (norm_doc v) = normalise v.
Proof.
  induction v using jv_ind2; cbn; try reflexivity.
  f_equal. apply kv_map_compose. exact H.
Qed.

Definition same_normal_form (a b : jv) : Prop := normalise a = normalise b.
(* same keys in the same order, values with the same normal form *)
Definition agree_fieldwise (d1 d2 : list (string * jv)) : Prop :=
  Forall2 (fun x y => fst x = fst y /\ same_normal_form (snd x) (snd y)) d1 d2.

Lemma agree_fieldwise_lookup : forall k d1 d2, agree_fieldwise d1 d2 ->
  match lookup k d1, lookup k d2 with
  | Some a, Some b => same_normal_form a b
  | None, None => True
  | _, _ => False
  end.
Proof.
  intros k d1 d2 H. induction H as [|[k1 a] [k2 b] r1 r2 [Hk Hv] _ IH]; cbn; [exact I|].
  cbn in Hk, Hv. subst k2.
  destruct (lookup k r1), (lookup k r2); try contradiction; [exact IH|].
  destruct (String.eqb k k1); [exact Hv|exact I].
Qed.

Lemma same_normal_form_cases : forall a b, same_normal_form a b ->
  a = b \/ (exists s t, a = JStr s /\ b = JStr t /\ norm_str s = norm_str t) \/
  (exists x y, a = JObj x /\ b = JObj y /\ normalise_kvs x = normalise_kvs y).
Proof.
  intros a b H. unfold same_normal_form in H. destruct a, b; cbn in H; try discriminate H; try (left; exact H).
  - right. left. injection H as H. exists s, s0. repeat split. exact H.
  - right. right. injection H as H. exists kvs, kvs0. repeat split. exact H.
Qed.

Lemma same_normal_form_coerce : forall ty a b, same_normal_form a b -> coerce ty (pre a) = coerce ty (pre b).
Proof.
  intros ty a b H. destruct (same_normal_form_cases a b H) as [->|[(s & t & -> & -> & E)|(x & y & -> & -> & _)]].
  - reflexivity.
  - cbn [pre]. now rewrite E.
  - unfold coerce. cbn [pre]. destruct (base ty); reflexivity.
Qed.

Lemma norm_kvs_agree_fieldwise : forall x y, normalise_kvs x = normalise_kvs y -> agree_fieldwise (norm_kvs x) (norm_kvs y).
Proof.
  unfold normalise_kvs, norm_kvs.
  induction x as [|[k a] x IH]; intros [|[k' b] y] H; cbn [map fst snd] in H; try discriminate; [constructor|].
  inversion H as [[Hk Hv Hr]]. cbn [map fst snd]. constructor; [|apply IH; exact Hr].
  cbn [fst snd]. split; [exact Hk|]. unfold same_normal_form. now rewrite !normalise_norm_doc.
Qed.

Lemma all_some_ext_Forall : forall {A B} (f g : A -> option B) l,
  Forall (fun x => f x = g x) l -> all_some f l = all_some g l.
Proof. induction 1 as [|x l Hx _ IH]; cbn; [reflexivity|]. now rewrite Hx, IH. Qed.

Lemma vfield_agree_fieldwise : forall reg t d1 d2, agree_fieldwise d1 d2 -> vfield reg t d1 = vfield reg t d2.
Proof.
  intros reg t. induction t as [l|n d c o v ch IH] using stree_ind2; intros d1 d2 H.
  - cbn. unfold validate_leaf. pose proof (agree_fieldwise_lookup (lname l) d1 d2 H) as L.
    destruct (lookup (lname l) d1) as [a|], (lookup (lname l) d2) as [b|]; try contradiction; [|reflexivity].
    now rewrite (same_normal_form_coerce (lty l) a b L).
  - cbn [vfield]. pose proof (agree_fieldwise_lookup n d1 d2 H) as L.
    assert (B : forall s1 s2, agree_fieldwise s1 s2 ->
                all_some (fun c0 => named c0 (vfield reg c0 s1)) ch = all_some (fun c0 => named c0 (vfield reg c0 s2)) ch).
    { intros s1 s2 Hs. apply all_some_ext_Forall. eapply Forall_impl; [|exact IH].
      intros c0 Hc. cbn. now rewrite (Hc s1 s2 Hs). }
    destruct (lookup n d1) as [a|], (lookup n d2) as [b|]; try contradiction; [|reflexivity].
    destruct (same_normal_form_cases a b L) as [->|[(s & t & -> & -> & _)|(x & y & -> & -> & E)]]; [reflexivity|reflexivity|].
    now rewrite (B _ _ (norm_kvs_agree_fieldwise _ _ E)).
Qed.

Lemma vfields_agree_fieldwise : forall reg ch d1 d2, agree_fieldwise d1 d2 -> vfields reg ch d1 = vfields reg ch d2.
Proof.
  intros reg ch d1 d2 H. apply all_some_ext_Forall, Forall_forall. intros c _. now rewrite (vfield_agree_fieldwise reg c d1 d2 H).
Qed.

(* two documents with the same normal form are accepted or refused alike, with the same settled values *)
Lemma vtop_normalise : forall reg t d1 d2, normalise_kvs d1 = normalise_kvs d2 -> vtop reg t d1 = vtop reg t d2.
Proof.
  intros reg [l|n d c o v ch] d1 d2 H; cbn [vtop]; [reflexivity|].
  now rewrite (vfields_agree_fieldwise reg ch _ _ (norm_kvs_agree_fieldwise d1 d2 H)).
Qed.

(* what the construction of a top-level class answers: RField when a field fails, else the reason of the first validator
   that fails, else the settled object *)
Lemma vtop_accept_inv : forall reg n d c o vs ch kvs s, vtop reg (Node n d c o vs ch) kvs = Accept s ->
  exists f, vfields reg ch (norm_kvs kvs) = Some f /\ first_fail vs ch f = None /\ s = SObj ch f.
Proof.
  intros reg n d c o vs ch kvs s H. cbn [vtop] in H.
  destruct (vfields reg ch (norm_kvs kvs)) as [f|]; [|discriminate].
  destruct (first_fail vs ch f) eqn:FF; [discriminate|]. injection H as <-. exists f. repeat split. exact FF.
Qed.

Lemma vtop_reject_inv : forall reg n d c o vs ch kvs r, vtop reg (Node n d c o vs ch) kvs = Reject r ->
  (vfields reg ch (norm_kvs kvs) = None /\ r = RField) \/
  exists f, vfields reg ch (norm_kvs kvs) = Some f /\ first_fail vs ch f = Some r.
Proof.
  intros reg n d c o vs ch kvs r H. cbn [vtop] in H.
  destruct (vfields reg ch (norm_kvs kvs)) as [f|]; [|injection H as <-; left; split; reflexivity].
  destruct (first_fail vs ch f) as [r'|] eqn:FF; [|discriminate]. injection H as <-. right. exists f. split; [reflexivity | exact FF].
Qed.

Lemma vfields_cons_inv : forall reg c ch sub f, vfields reg (c :: ch) sub = Some f ->
  exists s f', vfield reg c sub = Some s /\ vfields reg ch sub = Some f' /\ f = (tname c, s) :: f'.
Proof.
  intros reg c ch sub f H. unfold vfields in *. cbn in H. unfold named in H at 1.
  destruct (vfield reg c sub) as [s|]; cbn in H; [|discriminate].
  destruct (all_some (fun c1 => named c1 (vfield reg c1 sub)) ch) as [f'|]; [|discriminate].
  inversion H. exists s, f'. repeat split.
Qed.

(* the settled entry of the first child called k *)
Lemma vfields_find : forall reg ch sub f k c,
  vfields reg ch sub = Some f -> find_tree k ch = Some c ->
  exists s, vfield reg c sub = Some s /\ getf k f = Some s.
Proof.
  induction ch as [|c0 ch IH]; intros sub f k c H F; [discriminate|].
  apply vfields_cons_inv in H as (s0 & f' & V & A & ->). cbn in F |- *.
  destruct (String.eqb k (tname c0)).
  - injection F as <-. exists s0. split; [exact V|reflexivity].
  - exact (IH sub f' k c A F).
Qed.

Lemma built_names : forall reg ch sub f,
  all_some (fun c => named c (vfield reg c sub)) ch = Some f -> map fst f = map tname ch.
Proof.
  induction ch as [|c0 r IH]; intros sub f H; [inversion H; reflexivity|].
  apply vfields_cons_inv in H as (s0 & f' & _ & A & ->). cbn. f_equal. exact (IH sub f' A).
Qed.

Lemma built_in : forall reg ch sub f k s,
  all_some (fun c => named c (vfield reg c sub)) ch = Some f -> In (k, s) f ->
  exists c, In c ch /\ tname c = k /\ vfield reg c sub = Some s.
Proof.
  induction ch as [|c0 r IH]; intros sub f k s H Hin; [inversion H; subst; contradiction|].
  apply vfields_cons_inv in H as (s0 & f' & V & A & ->). destruct Hin as [E|Hin].
  - inversion E; subst. exists c0. repeat split; auto. now left.
  - destruct (IH sub f' k s A Hin) as (c & I1 & I2 & I3). exists c. repeat split; auto. now right.
Qed.

Lemma find_tree_In : forall k ch c, find_tree k ch = Some c -> In c ch /\ tname c = k.
Proof.
  induction ch as [|c0 r IH]; cbn; intros c H; [discriminate|].
  destruct (String.eqb k (tname c0)) eqn:E.
  - inversion H; subst c. split; [now left|]. symmetry. now apply String.eqb_eq.
  - destruct (IH c H) as [I1 I2]. split; [now right|exact I2].
Qed.

(* the lock: if the developer check passes on the fields `f` of an object whose declared
   children are `ch`, every developer leaf of the DECLARED tree, at any depth, holds its declared default — whatever
   the fields were built from (dicts, settings objects of the declared class or of a subclass) *)
Lemma check_dev_sound : forall path ch g f l v,
  check_dev ch f = true ->
  leaf_at ch path = Some l -> ldev l = true -> value_at (SObj g f) path = Some v ->
  jv_eqb v (ldefault l) = true.
Proof.
  induction path as [|k rest IH]; intros ch g f l v C L D V; [discriminate|].
  cbn [leaf_at] in L. cbn [value_at] in V.
  destruct (find_tree k ch) as [c|] eqn:F; [|discriminate].
  destruct (find_tree_In _ _ _ F) as [Hin Hn].
  unfold check_dev in C. pose proof (proj1 (forallb_forall _ _) C _ Hin) as E. cbn beta in E. rewrite Hn in E.
  destruct (getf k f) as [s|] eqn:G; [|discriminate].
  destruct c as [l0|n d c o vs ch'].
  - destruct rest; [|discriminate]. inversion L; subst l0.
    destruct s as [x|g' f']; cbn in V; [|discriminate]. inversion V; subst x.
    cbn [check_dev_t] in E. rewrite D in E. cbn in E. now apply negb_true_iff, negb_false_iff in E.
  - destruct rest as [|k2 r2]; [discriminate|].
    destruct s as [x|g' f']; [cbn in V; discriminate|].
    cbn [check_dev_t] in E. exact (IH ch' g' f' l v E L D V).
Qed.

Lemma first_fail_devmode : forall vs gov f, In VDevMode vs -> first_fail vs gov f = None -> v_devmode gov f = None.
Proof.
  induction vs as [|v r IH]; intros gov f Hin H; [contradiction|]. cbn in H.
  destruct (run_vid v gov f) eqn:R; [discriminate|].
  destruct Hin as [->|Hin]; [exact R|]. now apply IH.
Qed.

(* only the developer-mode validator answers RDeveloper: every other one is a tree of tests whose leaves are
   None, RCross, RCrash or RType *)
Lemma run_vid_developer : forall v gov f, run_vid v gov f = Some RDeveloper ->
  v = VDevMode /\ check_dev gov f = false.
Proof.
  intros v gov f H. destruct v; cbn [run_vid] in H.
  1:{ split; [reflexivity|]. unfold v_devmode in H.
      destruct (get_leaf "developer_mode" f) as [x|]; [|discriminate].
      destruct (truthy x); [discriminate|].
      destruct (check_dev gov f); [discriminate|reflexivity]. }
  all: exfalso.
  all: cbv beta delta [v_alpha_final v_final_bounds v_init_step v_reduce_std v_options v_temp_bins v_edge_bins
                  v_wavelet v_adaptive] in H.
  all: repeat match type of H with context [match ?x with _ => _ end] => destruct x end.
  all: discriminate.
Qed.

Lemma first_fail_developer : forall vs gov f, first_fail vs gov f = Some RDeveloper -> check_dev gov f = false.
Proof.
  induction vs as [|v r IH]; intros gov f H; cbn in H; [discriminate|].
  destruct (run_vid v gov f) as [x|] eqn:R; [|now apply IH].
  inversion H; subst x. now destruct (run_vid_developer v gov f R).
Qed.

Lemma mem_false_neq : forall x l y, mem x l = false -> In y l -> String.eqb x y = false.
Proof.
  induction l as [|z r IH]; intros y H Hin; [contradiction|]. cbn in H. apply orb_false_iff in H as [H1 H2].
  destruct Hin as [->|Hin]; [exact H1|now apply IH].
Qed.

Lemma find_tree_nodup : forall ch c, nodupb (map tname ch) = true -> In c ch -> find_tree (tname c) ch = Some c.
Proof.
  induction ch as [|c0 r IH]; intros c H Hin; [contradiction|]. cbn in H. apply andb_prop in H as [H1 H2].
  cbn. destruct Hin as [->|Hin]; [now rewrite String.eqb_refl|].
  assert (E : String.eqb (tname c) (tname c0) = false).
  { rewrite String.eqb_sym. apply negb_true_iff in H1. apply (mem_false_neq _ _ _ H1). now apply in_map. }
  rewrite E. now apply IH.
Qed.

Lemma forallb_false_ex : forall {A} (p : A -> bool) l, forallb p l = false -> exists x, In x l /\ p x = false.
Proof.
  induction l as [|x r IH]; cbn; intros H; [discriminate|]. apply andb_false_iff in H as [H|H].
  - exists x. split; [now left|exact H].
  - destruct (IH H) as (y & I1 & I2). exists y. split; [now right|exact I2].
Qed.

Lemma no_inst_lookup : forall k kvs v, no_inst_kvs kvs = true -> lookup k kvs = Some v -> no_inst v = true.
Proof.
  induction kvs as [|[k' x] r IH]; intros v H L; cbn in *; [discriminate|].
  apply andb_prop in H as [Hx Hr]. destruct (lookup k r) eqn:E.
  - inversion L; subst. now apply IH.
  - destruct (String.eqb k k'); inversion L; subst. exact Hx.
Qed.

Lemma no_inst_norm_doc : forall v, no_inst v = true -> no_inst (norm_doc v) = true.
Proof.
  induction v using jv_ind2; cbn; intros Hn; try reflexivity; try discriminate.
  rewrite forallb_forall in *. intros [k x] Hin. apply in_map_iff in Hin as [[k0 x0] [E Hin]].
  cbn in E. inversion E; subst. cbn. rewrite Forall_forall in H. apply (H _ Hin). exact (Hn _ Hin).
Qed.
Lemma no_inst_norm_kvs : forall kvs, no_inst_kvs kvs = true -> no_inst_kvs (norm_kvs kvs) = true.
Proof. intros kvs H. exact (no_inst_norm_doc (JObj kvs) H). Qed.

(* how the field of a nested settings class gets its value: built from a dict (or from nothing) by the declared class,
   taken as it is from an object, or None where the field is optional *)
Lemma vfield_node_inv : forall reg n d c o vs ch sub s,
  vfield reg (Node n d c o vs ch) sub = Some s ->
  (exists sub' f, (lookup n sub = None /\ sub' = [] \/ exists x, lookup n sub = Some (JObj x) /\ sub' = norm_kvs x) /\
                  vfields reg ch sub' = Some f /\ first_fail vs ch f = None /\ s = SObj ch f) \/
  (exists c' x, lookup n sub = Some (JInst c' x) /\ inst reg c c' x = Some s) \/
  (lookup n sub = Some JNull /\ o = true /\ s = SLeaf JNull).
Proof.
  intros reg n d c o vs ch sub s H. cbn [vfield] in H.
  assert (B : forall sub',
             match all_some (fun c0 => named c0 (vfield reg c0 sub')) ch with
             | Some f => match first_fail vs ch f with None => Some (SObj ch f) | Some _ => None end
             | None => None
             end = Some s ->
             exists f, vfields reg ch sub' = Some f /\ first_fail vs ch f = None /\ s = SObj ch f).
  { intros sub' E. unfold vfields. destruct (all_some (fun c0 => named c0 (vfield reg c0 sub')) ch) as [f|]; [|discriminate].
    destruct (first_fail vs ch f) eqn:FF; [discriminate|]. injection E as <-. exists f. repeat split. exact FF. }
  destruct (lookup n sub) as [[| | | | |x|c' x]|]; try discriminate H.
  - destruct o; [|discriminate]. injection H as <-. right. right. repeat split.
  - destruct (B _ H) as (f & A & FF & ->). left. exists (norm_kvs x), f. split; [right; exists x; split; reflexivity|].
    repeat split; assumption.
  - right. left. exists c', x. split; [reflexivity | exact H].
  - destruct (B _ H) as (f & A & FF & ->). left. exists [], f. split; [left; split; reflexivity|].
    repeat split; assumption.
Qed.

(* the fields that validating a document without object input against the declared children settles *)
Definition validated_fields (reg : registry) (ch : list stree) (sub : list (string * jv)) (f : list (string * sval)) : Prop :=
  vfields reg ch sub = Some f /\ no_inst_kvs sub = true.

Lemma vfield_node_no_inst : forall reg n d c o v ch sub gov f,
  no_inst_kvs sub = true ->
  vfield reg (Node n d c o v ch) sub = Some (SObj gov f) ->
  gov = ch /\ exists sub', validated_fields reg ch sub' f.
Proof.
  intros reg n d c o v ch sub gov f Hn H.
  destruct (vfield_node_inv _ _ _ _ _ _ _ _ _ H) as [(sub' & f' & Hsub & A & _ & E)|[(c' & x & L & _)|(_ & _ & E)]].
  - injection E as -> ->. split; [reflexivity|]. exists sub'. split; [exact A|].
    destruct Hsub as [[_ ->]|(x & L & ->)]; [reflexivity|]. exact (no_inst_norm_kvs x (no_inst_lookup _ _ _ Hn L)).
  - discriminate (no_inst_lookup _ _ _ Hn L).
  - discriminate E.
Qed.

Lemma vfield_node_not_leaf : forall reg n d c vs ch sub x,
  vfield reg (Node n d c false vs ch) sub = Some (SLeaf x) -> False.
Proof.
  intros reg n d c vs ch sub x H.
  destruct (vfield_node_inv _ _ _ _ _ _ _ _ _ H) as [(sub' & f & _ & _ & _ & E)|[(c' & kvs & _ & I)|(_ & E & _)]];
    try discriminate E.
  unfold inst in I. destruct (lookup_reg c' reg) as [[anc t]|]; [|discriminate].
  destruct (mem c anc); [|discriminate]. unfold build_flat in I. destruct t; [discriminate|].
  destruct (all_some (fun c0 => vleaf_field c0 (norm_kvs kvs)) children); [|discriminate].
  destruct (first_fail vals children l); discriminate.
Qed.

(* if the developer check fails on an object built from a well-formed tree by a document without object input,
   some developer leaf of the declared tree, at some depth, does not hold its default *)
Definition lock_exact_at (reg : registry) (t : stree) : Prop :=
  forall sub gov f, no_inst_kvs sub = true -> wf_tree t = true -> vfield reg t sub = Some (SObj gov f) ->
    check_dev_t t (SObj gov f) = false ->
    exists path l v, leaf_at (children_of t) path = Some l /\ ldev l = true /\ value_at (SObj gov f) path = Some v /\
                     jv_eqb v (ldefault l) = false.

Lemma check_dev_false_children : forall reg ch sub g f,
  Forall (lock_exact_at reg) ch -> nodupb (map tname ch) = true -> forallb wf_tree ch = true ->
  validated_fields reg ch sub f -> check_dev ch f = false ->
  exists path l v, leaf_at ch path = Some l /\ ldev l = true /\ value_at (SObj g f) path = Some v /\
                   jv_eqb v (ldefault l) = false.
Proof.
  intros reg ch sub g f IH ND WF [B Hn] C.
  unfold check_dev in C. destruct (forallb_false_ex _ _ C) as (c1 & Hc1 & Hbad).
  pose proof (find_tree_nodup ch c1 ND Hc1) as F.
  destruct (vfields_find reg ch sub f (tname c1) c1 B F) as (s & Hv & Hg).
  rewrite Hg in Hbad.
  pose proof (proj1 (forallb_forall _ _) WF _ Hc1) as WF1.
  destruct c1 as [l|n d c o vs ch1].
  - (* a leaf *)
    cbn in Hv. destruct (validate_leaf l sub) as [x|]; [|discriminate]. inversion Hv; subst s.
    cbn [check_dev_t] in Hbad. apply negb_false_iff, andb_true_iff in Hbad as [D1 D2]. apply negb_true_iff in D2.
    exists [lname l], l, x. cbn [leaf_at value_at]. cbn [tname] in F, Hg. rewrite F, Hg. repeat split; auto.
  - (* a nested object *)
    cbn [tname] in F, Hg.
    destruct s as [x|gov1 f1].
    + cbn in WF1. apply andb_prop in WF1 as [WF1 _]. apply andb_prop in WF1 as [WF1 _]. apply negb_true_iff in WF1. subst o.
      exfalso. exact (vfield_node_not_leaf reg n d c vs ch1 sub x Hv).
    + rewrite Forall_forall in IH. specialize (IH _ Hc1 sub gov1 f1 Hn WF1 Hv Hbad).
      destruct IH as (path & l & v & L & D & V & E). cbn [children_of] in L.
      exists (n :: path), l, v. cbn [leaf_at value_at]. rewrite F, Hg.
      destruct path as [|k2 rest]; [cbn in L; discriminate|]. repeat split; auto.
Qed.

Lemma lock_exact_everywhere : forall reg t, lock_exact_at reg t.
Proof.
  intros reg. induction t as [l|n d c o vs ch IH] using stree_ind2; intros sub gov f Hn WF H C.
  - cbn in H. destruct (validate_leaf l sub); discriminate.
  - destruct (vfield_node_no_inst reg n d c o vs ch sub gov f Hn H) as [-> [sub' B]].
    cbn in WF. apply andb_prop in WF as [WF W2]. apply andb_prop in WF as [_ W1].
    cbn [check_dev_t] in C. cbn [children_of].
    exact (check_dev_false_children reg ch sub' ch f IH W1 W2 B C).
Qed.

(* an accepted construction, from one evaluation of the constructor ... *)
Lemma accepted : forall {A} (r : result A),
  match r with Accept _ => True | Reject _ => False end -> exists s, r = Accept s.
Proof. intros A [s|x] H; [exists s; reflexivity | destruct H]. Qed.

(* ... and with a fact about what it settled *)
Lemma accepted_with : forall {A} (r : result A) (P : A -> Prop),
  match r with Accept s => P s | Reject _ => False end -> exists s, r = Accept s /\ P s.
Proof. intros A [s|x] P H; [exists s; split; [reflexivity | exact H] | destruct H]. Qed.

(* construct, store, reload, and a fact about the constructed and the reloaded settings, from one evaluation of the three steps *)
Lemma constructed_and_reloaded : forall reg c i (P : sval -> sval -> Prop),
  match construct reg c i with
  | Accept s => match reload reg c (stored_settings c s) with Accept s' => P s s' | Reject _ => False end
  | Reject _ => False
  end ->
  exists s s', construct reg c i = Accept s /\ reload reg c (stored_settings c s) = Accept s' /\ P s s'.
Proof.
  intros reg c i P H. destruct (construct reg c i) as [s|]; [|destruct H].
  destruct (reload reg c (stored_settings c s)) as [s'|] eqn:R; [|destruct H].
  exists s, s'. repeat split; assumption.
Qed.
