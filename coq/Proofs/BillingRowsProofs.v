(* Lemmas about Model/BillingRows.v (C10, daily / hourly rows handed to the billing data classes). *)
From Coq Require Import ZArith QArith List Bool Lia Field.
From V Require Import Model.BillingRows.
Import ListNotations.
Open Scope Z_scope.

Lemma spread_length : forall mc l, length (spread mc l) = length l.
Proof. intros. unfold spread. apply map_length. Qed.

Lemma month_has_value_iff : forall k l,
  existsb has_val (filter (in_key k) l) = true <-> exists r, In r l /\ d_key r = k /\ has_val r = true.
Proof.
  intros k l. rewrite existsb_exists.
  split; intros [r H]; exists r; rewrite filter_In in *; unfold in_key in *; rewrite Z.eqb_eq in *; tauto.
Qed.

(* with min_count a day carries usage exactly when some day of its calendar month has a value; without, always *)
Lemma spread_day_present : forall mc l r,
  (exists q, spread_day mc l r = Some q) <->
  mc = false \/ exists r', In r' l /\ d_key r' = d_key r /\ has_val r' = true.
Proof.
  intros mc l r. unfold spread_day, month_total. rewrite <- month_has_value_iff.
  destruct (existsb has_val (filter (in_key (d_key r)) l)); destruct mc; cbn [andb negb].
  - split; [right; reflexivity|]. intros _. eexists. reflexivity.
  - split; [left; reflexivity|]. intros _. eexists. reflexivity.
  - split; [intros [q H]; discriminate H|intros [H|H]; discriminate H].
  - split; [left; reflexivity|]. intros _. eexists. reflexivity.
Qed.

Lemma qsum_shares : forall (t : Q) (L : Z) (m : list dayrow), ~ (L # 1 == 0)%Q ->
  (qsum (map (fun r => share t r L) m) == t * (zsum (map d_len m) # 1) / (L # 1))%Q.
Proof.
  intros t L m HL. induction m as [|r m IH]; cbn [map qsum zsum].
  - field. exact HL.
  - rewrite IH. unfold share.
    assert (E : ((d_len r + zsum (map d_len m)) # 1 == (d_len r # 1) + (zsum (map d_len m) # 1))%Q)
      by (unfold Qeq, Qplus; cbn [Qnum Qden Pos.mul]; ring).
    rewrite E. field. exact HL.
Qed.

(* conservation: the shares of the days of a month add up to the month's total *)
Lemma spread_conserves : forall l k t, 0 < month_len k l ->
  (qsum (map (fun r => share t r (month_len k l)) (filter (in_key k) l)) == t)%Q.
Proof.
  intros l k t Hpos.
  assert (HL : ~ (month_len k l # 1 == 0)%Q).
  { unfold Qeq. cbn [Qnum Qden]. lia. }
  rewrite (qsum_shares t (month_len k l) (filter (in_key k) l) HL).
  unfold month_len. field. exact HL.
Qed.

Lemma month_total_is_sum : forall mc k l t, month_total mc k l = Some t -> t = qsum (vals (filter (in_key k) l)).
Proof.
  intros mc k l t H. unfold month_total in H.
  destruct (mc && negb (existsb has_val (filter (in_key k) l))); [discriminate H|]. injection H as <-. reflexivity.
Qed.

Definition ex_days : list dayrow :=
  [mkday 1 86400 (Some (2 # 1)%Q); mkday 1 82800 (Some (3 # 1)%Q); mkday 1 86400 None;
   mkday 2 86400 None; mkday 2 86400 None;
   mkday 3 90000 (Some (7 # 2)%Q); mkday 3 86400 None].
