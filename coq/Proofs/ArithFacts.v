(* Facts about comparisons on Q that mention no definition of the models.  [Qltb a b] is defined in several model files
   (CalTrack, Metrics, RowsRun, Splits) as [negb (Qle_bool b a)]: the lemmas are stated on that form and apply to each
   of them up to unfolding. *)
From Coq Require Import QArith Bool.

Lemma Qle_bool_false : forall a b, Qle_bool a b = false <-> b < a.
Proof.
  intros a b. rewrite <- not_true_iff_false, Qle_bool_iff. split; [apply Qnot_le_lt | apply Qlt_not_le].
Qed.

Lemma Qltb_true : forall a b, negb (Qle_bool b a) = true <-> a < b.
Proof. intros a b. rewrite negb_true_iff. apply Qle_bool_false. Qed.

Lemma Qltb_false : forall a b, negb (Qle_bool b a) = false <-> b <= a.
Proof. intros a b. rewrite negb_false_iff. apply Qle_bool_iff. Qed.
