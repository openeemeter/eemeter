(* C06 — lemmas about Model/Dst.v (clock normalisation of the hourly model) and Model/PredictRows.v
   (row accounting of the daily / billing predict), in this order: list facts the library lacks; the relations
   between a day of the frame and a clock pattern; _get_dst_indices; the guard pattern_ok; correct_dst;
   _transform_dst; the final reindex; the daily / billing predict. *)
From Coq Require Import ZArith List Bool Arith Lia Permutation Sorted.
From V Require Import Model.Dst Model.PredictRows Proofs.ListFacts.
Import ListNotations.

(* a primed name: the lemma is in later versions of the standard library without the prime *)
Lemma skipn_skipn' : forall (A : Type) (a b : nat) (l : list A), skipn a (skipn b l) = skipn (b + a) l.
Proof.
  intros A a b. revert a. induction b as [|b IH]; intros a l; [reflexivity|].
  destruct l as [|x l]; cbn [skipn plus]; [destruct a; reflexivity|]. apply IH.
Qed.

Lemma skipn_app_r : forall (A : Type) (a b : list A) n, skipn (length a + n) (a ++ b) = skipn n b.
Proof.
  intros A a b n. rewrite skipn_app. rewrite skipn_all2 by lia. cbn [app]. f_equal. lia.
Qed.

(* unlike `injection`, does not normalise the two sides *)
Lemma Some_inj : forall (A : Type) (a b : A), Some a = Some b -> a = b.
Proof. intros A a b H. congruence. Qed.

Lemma nth_error_skipn' : forall (A : Type) (c n : nat) (l : list A), nth_error (skipn c l) n = nth_error l (c + n).
Proof.
  intros A c. induction c as [|c IH]; intros n l; [reflexivity|].
  destruct l as [|x l]; cbn [skipn plus nth_error]; [destruct n; reflexivity|]. apply IH.
Qed.

Lemma Forall2_weaken : forall (A B : Type) (R R' : A -> B -> Prop), (forall a b, R a b -> R' a b) ->
  forall l1 l2, Forall2 R l1 l2 -> Forall2 R' l1 l2.
Proof. intros A B R R' HR l1 l2 H. induction H; constructor; auto. Qed.

Lemma NoDup_sorted : forall (A : Type) (R : A -> A -> Prop), (forall x, ~ R x x) ->
  forall l, StronglySorted R l -> NoDup l.
Proof.
  intros A R Hirr. induction l as [|x t IH]; intros H; [constructor|]. inversion H as [|? ? Ht Hx]; subst.
  constructor; [|apply IH; exact Ht]. intros Hin. rewrite Forall_forall in Hx. exact (Hirr x (Hx x Hin)).
Qed.

Inductive rel3 {A B C : Type} (R : A -> B -> C -> Prop) : list A -> list B -> list C -> Prop :=
| rel3_nil : rel3 R [] [] []
| rel3_cons : forall a b c la lb lc, R a b c -> rel3 R la lb lc -> rel3 R (a :: la) (b :: lb) (c :: lc).

(* one day of a rel3: how `rel3 day_fix pat agg agg'` of the theorems is read for day n *)
Lemma rel3_nth : forall (A B C : Type) (R : A -> B -> C -> Prop) la lb lc, rel3 R la lb lc ->
  forall n a, nth_error la n = Some a ->
  exists b c, nth_error lb n = Some b /\ nth_error lc n = Some c /\ R a b c.
Proof.
  intros A B C R la lb lc H. induction H as [|a0 b0 c0 la lb lc HR _ IH]; intros [|n] a E; cbn [nth_error] in *.
  - discriminate.
  - discriminate.
  - injection E as <-. exists b0, c0. auto.
  - exact (IH n a E).
Qed.

Lemma rel3_length : forall (A B C : Type) (R : A -> B -> C -> Prop) la lb lc, rel3 R la lb lc ->
  length lb = length la /\ length lc = length la.
Proof. intros A B C R la lb lc H. induction H; cbn [length]; [split; reflexivity | lia]. Qed.

Lemma filter_map_comm : forall (A B : Type) (g : A -> B) (p : B -> bool) l,
  filter p (map g l) = map g (filter (fun x => p (g x)) l).
Proof.
  intros A B g p. induction l as [|x l IH]; [reflexivity|]. cbn [map filter].
  destruct (p (g x)); cbn [map]; rewrite IH; reflexivity.
Qed.

Lemma filter_flat_map : forall (A B : Type) (f : A -> list B) (p : B -> bool) l,
  filter p (flat_map f l) = flat_map (fun x => filter p (f x)) l.
Proof.
  intros A B f p. induction l as [|x l IH]; [reflexivity|]. cbn [flat_map]. rewrite filter_app, IH. reflexivity.
Qed.

Lemma flat_map_single : forall (A B : Type) (f : A -> list B) (g : A -> B) l,
  (forall x, In x l -> f x = [g x]) -> flat_map f l = map g l.
Proof.
  intros A B f g. induction l as [|x l IH]; intros H; [reflexivity|]. cbn [flat_map map].
  rewrite (H x (or_introl eq_refl)), IH; [reflexivity|]. intros y Hy. apply H. right. exact Hy.
Qed.

Lemma NoDup_map_filter : forall (A B : Type) (f : A -> B) (p : A -> bool) l,
  NoDup (map f l) -> NoDup (map f (filter p l)).
Proof.
  intros A B f p. induction l as [|x l IH]; intros H; [constructor|]. cbn [map] in H. inversion H as [|? ? Hx Hl]; subst.
  cbn [filter]. destruct (p x); [|apply IH; exact Hl]. cbn [map]. constructor; [|apply IH; exact Hl].
  intros Hin. apply Hx. apply in_map_iff in Hin. destruct Hin as (y & Hy & Hyin). apply filter_In in Hyin.
  apply in_map_iff. exists y. tauto.
Qed.

Lemma filter_label_unique : forall (A : Type) (f : A -> Z) l r, NoDup (map f l) -> In r l ->
  filter (fun x => Z.eqb (f x) (f r)) l = [r].
Proof.
  intros A f. induction l as [|x l IH]; intros r H Hr; [destruct Hr|].
  cbn [map] in H. inversion H as [|? ? Hx Hl]; subst. cbn [filter]. destruct Hr as [Hr|Hr].
  - subst x. rewrite Z.eqb_refl. f_equal. apply filter_none.
    intros y Hy. apply Z.eqb_neq. intros E. apply Hx. rewrite <- E. apply in_map. exact Hy.
  - replace (Z.eqb (f x) (f r)) with false; [apply IH; assumption|].
    symmetry. apply Z.eqb_neq. intros E. apply Hx. rewrite E. apply in_map. exact Hr.
Qed.

(* Five relations "day d of the frame shows clock pattern k".  All imply clock_only; realises implies
   counted_clock (what the two loops of _get_dst_indices need of a day), and realises repaired is clock_only;
   unobserved_clock (no usage on any row) is the hypothesis of D11, observed_clock (usage on every row) its opposite. *)
Definition clock_only (d : day) (k : daykind) : Prop := hours d = clock_hours k.

(* a day of the frame shows the clock pattern k, has a usage value on every row if non-null usage is what is counted,
   and a date label that resolves if days are looked up by label *)
Definition realises (pol : policy) (d : day) (k : daykind) : Prop :=
  hours d = clock_hours k
  /\ (count_rows pol = false -> forallb hs_obs (d_rows d) = true)
  /\ (loc_by_mask pol = false -> d_loc d = None).

(* the clock pattern, with usage on every row when non-null usage is what is counted *)
Definition counted_clock (pol : policy) (d : day) (k : daykind) : Prop :=
  hours d = clock_hours k /\ (count_rows pol = false -> forallb hs_obs (d_rows d) = true).

Definition observed_clock (d : day) (k : daykind) : Prop := hours d = clock_hours k /\ forallb hs_obs (d_rows d) = true.
Definition unobserved_clock (d : day) (k : daykind) : Prop :=
  hours d = clock_hours k /\ forallb (fun r => negb (hs_obs r)) (d_rows d) = true.

Definition rows_expected (k : daykind) : nat := match k with Reg => 24 | Short _ => 23 | Long _ => 25 end.
Definition is_change (k : daykind) : bool := match k with Reg => false | _ => true end.

(* every day of the feature frame has the number of rows of its clock pattern *)
Definition day_lengths {V : Type} (pat : list daykind) (agg : list (list V)) : Prop :=
  Forall2 (fun k f => length f = rows_expected k) pat agg.

Lemma kind_ok_cons : forall k p, forallb kind_ok (k :: p) = true -> kind_ok k = true /\ forallb kind_ok p = true.
Proof. intros k p H. apply andb_true_iff. exact H. Qed.

Lemma kind_ok_short : forall h, kind_ok (Short h) = true -> h < 24.
Proof. intros h H. apply Nat.ltb_lt. exact H. Qed.

Lemma kind_ok_long : forall h, kind_ok (Long h) = true -> h < 24.
Proof. intros h H. apply Nat.ltb_lt. exact H. Qed.

Lemma clock_hours_length : forall k, kind_ok k = true -> length (clock_hours k) = rows_expected k.
Proof.
  intros [|h|h]; cbn [kind_ok clock_hours rows_expected]; intros H.
  - reflexivity.
  - apply Nat.ltb_lt in H. rewrite app_length, !seq_length. lia.
  - apply Nat.ltb_lt in H. rewrite app_length, !seq_length. lia.
Qed.

Lemma counted_of_realises : forall pol d k, realises pol d k -> counted_clock pol d k.
Proof. intros pol d k (Hh & Ho & _). split; assumption. Qed.

Lemma clock_of_realises : forall pol days pat, Forall2 (realises pol) days pat -> Forall2 clock_only days pat.
Proof. intros pol. apply Forall2_weaken. intros d k H. exact (proj1 H). Qed.

Lemma clock_of_unobserved : forall days pat, Forall2 unobserved_clock days pat -> Forall2 clock_only days pat.
Proof. apply Forall2_weaken. intros d k H. exact (proj1 H). Qed.

Lemma no_usage_of_unobserved : forall days pat, Forall2 unobserved_clock days pat ->
  Forall (fun d => forallb (fun r => negb (hs_obs r)) (d_rows d) = true) days.
Proof. intros days pat H. induction H as [|d k days pat [_ Ho] _ IH]; constructor; assumption. Qed.

Lemma realises_repaired_of_clock : forall days pat, Forall2 clock_only days pat -> Forall2 (realises repaired) days pat.
Proof.
  apply Forall2_weaken. intros d k Hd. split; [exact Hd|]. split; intros E; discriminate E.
Qed.

Lemma clock_rows : forall d k, hours d = clock_hours k -> kind_ok k = true -> length (d_rows d) = rows_expected k.
Proof.
  intros d k Hh Hk. rewrite <- (clock_hours_length k Hk), <- Hh. symmetry. apply map_length.
Qed.

Lemma day_count_counted : forall pol d k, counted_clock pol d k -> kind_ok k = true -> day_count pol d = rows_expected k.
Proof.
  intros pol d k (Hh & Ho) Hk. unfold day_count, count_obs.
  destruct (count_rows pol); [exact (clock_rows d k Hh Hk)|].
  rewrite (filter_all _ hs_obs (d_rows d)); [exact (clock_rows d k Hh Hk)|]. apply forallb_forall. exact (Ho eq_refl).
Qed.

Lemma day_loc_realises : forall pol d k, realises pol d k -> day_loc pol d = None.
Proof.
  intros pol d k (_ & _ & Hl). unfold day_loc. destruct (loc_by_mask pol); [reflexivity | apply Hl; reflexivity].
Qed.

Lemma index_length : forall days pat, Forall2 clock_only days pat -> length (index_of days) = total_rows pat.
Proof.
  intros days pat H. unfold index_of, rows_of, total_rows. rewrite map_length.
  induction H as [|d k days pat Hd _ IH]; [reflexivity|].
  cbn [map concat]. rewrite !app_length, IH, <- Hd. unfold hours. rewrite map_length. reflexivity.
Qed.

Lemma day_lengths_of_clock : forall (V : Type) (feat : hour_stamp -> V) days pat, Forall2 clock_only days pat ->
  forallb kind_ok pat = true ->
  day_lengths pat (map (fun d => map feat (d_rows d)) days).
Proof.
  intros V feat days pat H Hk. induction H as [|d k days pat Hd _ IH]; [constructor|].
  destruct (kind_ok_cons _ _ Hk) as [Hk1 Hk2].
  cbn [map]. constructor; [|apply IH; exact Hk2]. rewrite map_length. exact (clock_rows d k Hd Hk1).
Qed.

Lemma change_not_all24 : forall (V : Type) pat (agg : list (list V)),
  day_lengths pat agg -> existsb is_change pat = true -> all24 agg = false.
Proof.
  intros V pat agg H. induction H as [|k f pat agg Hf _ IH]; intros Hc; [discriminate|].
  cbn [all24 forallb]. rewrite Hf. destruct k as [|h|h]; [exact (IH Hc) | reflexivity | reflexivity].
Qed.

Lemma missing_short : forall h, h < 24 -> missing_of (clock_hours (Short h)) = [h].
Proof.
  intros h H. do 24 (destruct h as [|h]; [vm_compute; reflexivity|]). exfalso. lia.
Qed.

Lemma first_repeat_long : forall h, h < 24 -> first_repeat [] (clock_hours (Long h)) = Some h.
Proof.
  intros h H. do 24 (destruct h as [|h]; [vm_compute; reflexivity|]). exfalso. lia.
Qed.

Lemma interp_loop_cons : forall pol d k, counted_clock pol d k -> kind_ok k = true ->
  forall i rest last,
  interp_loop pol i (d :: rest) last =
  match k with
  | Short h => match day_loc pol d with
               | Some e => Err e
               | None => bind (interp_loop pol (S i) rest (Some h)) (fun '(l, last') => Ok ((i, h) :: l, last'))
               end
  | _ => interp_loop pol (S i) rest last
  end.
Proof.
  intros pol d k Hd Hk i rest last. cbn [interp_loop]. rewrite (day_count_counted pol d k Hd Hk).
  destruct k as [|h|h]; [reflexivity | | reflexivity].
  destruct Hd as [Hh _]. apply kind_ok_short in Hk.
  unfold missing_hours. rewrite Hh, (missing_short h Hk). reflexivity.
Qed.

Lemma mean_loop_cons : forall pol d k, counted_clock pol d k -> kind_ok k = true ->
  forall i rest last,
  mean_loop pol i (d :: rest) last =
  match k with
  | Long h => match day_loc pol d with
              | Some e => Err e
              | None => bind (mean_loop pol (S i) rest (Some h)) (fun l => Ok ((i, h) :: l))
              end
  | _ => mean_loop pol (S i) rest last
  end.
Proof.
  intros pol d k Hd Hk i rest last. cbn [mean_loop]. rewrite (day_count_counted pol d k Hd Hk).
  destruct k as [|h|h]; [reflexivity | reflexivity |].
  destruct Hd as [Hh _]. apply kind_ok_long in Hk. rewrite Hh, (first_repeat_long h Hk). reflexivity.
Qed.

Lemma loops_valid : forall pol days pat, Forall2 (realises pol) days pat -> forallb kind_ok pat = true ->
  forall i last, (exists last', interp_loop pol i days last = Ok (interp_of i pat, last'))
                 /\ mean_loop pol i days last = Ok (mean_of i pat).
Proof.
  intros pol days pat H. induction H as [|d k days pat Hd _ IH]; intros Hk i last.
  - split; [exists last|]; reflexivity.
  - apply kind_ok_cons in Hk. destruct Hk as [Hk Hp].
    assert (Hc := counted_of_realises pol d k Hd).
    rewrite (interp_loop_cons pol d k Hc Hk), (mean_loop_cons pol d k Hc Hk), (day_loc_realises pol d k Hd).
    destruct k as [|h|h]; cbn [interp_of mean_of]; [apply IH; exact Hp | |].
    + destruct (IH Hp (S i) (Some h)) as [[last' E] _]. rewrite E.
      split; [exists last'; reflexivity | apply IH; exact Hp].
    + rewrite (proj2 (IH Hp (S i) (Some h))). split; [apply IH; exact Hp | reflexivity].
Qed.

(* counting non-null usage, a frame without usage has no 23- or 25-row day, whatever its clock *)
Lemma loops_unobserved : forall days, Forall (fun d => forallb (fun r => negb (hs_obs r)) (d_rows d) = true) days ->
  forall i last, interp_loop as_coded i days last = Ok ([], last) /\ mean_loop as_coded i days last = Ok [].
Proof.
  intros days H. induction H as [|d days Ho _ IH]; intros i last; [split; reflexivity|].
  cbn [interp_loop mean_loop]. unfold day_count. cbn [count_rows as_coded]. unfold count_obs.
  rewrite (filter_none _ hs_obs (d_rows d)). { cbn [length Nat.eqb]. apply IH. }
  intros r Hr. apply negb_true_iff. exact (proj1 (forallb_forall _ _) Ho r Hr).
Qed.

Lemma get_dst_indices_unobserved : forall days, Forall (fun d => forallb (fun r => negb (hs_obs r)) (d_rows d) = true) days ->
  get_dst_indices as_coded days = Ok ([], []).
Proof.
  intros days H. unfold get_dst_indices. destruct (loops_unobserved days H 0 None) as [E1 E2].
  rewrite E1. cbn [bind]. rewrite E2. reflexivity.
Qed.

(* a (day, pattern) pair of the kind asked for whose date label cannot be resolved *)
Definition bad_label (want : daykind -> bool) (dk : day * daykind) : Prop := want (snd dk) = true /\ d_loc (fst dk) <> None.
Definition is_short (k : daykind) : bool := match k with Short _ => true | _ => false end.
Definition is_long (k : daykind) : bool := match k with Long _ => true | _ => false end.

Lemma bad_label_split : forall l : list (day * daykind),
  Exists (bad_label is_change) l -> Exists (bad_label is_short) l \/ Exists (bad_label is_long) l.
Proof.
  intros l H. induction H as [[d k] l [Hc Hb]|x l _ IH].
  - destruct k as [|h|h]; [discriminate Hc | left | right]; constructor; split; try reflexivity; exact Hb.
  - destruct IH as [IH|IH]; [left | right]; apply Exists_cons_tl; exact IH.
Qed.

(* D18, in general: looked up by label, a short day with an unresolvable label stops the first loop of _get_dst_indices, a long one the second *)
Lemma loops_bad_label : forall pol, loc_by_mask pol = false ->
  forall days pat, Forall2 (counted_clock pol) days pat -> forallb kind_ok pat = true ->
  forall i last,
  (Exists (bad_label is_short) (combine days pat) -> exists e, interp_loop pol i days last = Err e)
  /\ (Exists (bad_label is_long) (combine days pat) -> exists e, mean_loop pol i days last = Err e).
Proof.
  intros pol Hpol days pat H. induction H as [|d k days pat Hd _ IH]; intros Hk i last.
  - split; intros Hex; inversion Hex.
  - destruct (kind_ok_cons _ _ Hk) as [Hk1 Hk2].
    rewrite (interp_loop_cons pol d k Hd Hk1), (mean_loop_cons pol d k Hd Hk1). unfold day_loc. rewrite Hpol.
    cbn [combine]. split; intros Hex; apply Exists_cons in Hex; destruct Hex as [[Hw Hb]|Hex]; cbn [fst snd] in *.
    + destruct k as [|h|h]; try discriminate Hw. destruct (d_loc d) as [e|]; [eexists; reflexivity | elim Hb; reflexivity].
    + destruct k as [|h|h]; [apply IH; assumption | | apply IH; assumption].
      destruct (d_loc d) as [e|]; [eexists; reflexivity|].
      destruct (proj1 (IH Hk2 (S i) (Some h)) Hex) as [e E]. rewrite E. exists e. reflexivity.
    + destruct k as [|h|h]; try discriminate Hw. destruct (d_loc d) as [e|]; [eexists; reflexivity | elim Hb; reflexivity].
    + destruct k as [|h|h]; [apply IH; assumption | apply IH; assumption |].
      destruct (d_loc d) as [e|]; [eexists; reflexivity|].
      destruct (proj2 (IH Hk2 (S i) (Some h)) Hex) as [e E]. rewrite E. exists e. reflexivity.
Qed.

(* what _get_dst_indices reads of a frame: per local date the clock hour and the null-flag of every row and whether the
   date label resolves — the instants (hs_utc) do not enter.  So the indices of one frame must not be reused for a
   frame of the same instants in another zone (C06_dst_indices_depend_on_the_zone gives two such frames). *)
Definition local_view (d : day) : list (nat * bool) * option err :=
  (map (fun r => (hs_hour r, hs_obs r)) (d_rows d), d_loc d).

Lemma hours_view : forall d, hours d = map fst (fst (local_view d)).
Proof. intros d. unfold hours, local_view. cbn [fst]. rewrite map_map. reflexivity. Qed.

Lemma day_count_view : forall pol d,
  day_count pol d = if count_rows pol then length (fst (local_view d)) else length (filter snd (fst (local_view d))).
Proof.
  intros pol d. unfold day_count, count_obs, local_view. cbn [fst]. rewrite filter_map_comm, !map_length. reflexivity.
Qed.

Lemma day_loc_view : forall pol d, day_loc pol d = if loc_by_mask pol then None else snd (local_view d).
Proof. reflexivity. Qed.

Lemma local_view_fields : forall d1 d2, local_view d1 = local_view d2 ->
  hours d1 = hours d2 /\ (forall pol, day_count pol d1 = day_count pol d2) /\ (forall pol, day_loc pol d1 = day_loc pol d2).
Proof.
  intros d1 d2 E. split; [|split; intros pol].
  - rewrite !hours_view, E. reflexivity.
  - rewrite !day_count_view, E. reflexivity.
  - rewrite !day_loc_view, E. reflexivity.
Qed.

Lemma loops_local : forall pol days1 days2, map local_view days1 = map local_view days2 ->
  forall i last, interp_loop pol i days1 last = interp_loop pol i days2 last
                 /\ mean_loop pol i days1 last = mean_loop pol i days2 last.
Proof.
  intros pol. induction days1 as [|d1 t1 IH]; intros [|d2 t2] E i last; try discriminate; [split; reflexivity|].
  cbn [map] in E. pose proof (f_equal (hd (local_view d1)) E) as Ed. pose proof (f_equal (@tl _) E) as Et.
  cbn [hd tl] in Ed, Et. destruct (local_view_fields d1 d2 Ed) as (Hh & Hc & Hl).
  cbn [interp_loop mean_loop]. unfold missing_hours. rewrite (Hc pol), (Hl pol), Hh. split.
  - destruct (day_count pol d2 =? 23); [|apply IH; exact Et].
    destruct (day_loc pol d2); [reflexivity|]. destruct (missing_of (hours d2)) as [|h [|h' t]]; try reflexivity.
    rewrite (proj1 (IH t2 Et _ _)). reflexivity.
  - destruct (day_count pol d2 =? 25); [|apply IH; exact Et].
    destruct (day_loc pol d2); [reflexivity|].
    destruct (match first_repeat [] (hours d2) with Some h => Some h | None => last end); [|reflexivity].
    rewrite (proj2 (IH t2 Et _ _)). reflexivity.
Qed.

Lemma pattern_ok_tail : forall k p, pattern_ok (k :: p) = true -> pattern_ok p = true.
Proof.
  intros [|h|h] p; cbn [pattern_ok]; intros H.
  - exact H.
  - apply andb_true_iff in H. tauto.
  - apply andb_true_iff in H. destruct H as [H _]. apply andb_true_iff in H. tauto.
Qed.

Lemma pattern_ok_short : forall h p, pattern_ok (Short h :: p) = true -> h < 23.
Proof. intros h p H. cbn [pattern_ok] in H. apply andb_true_iff in H. apply Nat.ltb_lt. exact (proj1 H). Qed.

Lemma pattern_ok_long : forall h p, pattern_ok (Long h :: p) = true ->
  h < 24 /\ (h = 23 -> match p with [] => False | Short 0 :: _ => False | _ => True end).
Proof.
  intros h p H. cbn [pattern_ok] in H. apply andb_true_iff in H. destruct H as [H Hg].
  apply andb_true_iff in H. destruct H as [Hh _]. split; [apply Nat.ltb_lt; exact Hh|].
  intros E. subst h. cbn [Nat.eqb] in Hg. destruct p as [|[|[|h']|h'] p]; try exact I; discriminate Hg.
Qed.

Lemma pattern_ok_kind_ok : forall pat, pattern_ok pat = true -> forallb kind_ok pat = true.
Proof.
  induction pat as [|k p IH]; intros H; [reflexivity|]. cbn [forallb]. rewrite (IH (pattern_ok_tail _ _ H)).
  destruct k as [|h|h]; cbn [kind_ok]; [reflexivity | |]; rewrite andb_true_r; apply Nat.ltb_lt.
  - pose proof (pattern_ok_short _ _ H). lia.
  - exact (proj1 (pattern_ok_long _ _ H)).
Qed.

(* pattern_ok, spelled out: no day skips hour 23, the frame does not end on a day repeating hour 23, and no day
   repeating hour 23 is directly followed by a day skipping hour 0 *)
Definition is_short23 (k : daykind) : bool := match k with Short h => h =? 23 | _ => false end.
Definition has_short23 (pat : list daykind) : bool := existsb is_short23 pat.
Definition ends_long23 (pat : list daykind) : bool := match last pat Reg with Long h => h =? 23 | _ => false end.
Fixpoint no_clash (pat : list daykind) : bool :=
  match pat with
  | [] => true
  | k :: p => (match k, p with Long h, Short h' :: _ => negb ((h =? 23) && (h' =? 0)) | _, _ => true end) && no_clash p
  end.

Lemma ends_long23_app : forall pat, ends_long23 pat = true -> exists p, pat = p ++ [Long 23].
Proof.
  unfold ends_long23. intros [|k0 p0] H; [discriminate|].
  exists (removelast (k0 :: p0)). rewrite (app_removelast_last Reg) at 1 by discriminate.
  f_equal. destruct (last (k0 :: p0) Reg) as [|h|h]; try discriminate. apply Nat.eqb_eq in H. subst. reflexivity.
Qed.

Lemma ltb23_eqb : forall h, h < 24 -> (h <? 23) = negb (h =? 23).
Proof.
  intros h H. destruct (h =? 23) eqn:E.
  - apply Nat.eqb_eq in E. subst. reflexivity.
  - apply Nat.eqb_neq in E. apply Nat.ltb_lt. lia.
Qed.

Lemma pattern_ok_no_short23 : forall pat, pattern_ok pat = true -> has_short23 pat = false.
Proof.
  unfold has_short23. induction pat as [|k p IH]; intros H; [reflexivity|].
  cbn [existsb]. rewrite (IH (pattern_ok_tail _ _ H)), orb_false_r.
  destruct k as [|h|h]; try reflexivity. cbn [is_short23]. apply Nat.eqb_neq. pose proof (pattern_ok_short _ _ H). lia.
Qed.

Section Correct.
  Context {V : Type}.
  Variable mean2 : V -> V -> V.

  Lemma nth_res_ok : forall (l : list V) n, n < length l -> exists v, nth_res l n = Ok v.
  Proof.
    intros l n H. unfold nth_res. destruct (nth_error l n) eqn:E; [eexists; reflexivity|].
    apply nth_error_None in E. lia.
  Qed.

  Lemma replace_day_app : forall (pre : list (list V)) x s f,
    replace_day (length pre) f (pre ++ x :: s) = pre ++ f :: s.
  Proof. induction pre as [|y pre IH]; intros x s f; cbn; [reflexivity|]. rewrite IH. reflexivity. Qed.

  Lemma last_of_nonempty : forall (agg : list (list V)) j, Forall (fun f => f <> []) agg -> j < length agg ->
    exists a, match nth_error agg j with Some p => last_res p | None => Err EIndex end = Ok a.
  Proof.
    intros agg j Hne Hj. destruct (nth_error agg j) as [p|] eqn:E.
    - assert (Hp : p <> []). { rewrite Forall_forall in Hne. apply Hne. eapply nth_error_In. exact E. }
      unfold last_res. apply nth_res_ok. destruct p; [congruence|]. cbn [length]. lia.
    - apply nth_error_None in E. lia.
  Qed.

  (* what the first loop of correct_dst does to one day *)
  Definition interp_rel (k : daykind) (f f' : list V) : Prop :=
    match k with Short h => exists v, f' = insert_at h v f | _ => f' = f end.
  (* the frame between the two loops: days of the expected length, the first loop applied *)
  Definition after_interp (pat : list daykind) (orig agg : list (list V)) : Prop :=
    rel3 (fun k f f' => length f = rows_expected k /\ interp_rel k f f') pat orig agg.
  (* the net effect of correct_dst on one day *)
  Definition day_fix (k : daykind) (f f' : list V) : Prop :=
    match k with
    | Reg => f' = f
    | Short h => exists v, f' = insert_at h v f
    | Long h => exists v, f' = set_at h v (delete_at h f)
    end.

  Lemma insert_at_nonempty : forall n (v : V) l, insert_at n v l <> [].
  Proof. intros n v l. unfold insert_at. destruct (firstn n l); cbn; congruence. Qed.

  Lemma delete_at_length : forall n (l : list V), n < length l -> length (delete_at n l) = length l - 1.
  Proof.
    intros n l H. unfold delete_at. rewrite app_length, firstn_length, skipn_length. lia.
  Qed.
  Lemma set_at_length : forall n (v : V) l, n < length l -> length (set_at n v l) = length l.
  Proof.
    intros n v l H. unfold set_at. rewrite app_length, firstn_length. cbn [length]. rewrite skipn_length. lia.
  Qed.
  Lemma insert_at_length : forall n (v : V) l, length (insert_at n v l) = S (length l).
  Proof.
    intros n v l. unfold insert_at. rewrite app_length. cbn [length].
    rewrite Nat.add_succ_r. rewrite <- app_length, firstn_skipn. reflexivity.
  Qed.

  (* one iteration of `for date, hour in interp` on day `length pre`: it needs slot h of the day and a non-empty
     previous day (for the first day: last day) when h = 0 *)
  Lemma interp_day_at : forall pre f suf h, h < length f -> Forall (fun g => g <> []) (pre ++ f :: suf) ->
    exists v, interp_day mean2 (pre ++ f :: suf) (length pre) h = Ok (pre ++ insert_at h v f :: suf).
  Proof.
    intros pre f suf h Hh Hne. unfold interp_day. rewrite nth_error_middle.
    set (j := if length pre =? 0 then length (pre ++ f :: suf) - 1 else length pre - 1).
    assert (Hj : j < length (pre ++ f :: suf)).
    { unfold j. rewrite app_length. cbn [length]. destruct (length pre =? 0); lia. }
    destruct (last_of_nonempty _ j Hne Hj) as [a0 E0]. destruct (nth_res_ok f (h - 1) ltac:(lia)) as [a1 E1].
    destruct (nth_res_ok f h Hh) as [b Eb]. rewrite E0, E1, Eb.
    destruct (h =? 0); cbn [bind]; rewrite replace_day_app; eexists; reflexivity.
  Qed.

  Lemma mean_day_at : forall pre f suf h, h + 1 < length f ->
    exists v, mean_day mean2 (pre ++ f :: suf) (length pre) h = Ok (pre ++ set_at h v (delete_at h f) :: suf).
  Proof.
    intros pre f suf h Hh. unfold mean_day. rewrite nth_error_middle.
    destruct (nth_res_ok f (h + 1) Hh) as [a Ea]. destruct (nth_res_ok f h ltac:(lia)) as [b Eb].
    rewrite Ea, Eb. cbn [bind].
    replace (h <? length (delete_at h f)) with true by (symmetry; apply Nat.ltb_lt; rewrite delete_at_length; lia).
    rewrite replace_day_app. exists (mean2 a b). reflexivity.
  Qed.

  Lemma day_lengths_nonempty : forall pat (agg : list (list V)),
    day_lengths pat agg -> Forall (fun f => f <> []) agg.
  Proof.
    intros pat agg H. induction H as [|k f pat agg Hf _ IH]; constructor; [|exact IH].
    destruct f; [destruct k; discriminate Hf | discriminate].
  Qed.

  Lemma interp_day_oob : forall pre f suf h, length f <= h ->
    exists e, interp_day mean2 (pre ++ f :: suf) (length pre) h = Err e.
  Proof.
    intros pre f suf h Hh. unfold interp_day. rewrite nth_error_middle.
    match goal with |- exists e, bind ?x _ = _ => destruct x as [a|e] end; cbn [bind]; [|eexists; reflexivity].
    unfold nth_res. replace (nth_error f h) with (@None V) by (symmetry; apply nth_error_None; exact Hh).
    eexists. reflexivity.
  Qed.

  (* What correct_dst and feature_matrix keep on ANY input, pattern frame or not: the number of days.  The theorems
     below do not need these five (on a pattern frame rel3_length gives more); they are what a proof about
     feature_matrix on other input starts from. *)
  Lemma replace_day_length : forall n (f : list V) agg, length (replace_day n f agg) = length agg.
  Proof.
    intros n f agg. revert n. induction agg as [|x t IH]; intros n; [destruct n; reflexivity|].
    destruct n as [|n]; cbn [replace_day length]; [reflexivity | rewrite IH; reflexivity].
  Qed.

  Lemma interp_day_length : forall agg d h agg', interp_day mean2 agg d h = Ok agg' -> length agg' = length agg.
  Proof.
    intros agg d h agg' E. unfold interp_day in E. destruct (nth_error agg d) as [f|]; [|discriminate].
    match type of E with bind ?x _ = _ => destruct x as [a|e] end; cbn [bind] in E; [|discriminate].
    destruct (nth_res f h) as [b|e]; cbn [bind] in E; [|discriminate].
    injection E as <-. apply replace_day_length.
  Qed.

  Lemma mean_day_length : forall agg d h agg', mean_day mean2 agg d h = Ok agg' -> length agg' = length agg.
  Proof.
    intros agg d h agg' E. unfold mean_day in E. destruct (nth_error agg d) as [f|]; [|discriminate].
    destruct (nth_res f (h + 1)) as [a|e]; cbn [bind] in E; [|discriminate].
    destruct (nth_res f h) as [b|e]; cbn [bind] in E; [|discriminate].
    destruct (h <? length (delete_at h f)); [|discriminate].
    injection E as <-. apply replace_day_length.
  Qed.

  Lemma fold_days_length : forall step, (forall agg d h agg', step agg d h = Ok agg' -> length agg' = length agg) ->
    forall l (agg agg' : list (list V)), fold_days step l agg = Ok agg' -> length agg' = length agg.
  Proof.
    intros step Hs. induction l as [|[d h] t IH]; intros agg agg' E; cbn [fold_days] in E.
    - inversion E. reflexivity.
    - destruct (step agg d h) as [a1|e] eqn:E1; cbn [bind] in E; [|discriminate].
      rewrite (IH a1 agg' E). apply (Hs agg d h a1 E1).
  Qed.

  Lemma feature_matrix_length : forall agg idx agg', feature_matrix mean2 agg idx = Ok agg' -> length agg' = length agg.
  Proof.
    intros agg idx agg' E. unfold feature_matrix, correct_dst in E.
    destruct (fold_days (interp_day mean2) (fst idx) agg) as [a1|e] eqn:E1; cbn [bind] in E; [|discriminate].
    destruct (fold_days (mean_day mean2) (snd idx) a1) as [a2|e] eqn:E2; cbn [bind] in E; [|discriminate].
    destruct (uniform a2); [|discriminate]. inversion E; subst.
    rewrite (fold_days_length _ (mean_day_length) _ _ _ E2). apply (fold_days_length _ (interp_day_length) _ _ _ E1).
  Qed.

  (* Both loops visit the days in calendar order and touch the visited day only: with `pre` the days already passed,
     a visit turns `pre ++ f :: suf` into `pre ++ f' :: suf` and the loop goes on from `(pre ++ [f']) ++ suf`.
     The first loop fails exactly when a day skips hour 23: its visit reads feature[23] of a 23-element list. *)
  Lemma correct_dst_interp_effect : forall pat suf, day_lengths pat suf ->
    forallb kind_ok pat = true -> forall pre, Forall (fun f => f <> []) pre ->
    if has_short23 pat
    then exists e, fold_days (interp_day mean2) (interp_of (length pre) pat) (pre ++ suf) = Err e
    else exists suf', fold_days (interp_day mean2) (interp_of (length pre) pat) (pre ++ suf) = Ok (pre ++ suf')
                      /\ after_interp pat suf suf'.
  Proof.
    intros pat suf H. induction H as [|k f pat suf Hf Hs IH]; intros Hk pre Hpre.
    - exists []. split; [reflexivity | constructor].
    - destruct (kind_ok_cons _ _ Hk) as [Hk1 Hk2].
      pose proof (day_lengths_nonempty _ _ (Forall2_cons _ _ Hf Hs)) as Hfs. pose proof (Forall_inv Hfs) as Hf0.
      assert (Hne : Forall (fun g : list V => g <> []) (pre ++ f :: suf))
        by (apply Forall_app; split; [exact Hpre | exact Hfs]).
      set (r := fold_days (interp_day mean2) (interp_of (length pre) (k :: pat)) (pre ++ f :: suf)).
      assert (Hstep : if is_short23 k then exists e, r = Err e
                else exists f', interp_rel k f f' /\ f' <> [] /\
                       r = fold_days (interp_day mean2) (interp_of (S (length pre)) pat) (pre ++ f' :: suf)).
      { unfold r. destruct k as [|h|h]; cbn [is_short23 interp_of interp_rel].
        - exists f. auto.
        - apply kind_ok_short in Hk1. cbn [rows_expected] in Hf. cbn [fold_days].
          destruct (h =? 23) eqn:E23.
          + apply Nat.eqb_eq in E23. destruct (interp_day_oob pre f suf h ltac:(lia)) as [e Ee]. rewrite Ee.
            exists e. reflexivity.
          + apply Nat.eqb_neq in E23. destruct (interp_day_at pre f suf h ltac:(lia) Hne) as [v Ev]. rewrite Ev.
            cbn [bind]. exists (insert_at h v f).
            split; [exists v; reflexivity|]. split; [apply insert_at_nonempty | reflexivity].
        - exists f. auto. }
      unfold has_short23. cbn [existsb]. fold (has_short23 pat).
      destruct (is_short23 k); cbn [orb]; [exact Hstep|].
      destruct Hstep as (f' & Hr & Hf' & E). rewrite E.
      assert (Hpre' : Forall (fun g : list V => g <> []) (pre ++ [f'])).
      { apply Forall_app. split; [exact Hpre | constructor; [exact Hf' | constructor]]. }
      specialize (IH Hk2 (pre ++ [f']) Hpre'). rewrite last_length in IH.
      destruct (has_short23 pat).
      + destruct IH as [e E']. rewrite <- app_assoc in E'. exists e. exact E'.
      + destruct IH as (suf' & E' & R). rewrite <- !app_assoc in E'.
        exists (f' :: suf'). split; [exact E' | constructor; [split|]; assumption].
  Qed.

  (* the second loop completes the work of the first: `suf` is what the first loop has made of `orig` *)
  Lemma correct_dst_mean_effect : forall pat orig suf,
    after_interp pat orig suf ->
    forallb kind_ok pat = true -> forall pre,
    exists suf', fold_days (mean_day mean2) (mean_of (length pre) pat) (pre ++ suf) = Ok (pre ++ suf')
                 /\ rel3 day_fix pat orig suf' /\ all24 suf' = true.
  Proof.
    intros pat orig suf H. induction H as [|k f0 f pat orig suf [Hf0 Hr] _ IH]; intros Hk pre.
    - exists []. split; [reflexivity|]. split; [constructor | reflexivity].
    - destruct (kind_ok_cons _ _ Hk) as [Hk1 Hk2].
      assert (Hstep : exists f', day_fix k f0 f' /\ length f' = 24 /\
                fold_days (mean_day mean2) (mean_of (length pre) (k :: pat)) (pre ++ f :: suf)
                = fold_days (mean_day mean2) (mean_of (S (length pre)) pat) (pre ++ f' :: suf)).
      { destruct k as [|h|h]; cbn [mean_of interp_rel day_fix rows_expected] in *.
        - exists f. subst f. auto.
        - exists f. destruct Hr as [v Hv]. subst f. split; [exists v; reflexivity|].
          split; [rewrite insert_at_length, Hf0; reflexivity | reflexivity].
        - subst f. apply kind_ok_long in Hk1. destruct (mean_day_at pre f0 suf h ltac:(lia)) as [v Ev].
          cbn [fold_days]. rewrite Ev. cbn [bind]. exists (set_at h v (delete_at h f0)).
          split; [exists v; reflexivity|]. split; [|reflexivity].
          rewrite set_at_length; rewrite delete_at_length; lia. }
      destruct Hstep as (f' & Hd & H24 & E). rewrite E.
      destruct (IH Hk2 (pre ++ [f'])) as (suf' & E' & R & A).
      rewrite last_length, <- !app_assoc in E'.
      exists (f' :: suf'). split; [exact E'|]. split; [constructor; assumption|].
      cbn [all24 forallb]. rewrite H24. exact A.
  Qed.

  Lemma all24_uniform : forall agg : list (list V), all24 agg = true -> uniform agg = true.
  Proof.
    intros [|f t] H; [reflexivity|]. cbn [all24 forallb] in H. apply andb_true_iff in H. destruct H as [Hf Ht].
    apply Nat.eqb_eq in Hf. cbn [uniform]. rewrite Hf. exact Ht.
  Qed.

  (* feature_matrix (correct_dst, then the stacking) succeeds under less than pattern_ok: hours in range and no day
     skipping hour 23 *)
  Lemma feature_matrix_ok : forall pat agg, day_lengths pat agg ->
    forallb kind_ok pat = true -> has_short23 pat = false ->
    exists agg', feature_matrix mean2 agg (indices_of pat) = Ok agg'
                 /\ all24 agg' = true /\ rel3 day_fix pat agg agg'.
  Proof.
    intros pat agg Hshape Hk H23.
    pose proof (correct_dst_interp_effect pat agg Hshape Hk [] (Forall_nil _)) as F. rewrite H23 in F.
    destruct F as (a1 & E1 & R1).
    destruct (correct_dst_mean_effect pat agg a1 R1 Hk []) as (a2 & E2 & R & H24).
    cbn [length app] in E1, E2.
    exists a2. split; [|split; assumption].
    unfold feature_matrix, correct_dst, indices_of. cbn [fst snd]. rewrite E1. cbn [bind]. rewrite E2. cbn [bind].
    rewrite (all24_uniform a2 H24). reflexivity.
  Qed.

  Lemma feature_matrix_short23 : forall pat agg, day_lengths pat agg ->
    forallb kind_ok pat = true -> has_short23 pat = true ->
    exists e, feature_matrix mean2 agg (indices_of pat) = Err e.
  Proof.
    intros pat agg Hshape Hk H23.
    pose proof (correct_dst_interp_effect pat agg Hshape Hk [] (Forall_nil _)) as F. rewrite H23 in F.
    destruct F as [e E]. cbn [length app] in E.
    unfold feature_matrix, correct_dst, indices_of. cbn [fst snd]. rewrite E. exists e. reflexivity.
  Qed.
End Correct.

Lemma get_dst_indices_valid : forall pol days pat,
  Forall2 (realises pol) days pat -> forallb kind_ok pat = true -> get_dst_indices pol days = Ok (indices_of pat).
Proof.
  intros pol days pat H Hk. unfold get_dst_indices, indices_of.
  destruct (loops_valid pol days pat H Hk 0 None) as [[last' E] _]. rewrite E. cbn [bind].
  rewrite (proj2 (loops_valid pol days pat H Hk 0 last')). reflexivity.
Qed.

(* on a frame that realises a pattern without a day skipping hour 23, _predict is what follows correct_dst: _transform_dst
   on the regression output of the 24-slot matrix, the length test and the reindex *)
Lemma hourly_predict_after_correct_dst :
  forall (V : Type) (mean2 : V -> V -> V) (feat : hour_stamp -> V) (regress : list (list V) -> list V),
  (forall agg, length (regress agg) = 24 * length agg) ->
  forall pol days pat, Forall2 (realises pol) days pat -> forallb kind_ok pat = true -> has_short23 pat = false ->
  exists agg, rel3 day_fix pat (map (fun d => map feat (d_rows d)) days) agg
    /\ length (regress agg) = 24 * length pat
    /\ hourly_predict mean2 feat regress pol days =
       bind (transform_dst mean2 (regress agg) (indices_of pat)) (fun y =>
         if negb (length y =? length (index_of days)) then Err ELength
         else reindex (combine (index_of days) y) (index_of days)).
Proof.
  intros V mean2 feat regress regress_length pol days pat Hr Hk H23.
  pose proof (day_lengths_of_clock V feat days pat (clock_of_realises pol days pat Hr) Hk) as Hshape.
  destruct (feature_matrix_ok mean2 pat _ Hshape Hk H23) as (agg & Ef & H24 & R).
  exists agg. split; [exact R|]. split.
  - rewrite regress_length, (proj2 (rel3_length _ _ _ _ _ _ _ R)). reflexivity.
  - unfold hourly_predict. rewrite (get_dst_indices_valid pol days pat Hr Hk). cbn [bind].
    rewrite Ef. cbn [bind]. rewrite H24. reflexivity.
Qed.

Lemma ops_of_lower : forall pat i o, In o (ops_of i pat) -> i * 24 <= snd o.
Proof.
  induction pat as [|k p IH]; intros i o H; [destruct H|].
  destruct k as [|h|h]; cbn [ops_of] in H.
  - apply IH in H. lia.
  - destruct H as [H|H]; [subst o; cbn [snd]; lia | apply IH in H; lia].
  - destruct H as [H|H]; [subst o; cbn [snd]; lia | apply IH in H; lia].
Qed.

Lemma insert_op_head : forall x l, (forall o, In o l -> snd x <= snd o) -> insert_op x l = x :: l.
Proof.
  intros x [|y t] H; [reflexivity|]. cbn [insert_op].
  replace (snd x <=? snd y) with true; [reflexivity|]. symmetry. apply Nat.leb_le. apply H. left. reflexivity.
Qed.

(* folding a list into y :: t, all of it above y: y stays the head *)
Lemma insert_behind_head : forall y t r, (forall x, In x r -> snd y < snd x) ->
  fold_right insert_op (y :: t) r = y :: fold_right insert_op t r.
Proof.
  intros y t. induction r as [|x r IH]; intros H; [reflexivity|].
  cbn [fold_right]. rewrite IH by (intros z Hz; apply H; right; exact Hz).
  cbn [insert_op]. replace (snd x <=? snd y) with false; [reflexivity|].
  symmetry. apply Nat.leb_gt. apply H. left. reflexivity.
Qed.

(* the REMOVE and the INTERPOLATE operations _transform_dst makes of the indices of a pattern, days numbered from i *)
Definition rems (i : nat) (pat : list daykind) : list op := remove_ops (interp_of i pat).
Definition inss (i : nat) (pat : list daykind) : list op := interp_ops (mean_of i pat).

(* every REMOVE and every INTERPOLATE of a pattern is among its operations *)
Lemma ops_of_members : forall pat i o, In o (rems i pat) \/ In o (inss i pat) -> In o (ops_of i pat).
Proof.
  unfold rems, inss, remove_ops, interp_ops. induction pat as [|k p IH]; intros i o H; [tauto|].
  destruct k as [|h|h]; cbn [interp_of mean_of map ops_of fst snd] in *.
  - apply IH. exact H.
  - destruct H as [[H|H]|H]; [left; exact H | right; apply IH; left; exact H | right; apply IH; right; exact H].
  - destruct H as [H|[H|H]]; [right; apply IH; left; exact H | left; exact H | right; apply IH; right; exact H].
Qed.

Lemma rems_lower : forall pat i o, In o (rems i pat) -> i * 24 <= snd o.
Proof. intros pat i o H. apply (ops_of_lower pat). apply ops_of_members. left. exact H. Qed.

Lemma sort_inss : forall pat i, forallb kind_ok pat = true -> sort_ops (inss i pat) = inss i pat.
Proof.
  unfold sort_ops. induction pat as [|k p IH]; intros i Hk; [reflexivity|].
  apply kind_ok_cons in Hk. destruct Hk as [Hk Hp].
  destruct k as [|h|h]; unfold inss in *; cbn [mean_of interp_ops map] in *; try (apply IH; exact Hp).
  cbn [fold_right]. unfold interp_ops in IH. rewrite (IH (S i) Hp). apply insert_op_head.
  intros o Ho. cbn [fst snd]. pose proof (ops_of_lower p (S i) o (ops_of_members p (S i) o (or_intror Ho))) as Hlow. apply kind_ok_long in Hk. lia.
Qed.

Lemma sort_ops_pattern : forall pat i, pattern_ok pat = true ->
  sort_ops (rems i pat ++ inss i pat) = ops_of i pat.
Proof.
  (* sort_ops folds the REMOVEs, last day first, into the INTERPOLATEs, which are sorted already.  Going through the
     days: a REMOVE of day i is below every operation of later days and becomes the head; an INTERPOLATE of day i is
     below every REMOVE still to be folded in, which therefore all pass behind it. *)
  intros pat i Hok. unfold sort_ops. rewrite fold_right_app.
  change (fold_right insert_op [] (inss i pat)) with (sort_ops (inss i pat)).
  rewrite (sort_inss pat i (pattern_ok_kind_ok _ Hok)).
  revert i Hok. induction pat as [|k p IH]; intros i Hok; [reflexivity|].
  assert (Hok' := pattern_ok_tail _ _ Hok).
  destruct k as [|h|h]; unfold rems, inss in *; cbn [interp_of mean_of remove_ops interp_ops map ops_of] in *.
  - apply IH. exact Hok'.
  - cbn [fold_right fst snd]. unfold remove_ops, interp_ops in IH. rewrite (IH (S i) Hok').
    apply insert_op_head. intros o Ho. cbn [snd]. apply ops_of_lower in Ho.
    assert (Hh := pattern_ok_short _ _ Hok). lia.
  - cbn [fst snd]. rewrite insert_behind_head.
    + unfold remove_ops, interp_ops in IH. rewrite (IH (S i) Hok'). reflexivity.
    + intros x Hx. cbn [snd]. destruct (pattern_ok_long _ _ Hok) as [Hh Hg].
      destruct (Nat.eq_dec h 23) as [E23|E23]; [|apply (rems_lower p (S i)) in Hx; lia].
      (* the REMOVE of a day skipping hour 0 would fall on this INTERPOLATE: the guard excludes it *)
      specialize (Hg E23). destruct p as [|[|h'|h'] p']; [contradiction | | |]; cbn [interp_of map] in Hx.
      * apply (rems_lower p' (S (S i))) in Hx. lia.
      * destruct h' as [|h']; [contradiction|].
        destruct Hx as [Hx|Hx]; [subst x; cbn [fst snd]; lia | apply (rems_lower p' (S (S i))) in Hx; lia].
      * apply (rems_lower p' (S (S i))) in Hx. lia.
Qed.

Lemma inss_long : forall i h p, map snd (inss i (Long h :: p)) = (i * 24 + S h) :: map snd (inss (S i) p).
Proof. intros i h p. unfold inss, interp_ops. cbn [mean_of map fst snd]. f_equal. lia. Qed.

Lemma mean_of_last : forall p i h, In (i + length p, h) (mean_of i (p ++ [Long h])).
Proof.
  induction p as [|k p IH]; intros i h.
  - cbn. left. f_equal. lia.
  - cbn [app length]. replace (i + S (length p)) with (S i + length p) by lia.
    destruct k; cbn [mean_of]; [apply IH | apply IH | right; apply IH].
Qed.

Section Transform.
  Context {V : Type}.
  Variable mean2 : V -> V -> V.

  (* the fence-post slicing with the inserted value emitted at its operation *)
  Fixpoint slices2 (pred : list V) (c : nat) (ops : list op) (vals : list V) : list V :=
    match ops with
    | [] => skipn c pred
    | (REMOVE, i) :: rest => slice c i pred ++ slices2 pred (i + 1) rest vals
    | (INTERPOLATE, i) :: rest =>
        match vals with
        | v :: vs => slice c i pred ++ v :: slices2 pred i rest vs
        | [] => slice c i pred ++ slices2 pred i rest []
        end
    end.

  Lemma slices_slices2 : forall pred ops prev vals,
    slices pred prev ops vals =
    match prev with
    | None => slices2 pred 0 ops vals
    | Some (REMOVE, i) => slices2 pred (i + 1) ops vals
    | Some (INTERPOLATE, i) =>
        match vals with v :: vs => v :: slices2 pred i ops vs | [] => slices2 pred i ops [] end
    end.
  Proof.
    intros pred. induction ops as [|o rest IH]; intros prev vals.
    - destruct prev as [[[|] i]|]; cbn [slices slices2]; try reflexivity.
      destruct vals; reflexivity.
    - cbn [slices]. destruct prev as [[[|] i]|].
      + rewrite IH. destruct o as [[|] j]; cbn [slices2 snd app]; [reflexivity|].
        destruct vals; reflexivity.
      + destruct vals as [|v vs]; rewrite IH; destruct o as [[|] j]; cbn [slices2 snd app]; try reflexivity.
        destruct vs; reflexivity.
      + rewrite IH. destruct o as [[|] j]; cbn [slices2 snd app]; [reflexivity|].
        destruct vals; reflexivity.
  Qed.

  Lemma firstn_slice : forall (l : list V) c d a, c + a <= d -> firstn a (slice c d l) = slice c (c + a) l.
  Proof. intros l c d a H. unfold slice. rewrite firstn_firstn. f_equal. lia. Qed.
  Lemma skipn_slice : forall (l : list V) c d a, skipn a (slice c d l) = slice (c + a) d l.
  Proof. intros l c d a. unfold slice. rewrite skipn_firstn_comm, skipn_skipn'. f_equal. lia. Qed.

  Lemma slice_split : forall (l : list V) a b c, a <= b -> b <= c -> slice a c l = slice a b l ++ slice b c l.
  Proof.
    intros l a b c Hab Hbc. rewrite <- (firstn_skipn (b - a) (slice a c l)), firstn_slice, skipn_slice by lia.
    replace (a + (b - a)) with b by lia. reflexivity.
  Qed.

  (* moving the cursor over a stretch without operations *)
  Lemma slices2_advance : forall pred ops c c' vals, c <= c' -> (forall o, In o ops -> c' <= snd o) ->
    slices2 pred c ops vals = slice c c' pred ++ slices2 pred c' ops vals.
  Proof.
    intros pred ops c c' vals Hc H. destruct ops as [|[[|] i] rest]; cbn [slices2].
    - unfold slice. rewrite <- (firstn_skipn (c' - c) (skipn c pred)) at 1. f_equal.
      rewrite skipn_skipn'. f_equal. lia.
    - assert (Hi : c' <= i) by (apply (H (REMOVE, i)); left; reflexivity).
      rewrite (slice_split pred c c' i Hc Hi). rewrite <- app_assoc. reflexivity.
    - assert (Hi : c' <= i) by (apply (H (INTERPOLATE, i)); left; reflexivity).
      rewrite (slice_split pred c c' i Hc Hi). destruct vals; rewrite <- app_assoc; reflexivity.
  Qed.

  (* well-formed operation lists, read with a cursor c (the first slot not yet consumed): a REMOVE lies at or beyond
     the cursor and moves it past its slot; an INTERPOLATE lies strictly beyond the cursor (so never at slot 0, never
     twice on one slot, never directly behind the REMOVE of the slot before it) and moves the cursor onto its slot;
     all inside the array; `vals` are the interpolated values in the order of the operations *)
  Fixpoint wfv (pred : list V) (c : nat) (ops : list op) (vals : list V) : Prop :=
    match ops with
    | [] => True
    | (REMOVE, i) :: rest => c <= i /\ i < length pred /\ wfv pred (i + 1) rest vals
    | (INTERPOLATE, i) :: rest =>
        c + 1 <= i /\
        match vals with
        | v :: vs => (exists a b, nth_error pred (i - 1) = Some a /\ nth_error pred i = Some b /\ v = mean2 a b)
                     /\ wfv pred i rest vs
        | [] => False
        end
    end.

  Lemma wfv_weaken : forall pred ops c c' vals, c' <= c -> wfv pred c ops vals -> wfv pred c' ops vals.
  Proof.
    intros pred [|[[|] i] rest] c c' vals Hc H; cbn [wfv] in *; [exact I | |].
    - destruct H as (H1 & H2 & H3). repeat split; [lia | exact H2 | exact H3].
    - destruct H as (H1 & H2). split; [lia | exact H2].
  Qed.

  Lemma slice_length : forall (l : list V) a b, b <= length l -> length (slice a b l) = b - a.
  Proof. intros l a b H. unfold slice. rewrite firstn_length, skipn_length. lia. Qed.

  (* in the array `pre ++ skipn c pred` (see loop_slices) slot i of the input stands at position length pre + (i - c) *)
  Lemma loop_read : forall (pre pred : list V) c i, c <= i ->
    nth_error (pre ++ skipn c pred) (length pre + (i - c)) = nth_error pred i.
  Proof. intros pre pred c i H. rewrite nth_error_app2 by lia. rewrite nth_error_skipn'. f_equal. lia. Qed.

  Lemma loop_delete : forall (pre pred : list V) c i, c <= i ->
    delete_at (length pre + (i - c)) (pre ++ skipn c pred) = (pre ++ slice c i pred) ++ skipn (i + 1) pred.
  Proof.
    intros pre pred c i H. unfold delete_at, slice.
    rewrite firstn_app_2, <- Nat.add_succ_r, skipn_app_r, skipn_skipn'. do 2 f_equal. lia.
  Qed.

  Lemma loop_insert : forall (pre pred : list V) c i v, c <= i ->
    insert_at (length pre + (i - c)) v (pre ++ skipn c pred) = (pre ++ slice c i pred ++ [v]) ++ skipn i pred.
  Proof.
    intros pre pred c i v H. unfold insert_at, slice.
    rewrite firstn_app_2, skipn_app_r, skipn_skipn', <- !app_assoc. cbn [app]. do 4 f_equal. lia.
  Qed.

  (* one operation of the commented loop, its index falling on position n of the array *)
  Lemma loop_spec_remove : forall p shift i rest n, (Z.of_nat i + shift = Z.of_nat n)%Z -> n < length p ->
    loop_spec mean2 p shift ((REMOVE, i) :: rest) = loop_spec mean2 (delete_at n p) (shift - 1)%Z rest.
  Proof.
    intros p shift i rest n E H. cbn [loop_spec]. rewrite E, Nat2Z.id.
    replace ((Z.of_nat n <? 0)%Z) with false by (symmetry; apply Z.ltb_ge; lia).
    replace ((Z.of_nat (length p) <=? Z.of_nat n)%Z) with false by (symmetry; apply Z.leb_gt; lia).
    reflexivity.
  Qed.

  Lemma loop_spec_interpolate : forall p shift i rest n a b, (Z.of_nat i + shift = Z.of_nat n)%Z -> 1 <= n ->
    nth_error p (n - 1) = Some a -> nth_error p n = Some b ->
    loop_spec mean2 p shift ((INTERPOLATE, i) :: rest)
    = loop_spec mean2 (insert_at n (mean2 a b) p) (shift + 1)%Z rest.
  Proof.
    intros p shift i rest n a b E H Ha Hb. cbn [loop_spec]. rewrite E, Nat2Z.id.
    replace ((Z.of_nat n <? 1)%Z) with false by (symmetry; apply Z.ltb_ge; lia).
    rewrite Ha, Hb. reflexivity.
  Qed.

  (* The invariant of the commented loop: when the slicing has its cursor at c, the array of the loop is `pre`, the
     output so far, followed by the input from c on, and the accumulated shift is length pre - c. *)
  Lemma loop_slices : forall pred ops pre c vals, wfv pred c ops vals ->
    loop_spec mean2 (pre ++ skipn c pred) (Z.of_nat (length pre) - Z.of_nat c)%Z ops
    = Some (pre ++ slices2 pred c ops vals).
  Proof.
    intros pred. induction ops as [|[[|] i] rest IH]; intros pre c vals H; cbn [slices2 wfv] in *.
    - reflexivity.
    - destruct H as (H1 & H2 & H3).
      rewrite (loop_spec_remove _ _ _ _ (length pre + (i - c))) by (try rewrite app_length, skipn_length; lia).
      rewrite (loop_delete pre pred c i H1).
      specialize (IH (pre ++ slice c i pred) (i + 1) vals H3). rewrite app_length, slice_length in IH by lia.
      replace (Z.of_nat (length pre) - Z.of_nat c - 1)%Z
        with (Z.of_nat (length pre + (i - c)) - Z.of_nat (i + 1))%Z by lia.
      rewrite IH, <- app_assoc. reflexivity.
    - destruct H as (H1 & H2). destruct vals as [|v vs]; [destruct H2|].
      destruct H2 as ((a & b & Ha & Hb & Hv) & H3). subst v.
      assert (Hi : i < length pred) by (apply nth_error_Some; congruence).
      rewrite (loop_spec_interpolate _ _ _ _ (length pre + (i - c)) a b);
        [|lia | lia | | rewrite loop_read by lia; exact Hb].
      2:{ replace (length pre + (i - c) - 1) with (length pre + (i - 1 - c)) by lia.
          rewrite loop_read by lia. exact Ha. }
      rewrite (loop_insert pre pred c i _ ltac:(lia)).
      specialize (IH (pre ++ slice c i pred ++ [mean2 a b]) i vs H3).
      rewrite !app_length, slice_length in IH by lia. cbn [length] in IH.
      replace (Z.of_nat (length pre) - Z.of_nat c + 1)%Z
        with (Z.of_nat (length pre + (i - c + 1)) - Z.of_nat i)%Z by lia.
      rewrite IH, <- !app_assoc. reflexivity.
  Qed.

  (* `slice` against ++, firstn and skipn of the library; not needed below since pattern_slices works at absolute
     positions, kept as the equations a proof that cuts the array into days starts from *)
  Lemma slice_app_r : forall (pre l : list V) a b, slice (length pre + a) (length pre + b) (pre ++ l) = slice a b l.
  Proof.
    intros pre l a b. unfold slice. rewrite skipn_app_r. f_equal. lia.
  Qed.

  Lemma slice_in_first : forall (s r : list V) a b, b <= length s -> slice a b (s ++ r) = slice a b s.
  Proof.
    intros s r a b H. unfold slice. rewrite skipn_app, firstn_app, skipn_length.
    replace (b - a - (length s - a)) with 0 by lia. cbn [firstn]. apply app_nil_r.
  Qed.
  Lemma slice_to_end : forall (s : list V) a n, length s = n -> slice a n s = skipn a s.
  Proof. intros s a n H. unfold slice. apply firstn_all2. rewrite skipn_length. lia. Qed.
  Lemma slice_from_0 : forall (s : list V) b, slice 0 b s = firstn b s.
  Proof. intros. unfold slice. rewrite Nat.sub_0_r. reflexivity. Qed.

  (* Day i of the frame, read in the whole prediction array `full`: cursor, operations and interpolation indices are
     those of the whole frame, so nothing is re-based when the induction moves on to the next day. *)
  Lemma pattern_slices : forall pat i full, pattern_ok pat = true -> length full = i * 24 + 24 * length pat ->
    exists vals out, interp_vals mean2 full (map snd (inss i pat)) = Ok vals
      /\ wfv full (i * 24) (ops_of i pat) vals
      /\ by_day mean2 pat (skipn (i * 24) full) = Some out
      /\ slices2 full (i * 24) (ops_of i pat) vals = out.
  Proof.
    induction pat as [|k p IH]; intros i full Hok Hlen; cbn [length] in Hlen.
    - exists [], []. repeat split. cbn [ops_of slices2]. apply skipn_all2. lia.
    - destruct (IH (S i) full (pattern_ok_tail _ _ Hok) ltac:(lia)) as (vals' & out' & Ev & Hw & Eb & Es).
      assert (Hday : firstn 24 (skipn (i * 24) full) = slice (i * 24) (S i * 24) full).
      { unfold slice. f_equal. lia. }
      assert (Hsk : skipn 24 (skipn (i * 24) full) = skipn (S i * 24) full).
      { rewrite skipn_skipn'. f_equal. lia. }
      assert (Hw' : forall c, c <= S i * 24 -> wfv full c (ops_of (S i) p) vals').
      { intros c Hc. exact (wfv_weaken _ _ _ _ _ Hc Hw). }
      assert (Hadv : forall c, c <= S i * 24 ->
                slices2 full c (ops_of (S i) p) vals' = slice c (S i * 24) full ++ out').
      { intros c Hc. rewrite <- Es. apply slices2_advance; [exact Hc|]. intros o Ho. exact (ops_of_lower _ _ _ Ho). }
      cbn [by_day]. rewrite Hsk, Eb, Hday.
      destruct k as [|h|h]; cbn [ops_of].
      + exists vals', (slice (i * 24) (S i * 24) full ++ out').
        split; [exact Ev|]. split; [apply Hw'; lia|]. split; [reflexivity|]. apply Hadv. lia.
      + assert (Hh := pattern_ok_short _ _ Hok).
        exists vals', (delete_at h (slice (i * 24) (S i * 24) full) ++ out').
        split; [exact Ev|]. split; [|split; [reflexivity|]].
        * cbn [wfv]. split; [lia|]. split; [lia|]. apply Hw'. lia.
        * cbn [slices2]. rewrite Hadv by lia. unfold delete_at. rewrite firstn_slice by lia. rewrite skipn_slice.
          rewrite <- app_assoc. replace (i * 24 + S h) with (i * 24 + h + 1) by lia. reflexivity.
      + destruct (pattern_ok_long _ _ Hok) as [Hh Hg].
        (* a day repeating hour 23 is not the last one: slot 24 of the day exists *)
        assert (Hnext : i * 24 + S h < length full).
        { destruct (Nat.eq_dec h 23) as [E|E]; [|lia]. specialize (Hg E).
          destruct p; [contradiction | cbn [length] in Hlen; lia]. }
        rewrite !nth_error_skipn'.
        destruct (nth_error full (i * 24 + h)) as [a|] eqn:Ha; [|apply nth_error_None in Ha; lia].
        destruct (nth_error full (i * 24 + S h)) as [b|] eqn:Hb; [|apply nth_error_None in Hb; lia].
        exists (mean2 a b :: vals'),
          (firstn (S h) (slice (i * 24) (S i * 24) full)
           ++ mean2 a b :: skipn (S h) (slice (i * 24) (S i * 24) full) ++ out').
        replace (i * 24 + h + 1) with (i * 24 + S h) by lia.
        assert (Hpred : i * 24 + S h - 1 = i * 24 + h) by lia.
        split; [|split; [|split; [reflexivity|]]].
        * rewrite inss_long. cbn [interp_vals]. rewrite Hpred, Ha, Hb, Ev. reflexivity.
        * cbn [wfv]. split; [lia|]. split; [|apply Hw'; lia]. exists a, b. rewrite Hpred. auto.
        * cbn [slices2]. rewrite Hadv by lia. rewrite firstn_slice by lia. rewrite skipn_slice. reflexivity.
  Qed.

  (* the source comment "the block above is equivalent to" for any well-formed operation list, not only those of a
     clock pattern *)
  Lemma loop_equals_slicing : forall pred ops vals, wfv pred 0 ops vals ->
    loop_spec mean2 pred 0%Z ops = Some (slices pred None ops vals).
  Proof.
    intros pred ops vals H. pose proof (loop_slices pred ops [] 0 vals H) as L.
    cbn [app length skipn] in L. change (Z.of_nat 0 - Z.of_nat 0)%Z with 0%Z in L.
    rewrite L, slices_slices2. reflexivity.
  Qed.

  Lemma transform_dst_pattern : forall pat pred, pattern_ok pat = true -> length pred = 24 * length pat ->
    exists out, transform_dst mean2 pred (indices_of pat) = Ok out
             /\ by_day mean2 pat pred = Some out
             /\ transform_spec mean2 pred (indices_of pat) = Some out.
  Proof.
    intros pat pred Hok Hlen.
    destruct (pattern_slices pat 0 pred Hok Hlen) as (vals & out & Ev & Hw & Eb & Es).
    assert (Eout : slices pred None (ops_of 0 pat) vals = out) by (rewrite slices_slices2; exact Es).
    assert (Eops : sort_ops (remove_ops (interp_of 0 pat) ++ interp_ops (mean_of 0 pat)) = ops_of 0 pat)
      by exact (sort_ops_pattern pat 0 Hok).
    exists out. split; [|split; [exact Eb|]].
    - unfold transform_dst, indices_of. cbn [fst snd]. fold (inss 0 pat). rewrite Ev. cbn [bind].
      unfold inss. rewrite Eops, Eout. reflexivity.
    - unfold transform_spec, indices_of. cbn [fst snd]. rewrite Eops, (loop_equals_slicing pred _ vals Hw), Eout.
      reflexivity.
  Qed.

  Lemma transform_dst_pattern_ok : forall pat pred out, pattern_ok pat = true -> length pred = 24 * length pat ->
    transform_dst mean2 pred (indices_of pat) = Ok out ->
    by_day mean2 pat pred = Some out /\ transform_spec mean2 pred (indices_of pat) = Some out.
  Proof.
    intros pat pred out Hok Hlen E. destruct (transform_dst_pattern pat pred Hok Hlen) as (o & E1 & E2 & E3).
    rewrite E in E1. injection E1 as ->. split; assumption.
  Qed.

  Lemma by_day_length : forall pat pred out, forallb kind_ok pat = true -> length pred = 24 * length pat ->
    by_day mean2 pat pred = Some out -> length out = total_rows pat.
  Proof.
    unfold total_rows. induction pat as [|k p IH]; intros pred out Hk Hlen E.
    - cbn in E. inversion E. reflexivity.
    - apply kind_ok_cons in Hk. destruct Hk as [Hk Hp].
      cbn [by_day] in E. destruct (by_day mean2 p (skipn 24 pred)) as [out'|] eqn:E'; [|discriminate].
      cbn [length] in Hlen.
      assert (Hs : length (firstn 24 pred) = 24) by (rewrite firstn_length; lia).
      assert (IH' : length out' = length (concat (map clock_hours p))).
      { apply (IH (skipn 24 pred)); [exact Hp | rewrite skipn_length; lia | exact E']. }
      cbn [map concat]. rewrite app_length, (clock_hours_length k Hk), <- IH'.
      destruct k as [|h|h]; cbn [rows_expected] in *.
      + apply Some_inj in E. rewrite <- E. rewrite app_length, Hs. reflexivity.
      + apply kind_ok_short in Hk. apply Some_inj in E. rewrite <- E. rewrite app_length, delete_at_length by lia. lia.
      + apply kind_ok_long in Hk.
        destruct (nth_error pred h); [|discriminate]. destruct (nth_error pred (S h)); [|discriminate].
        apply Some_inj in E. rewrite <- E.
        rewrite app_length. cbn [length]. rewrite app_length, firstn_length, skipn_length. lia.
  Qed.

  (* interpolated values: reading prediction[i] beyond the end fails *)
  Lemma interp_vals_oob : forall (pred : list V) idxs, (exists i, In i idxs /\ length pred <= i) ->
    exists e, interp_vals mean2 pred idxs = Err e.
  Proof.
    intros pred. induction idxs as [|i0 t IH]; intros (i & Hin & Hi); [destruct Hin|].
    cbn [interp_vals]. destruct (nth_error pred (i0 - 1)) as [a|]; [|eexists; reflexivity].
    destruct (nth_error pred i0) as [b|] eqn:Eb; [|eexists; reflexivity].
    destruct Hin as [Hin|Hin].
    - subst i0. assert (nth_error pred i = None) by (apply nth_error_None; exact Hi). congruence.
    - destruct (IH (ex_intro _ i (conj Hin Hi))) as [e E]. rewrite E. exists e. reflexivity.
  Qed.

  (* a frame that ends on a day repeating hour 23: prediction[24 * n] is read for the mean *)
  Lemma transform_dst_ends_long23 : forall pat pred, ends_long23 pat = true -> length pred = 24 * length pat ->
    exists e, transform_dst mean2 pred (indices_of pat) = Err e.
  Proof.
    intros pat pred Hp Hlen. destruct (ends_long23_app pat Hp) as [p Ep].
    assert (Hoob : exists e, interp_vals mean2 pred (map snd (interp_ops (mean_of 0 pat))) = Err e).
    { apply interp_vals_oob. exists (length p * 24 + 23 + 1). split.
      - apply in_map_iff. exists (INTERPOLATE, length p * 24 + 23 + 1). split; [reflexivity|].
        unfold interp_ops. apply in_map_iff. exists (length p, 23). split; [reflexivity|].
        rewrite Ep. apply (mean_of_last p 0 23).
      - rewrite Hlen, Ep, app_length. cbn [length]. lia. }
    destruct Hoob as [e E]. unfold transform_dst, indices_of. cbn [fst snd]. rewrite E. exists e. reflexivity.
  Qed.
End Transform.

Lemma has_dup_NoDup : forall l, NoDup l -> has_dup l = false.
Proof.
  induction 1 as [|x t Hx _ IH]; [reflexivity|]. cbn [has_dup]. rewrite IH, orb_false_r.
  apply not_true_is_false. intros E. apply existsb_exists in E. destruct E as (y & Hy & Exy).
  apply Z.eqb_eq in Exy. subst y. exact (Hx Hy).
Qed.

Section Reindex.
  Context {V : Type}.

  Lemma lookup_nth : forall (idx : list Z) (y : list V), NoDup idx ->
    forall n t, nth_error idx n = Some t -> lookup (combine idx y) t = nth_error y n.
  Proof.
    induction idx as [|a idx IH]; intros y Hnd n t Hn; [destruct n; discriminate|].
    destruct y as [|b y]; [destruct n; reflexivity|]. inversion Hnd as [|? ? Ha Hnd']; subst.
    unfold lookup. cbn [combine find fst].
    destruct n as [|n]; cbn [nth_error] in *.
    - inversion Hn; subst. rewrite Z.eqb_refl. reflexivity.
    - assert (Hin : In t idx) by (eapply nth_error_In; exact Hn).
      replace (a =? t)%Z with false by (symmetry; apply Z.eqb_neq; intros E; subst; contradiction).
      apply (IH y Hnd' n t Hn).
  Qed.

  Lemma map_lookup : forall (idx : list Z) (y : list V) (rows : list (Z * V)), length y = length idx ->
    (forall n t, nth_error idx n = Some t -> lookup rows t = nth_error y n) ->
    map (fun t => (t, lookup rows t)) idx = combine idx (map Some y).
  Proof.
    induction idx as [|a idx IH]; intros [|b y] rows Hlen L; try discriminate; [reflexivity|].
    cbn [map combine]. f_equal.
    - f_equal. apply (L 0 a). reflexivity.
    - apply IH; [cbn [length] in Hlen; lia|]. intros n t Hn. apply (L (S n) t). exact Hn.
  Qed.

  Lemma reindex_same : forall (idx : list Z) (y : list V), StronglySorted Z.lt idx -> length y = length idx ->
    reindex (combine idx y) idx = Ok (combine idx (map Some y)).
  Proof.
    intros idx y Hs Hlen. assert (Hnd := NoDup_sorted Z Z.lt Z.lt_irrefl idx Hs). unfold reindex.
    rewrite (map_fst_combine _ _ idx y) by lia. rewrite (has_dup_NoDup idx Hnd). f_equal.
    apply map_lookup; [exact Hlen|]. apply lookup_nth. exact Hnd.
  Qed.
End Reindex.

(* Model/PredictRows.sort_by is an insertion sort in the sense of ListFacts.InsertionSort (the names say
   predict_sort: Proofs/RowsProofs.v has the same facts about the sort_by of Model/Rows.v) *)
Section PredictSort.
  Context {B : Type}.
  Variable key : B -> Z.

  Lemma predict_sort_perm : forall l, Permutation (sort_by key l) l.
  Proof. exact (isort_perm B key (insert_by key) (fun _ => eq_refl) (fun _ _ _ => eq_refl)). Qed.

  Lemma predict_sort_In : forall l x, In x (sort_by key l) <-> In x l.
  Proof. exact (isort_In B key (insert_by key) (fun _ => eq_refl) (fun _ _ _ => eq_refl)). Qed.

  Lemma predict_sort_keys_sorted : forall l, LocallySorted Z.le (map key (sort_by key l)).
  Proof.
    intros l.
    assert (S : LocallySorted (fun a b => (key a <= key b)%Z) (sort_by key l))
      by exact (isort_sorted B key (insert_by key) (fun _ => eq_refl) (fun _ _ _ => eq_refl) l).
    revert S. generalize (sort_by key l). intros sorted S. induction S as [|a|a b t S IH Hab]; cbn [map]; constructor; [exact IH | exact Hab].
  Qed.
End PredictSort.

Section DailyPredict.
  Context {V K : Type}.
  Variable finite : V -> bool.
  Variable predict_sub : K -> V -> option V.
  Variable member : K -> @drow V -> bool.
  Variable keys : list K.

  Notation keepb := (keep finite).
  Notation okb := (cell_ok finite).

  Definition sub_pred (k : K) (r : @drow V) : option V :=
    match d_temp r with Some t => predict_sub k t | None => None end.
  (* the prediction of the one sub-model that selects the row *)
  Definition row_pred (r : @drow V) : option V :=
    match filter (fun k => member k r) keys with k :: _ => sub_pred k r | [] => None end.

  Lemma matches_of_row : forall kept r, NoDup (map d_ts kept) -> In r kept ->
    filter (fun p => Z.eqb (fst p) (d_ts r)) (segment_predictions predict_sub member keys kept)
    = map (fun k => (d_ts r, sub_pred k r)) (filter (fun k => member k r) keys).
  Proof.
    intros kept r Hnd Hr. unfold segment_predictions. rewrite filter_flat_map.
    induction keys as [|k ks IH]; [reflexivity|]. cbn [flat_map filter].
    rewrite IH. rewrite filter_map_comm. cbn [fst].
    rewrite filter_comm. rewrite (filter_label_unique _ d_ts kept r Hnd Hr). cbn [filter].
    destruct (member k r); cbn [map app]; reflexivity.
  Qed.

  Lemma join_left_exact : forall kept, NoDup (map d_ts kept) ->
    (forall r, In r kept -> length (filter (fun k => member k r) keys) = 1) ->
    join_left kept (segment_predictions predict_sub member keys kept) = map (fun r => (r, row_pred r)) kept.
  Proof.
    intros kept Hnd Hcov. unfold join_left. apply flat_map_single. intros r Hr.
    rewrite (matches_of_row kept r Hnd Hr). specialize (Hcov r Hr). unfold row_pred.
    destruct (filter (fun k => member k r) keys) as [|k [|k' t]]; try discriminate. reflexivity.
  Qed.

  Lemma dropped_are_not_kept : forall s obs, NoDup (map d_ts s) ->
    filter (fun r => negb (existsb (Z.eqb (d_ts r)) (map d_ts (filter (keepb obs) s)))) s
    = filter (fun r => negb (keepb obs r)) s.
  Proof.
    intros s obs Hnd. apply filter_ext_in. intros r Hr. f_equal.
    destruct (keepb obs r) eqn:E.
    - apply existsb_exists. exists (d_ts r). split; [|apply Z.eqb_refl].
      apply in_map. apply filter_In. split; assumption.
    - apply not_true_is_false. intros H. apply existsb_exists in H. destruct H as (t & Ht & Et).
      apply Z.eqb_eq in Et. subst t. apply in_map_iff in Ht. destruct Ht as (r' & Hl & Hr').
      apply filter_In in Hr'. destruct Hr' as [Hr' Hk].
      assert (r' = r) by (apply (NoDup_map_In_inj _ _ d_ts s); assumption). subst r'. congruence.
  Qed.

  (* what daily_predict computes when labels are unique and every kept row is selected by exactly one sub-model *)
  Lemma daily_predict_shape : forall obs rows, NoDup (map d_ts rows) ->
    exact_cover finite member keys obs rows ->
    let s := sort_by d_ts rows in
    daily_predict finite predict_sub member keys obs rows
    = sort_by (fun rp => d_ts (fst rp))
        (map (fun r => (r, row_pred r)) (filter (keepb obs) s)
         ++ map (fun r => (r, None)) (filter (fun r => negb (keepb obs r)) s)).
  Proof.
    intros obs rows Hnd Hcov s. unfold daily_predict, initialize_data. fold s.
    assert (Hs : NoDup (map d_ts s)).
    { eapply Permutation_NoDup; [apply Permutation_map; apply Permutation_sym; apply predict_sort_perm | exact Hnd]. }
    rewrite (dropped_are_not_kept s obs Hs).
    rewrite join_left_exact; [reflexivity | apply NoDup_map_filter; exact Hs |].
    intros r Hr. apply filter_In in Hr. destruct Hr as [Hr Hk]. apply Hcov; [|exact Hk].
    apply (predict_sort_In d_ts). exact Hr.
  Qed.

End DailyPredict.
