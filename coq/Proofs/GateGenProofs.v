(* C04: the hand-written decision functions of Model/Gate.v are the interpretation of the guard lists that
   harness/translate_gate.py reads from /repo's source on every run (Generated/GateGen.v).  Properties/C04.v restates
   the two lemmas as its last theorems. *)
From Coq Require Import ZArith List Bool.
From V Require Import Model.Gate Generated.GateGen Proofs.GateProofs.
Import ListNotations.
Open Scope Z_scope.

(* The generated sequences test [has_attrs] at every guard that reads an attribute of the data; [predict] tests it
   once (daily, hourly) or not at all (billing, where the type guard comes first).  A repeated test, or one behind
   the type guard, cannot fail. *)
Lemma predict_is_guard_sequence : forall f s d i,
  predict f s d i = interp_predict f (predict_guards f) s d i.
Proof.
  intros f s d i. destruct f; unfold predict, predict_guards; cbn [interp_predict].
  - reflexivity.
  - destruct (is_data_of Billing (d_kind d)) eqn:Ht; [|reflexivity].
    rewrite (is_data_has_attrs _ _ Ht). reflexivity.
  - destruct (has_attrs (d_kind d)); reflexivity.
Qed.

Lemma fit_is_guard_sequence : forall poor f s d i,
  match interp_fit f (fit_guards f) s d i with
  | Some e => fit poor f s d i = (s, Err e)
  | None => snd (fit poor f s d i) = Fitted
  end.
Proof.
  intros poor f s d i. destruct f; unfold fit, fit_guards; cbn [interp_fit family_eqb andb];
  destruct (is_baseline_of _ (d_kind d)); cbn [negb]; try reflexivity;
  destruct (nonempty (d_dq d) && negb i); try reflexivity;
  destruct (m_ghi s && negb (d_ghi d)); reflexivity.
Qed.
