(* C19 — the uncertainty column with its square root, over the real numbers.
   Model/BillingAgg.v keeps the squared uncertainty of a period (a rational); the code returns its square root
   (np.sqrt(np.sum(np.square(x)))).  Here: unc_of o = sqrt (a_uncsq o) is the returned value, and the
   root-sum-square of a column of returned values is the root of the sum of the squared cells. *)
From Coq Require Import ZArith QArith Reals Qreals List Lra.
From V Require Import Model.BillingAgg Proofs.BillingAggProofs.
Import ListNotations.
Open Scope R_scope.

Definition rsum (l : list R) : R := fold_right Rplus 0 l.
Definition unc_of (o : arow) : R := sqrt (Q2R (a_uncsq o)).          (* predicted_unc of an aggregated row *)
Definition rss (l : list R) : R := sqrt (rsum (map Rsqr l)).          (* root-sum-square of a column *)

Lemma Q2R_qsum : forall l, Q2R (qsum l) = rsum (map Q2R l).
Proof.
  induction l as [|x l IH]; [unfold qsum, rsum; cbn; lra|].
  rewrite (Qeq_eqR _ _ (qsum_cons x l)), Q2R_plus, IH. reflexivity.
Qed.

Lemma aggregate_uncsq_nonneg : forall k rows o, In o (aggregate k rows) -> (0 <= a_uncsq o)%Q.
Proof.
  intros k rows o Ho. destruct (aggregate_In k rows o Ho) as (m0 & m1 & j & _ & _ & _ & ->).
  cbn [agg_row a_uncsq]. apply sumsq_nonneg.
Qed.

Lemma sqr_unc_of : forall o, (0 <= a_uncsq o)%Q -> Rsqr (unc_of o) = Q2R (a_uncsq o).
Proof.
  intros o H. unfold unc_of. apply Rsqr_sqrt. replace 0 with (Q2R 0) by (unfold Q2R; cbn; lra).
  apply Qle_Rle, H.
Qed.

Lemma rss_of_uncsq : forall l, (forall o, In o l -> (0 <= a_uncsq o)%Q) ->
  rss (map unc_of l) = sqrt (Q2R (qsum (map a_uncsq l))).
Proof.
  intros l H. unfold rss. rewrite Q2R_qsum, !map_map. do 2 f_equal.
  apply map_ext_in. intros o Ho. apply sqr_unc_of, H, Ho.
Qed.
