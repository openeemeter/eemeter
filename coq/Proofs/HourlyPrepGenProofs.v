(* The table read from the source on this run (Generated/HourlyPrepGen.v) against Model/HourlyPrepTable.v: what is to be
   shown of it.  Properties/C17.v shows it by evaluation (C17_source_pipeline_accepted). *)
From Coq Require Import ZArith List Bool.
From V Require Import Model.HourlyPrep Model.HourlyPrepTable Generated.HourlyPrepGen.
Import ListNotations.
Open Scope Z_scope.

Definition source_accepted : Prop :=
  match gen_pipeline with Some p => accepted p = true | None => True end.
