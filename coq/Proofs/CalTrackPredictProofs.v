(* Lemmas about Model/CalTrackPredict.v (property C18): the value predicted for an hour, for arbitrary
   parameters / frames; nothing here looks inside the tables. *)
From Coq Require Import ZArith QArith List Bool String Lqa.
From V Require Import Model.CalTrack Model.CalTrackPredict Proofs.CalTrackProofs.
Import ListNotations.
Local Open Scope Q_scope.

Lemma all_some_map_Some : forall l, all_some (map Some l) = Some l.
Proof. induction l as [ | x l IH ]; [ reflexivity | ]. cbn [map all_some]. rewrite IH. reflexivity. Qed.

Lemma all_some_const : forall (A : Type) z (l : list A), all_some (map (fun _ => Some z) l) = Some (map (fun _ => z) l).
Proof. induction l as [ | x l IH ]; [ reflexivity | ]. cbn [map all_some]. rewrite IH. reflexivity. Qed.

Lemma dot_zeros : forall (A : Type) coefs (l : list A), dot coefs (map (fun _ => 0) l) == 0.
Proof.
  intros A coefs l. revert coefs. induction l as [ | x l IH ]; intros [ | c coefs ]; cbn [map dot]; try reflexivity.
  rewrite IH. destruct c; lra.
Qed.

Lemma dot_const : forall b xs n, n = List.length xs -> dot (repeat (Some b) n) xs == b * sum QOps xs.
Proof.
  intros b xs n ->. induction xs as [ | x xs IH ]; cbn [List.length repeat dot]; [ cbn; lra | ].
  rewrite IH. change (sum QOps (x :: xs)) with (x + sum QOps xs). lra.
Qed.

Lemma forallb_map_true : forall (A B : Type) (p : B -> bool) (f : A -> B) l, (forall x, p (f x) = true) -> forallb p (map f l) = true.
Proof. intros A B p f l H. induction l as [ | x l IH ]; [ reflexivity | ]. cbn [map forallb]. rewrite H. exact IH. Qed.

(* with a finite temperature (and the other columns present) every cell of the split has a value: merge_features
   blanks nothing *)
Lemma finite_row : forall occ t eo eu,
  feature_row QOps true occ (Some t) eo eu = occupancy_split QOps occ (Some t) eo eu.
Proof.
  intros occ t eo eu. unfold feature_row.
  assert (P : forallb (present QOps) (fst (occupancy_split QOps occ (Some t) eo eu)) = true /\
              forallb (present QOps) (snd (occupancy_split QOps occ (Some t) eo eu)) = true).
  { unfold occupancy_split, zeros, bin_features_opt.
    destruct occ as [ [ | ] | ]; cbn [fst snd]; split; rewrite ?map_map; apply forallb_map_true; reflexivity. }
  destruct P as [Po Pu]. rewrite Po, Pu. reflexivity.
Qed.

(* the closed form of the prediction of an hour of known occupancy: c_h + coefficients . bins of T, over the group of the
   hour's occupancy mode; the other group adds nothing *)
Lemma known_occupancy_value : forall p how c (b : bool) t eo eu, lookup_how how (sp_how p) = Some c ->
  let r := feature_row QOps true (Some b) (Some t) eo eu in
  exists v, segment_predict p how (fst r) (snd r) = Some v /\
            v == c + (if b then dot (sp_occ p) (bin_features QOps t eo) else dot (sp_unocc p) (bin_features QOps t eu)).
Proof.
  intros p how c b t eo eu Hc. cbv zeta. rewrite finite_row. unfold occupancy_split, zeros, bin_features_opt, segment_predict.
  destruct b; cbn [fst snd]; rewrite map_map, all_some_map_Some, all_some_const, Hc;
    (eexists; split; [ reflexivity | ]); rewrite dot_zeros; lra.
Qed.

Lemma all_some_none : forall l, l <> [] -> Forall (fun x : option Q => x = None) l -> all_some l = None.
Proof. intros [ | x l ] Hne HF; [ congruence | ]. inversion HF; subst. reflexivity. Qed.

Lemma segment_predict_nan_o : forall p how o u, all_some o = None -> segment_predict p how o u = None.
Proof. intros p how o u H. unfold segment_predict. rewrite H. reflexivity. Qed.
Lemma segment_predict_nan_u : forall p how o u, all_some u = None -> segment_predict p how o u = None.
Proof. intros p how o u H. unfold segment_predict. rewrite H. destruct (all_some o); reflexivity. Qed.

(* a NaN temperature blanks the row: its first cell is NaN whatever the occupancy *)
Lemma nan_row_first_cell : forall occ eo eu, exists l, fst (feature_row QOps true occ None eo eu) = None :: l.
Proof.
  intros occ eo eu. unfold feature_row, occupancy_split, zeros. rewrite !bins_nan. cbn [repeat map].
  destruct occ as [ [ | ] | ]; cbn [fst snd forallb present andb]; rewrite ?andb_false_r; eexists; reflexivity.
Qed.

Lemma nansum_single : forall x, nansum [x] = x.
Proof. intros x. reflexivity. Qed.

Lemma assoc_mem : forall (A : Type) k (l : list (string * A)),
  mem_str k (map fst l) = match assoc k l with Some _ => true | None => false end.
Proof.
  intros A k l. unfold mem_str. induction l as [ | [k' v] l IH ]; [ reflexivity | ].
  cbn [map fst existsb assoc]. rewrite String.eqb_sym. destruct (String.eqb k' k); [ reflexivity | exact IH ].
Qed.

(* segment_value reads the frame and the model of its own segment only; with both known it is that model's
   prediction on the row the segment's processor builds *)
Lemma segment_value_ext : forall frames models frames' models' name how T,
  assoc name frames = assoc name frames' -> assoc name models = assoc name models' ->
  segment_value frames models name how T = segment_value frames' models' name how T.
Proof. intros frames models frames' models' name how T Ef Em. unfold segment_value. rewrite Ef, Em. reflexivity. Qed.

Lemma segment_value_known : forall frames models name lk fo fu p how T,
  assoc name frames = Some (lk, fo, fu) -> assoc name models = Some (Some p) ->
  segment_value frames models name how T =
  let r := feature_row QOps true (occ_of lk how) T (endpoints_of_flags fo) (endpoints_of_flags fu) in
  segment_predict p how (fst r) (snd r).
Proof. intros frames models name lk fo fu p how T Ef Em. unfold segment_value. rewrite Ef, Em. reflexivity. Qed.

Lemma occ_of_defined : forall lk how, (0 <= how)%Z -> (Z.to_nat how < List.length lk)%nat -> exists b, occ_of lk how = Some b.
Proof.
  intros lk how H0 Hl. unfold occ_of. rewrite (proj2 (Z.ltb_ge how 0) H0).
  destruct (nth_error lk (Z.to_nat how)) as [ b | ] eqn:E; [ exists b; reflexivity | ].
  apply nth_error_None in E. exfalso. exact (Nat.lt_irrefl _ (Nat.lt_le_trans _ _ _ Hl E)).
Qed.
