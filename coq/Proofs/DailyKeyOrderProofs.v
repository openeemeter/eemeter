(* C01: a stored document is an unordered JSON object -- the key order of its mappings does not matter to from_dict.
   Lemmas for Properties/C01.v (daily / billing reader of Model/DailyDoc.v). *)
From Coq Require Import ZArith List Bool String PrimFloat Permutation.
From V Require Import Model.Num Model.NumF Model.DailyCurve Model.Json Model.DocSchema Model.DailyDoc Proofs.DailyDocProofs.
Import ListNotations.
Open Scope string_scope.

(* two JSON values that read the same through every key (`same_fields`): what a re-ordering of an object is *)
Definition same_fields (j j' : json) : Prop := forall k, field k j' = field k j.

Lemma perm_same_fields : forall o o', NoDup (map fst o) -> Permutation o o' -> same_fields (JObj o) (JObj o').
Proof. intros o o' H1 H2 k. cbn. apply get_perm; assumption. Qed.

Lemma parse_coeffs_order : forall j j', same_fields j j' -> parse_coeffs j' = parse_coeffs j.
Proof. intros j j' H. unfold parse_coeffs, opt_field. rewrite !H. reflexivity. Qed.

Lemma parse_tc_order : forall j j', same_fields j j' -> parse_tc j' = parse_tc j.
Proof. intros j j' H. unfold parse_tc. rewrite !H. reflexivity. Qed.

Definition optrel {A} (R : A -> A -> Prop) (a b : option A) : Prop :=
  match a, b with Some x, Some y => R x y | None, None => True | _, _ => False end.

Lemma bind_optrel : forall {A B} (R : A -> A -> Prop) (f : A -> option B) o o',
  optrel R o o' -> (forall x y, R x y -> f y = f x) -> bind o' f = bind o f.
Proof. intros A B R f [x|] [y|] H Hf; cbn in H; try contradiction; [apply Hf; exact H | reflexivity]. Qed.

(* a sub-model entry re-ordered at both levels: its own keys, and the keys of its coefficients and
   temperature_constraints objects *)
Definition same_submodel (j j' : json) : Prop :=
  optrel same_fields (field "coefficients" j) (field "coefficients" j') /\
  optrel same_fields (field "temperature_constraints" j) (field "temperature_constraints" j') /\
  field "f_unc" j' = field "f_unc" j.

Lemma parse_submodel_order : forall k j j', same_submodel j j' -> parse_submodel (k, j') = parse_submodel (k, j).
Proof.
  intros k j j' (Hc & Ht & Hu). unfold parse_submodel.
  rewrite Hu, (bind_optrel _ parse_coeffs _ _ Hc parse_coeffs_order), (bind_optrel _ parse_tc _ _ Ht parse_tc_order).
  reflexivity.
Qed.

Lemma parse_submodel_key : forall k j sm, parse_submodel (k, j) = Some sm -> sm_key sm = k.
Proof.
  intros k j sm H. unfold parse_submodel in H.
  apply bind_some in H. destruct H as (c & _ & H). apply bind_some in H. destruct H as (tc & _ & H).
  apply bind_some in H. destruct H as (u & _ & H). injection H as <-. reflexivity.
Qed.

(* the sub-model mapping: first-match lookup on the document side corresponds to find_sub on the state side *)
Lemma find_sub_parsed : forall l subs k, opt_all (map parse_submodel l) = Some subs ->
  find_sub k subs = bind (get k l) (fun j => parse_submodel (k, j)).
Proof.
  induction l as [|[k0 j0] l IH]; intros subs k H; cbn [map opt_all] in H.
  - injection H as <-. reflexivity.
  - destruct (parse_submodel (k0, j0)) as [sm|] eqn:E; [|discriminate H].
    destruct (opt_all (map parse_submodel l)) as [r|] eqn:Er; [|discriminate H]. injection H as <-.
    pose proof (parse_submodel_key k0 j0 sm E) as Hk.
    cbn [find_sub get]. rewrite Hk. rewrite (String.eqb_sym k k0). destruct (String.eqb k0 k) eqn:Ek.
    + apply String.eqb_eq in Ek. rewrite <- Ek. symmetry. exact E.
    + apply IH. reflexivity.
Qed.

(* the two sub-model mappings hold the same entries up to order, each entry up to the order of its own keys *)
Definition same_submodels (l l' : list (string * json)) : Prop :=
  NoDup (map fst l') /\ forall k, optrel same_submodel (get k l) (get k l').

(* ... so they parse together, to lists that hold the same sub-model under every key *)
Lemma parse_submodels_order : forall l l' subs, same_submodels l l' -> opt_all (map parse_submodel l) = Some subs ->
  exists subs', opt_all (map parse_submodel l') = Some subs' /\ forall k, find_sub k subs' = find_sub k subs.
Proof.
  intros l l' subs [Hnd Hsubs] Esubs.
  destruct (opt_all_total parse_submodel l') as [subs' Esubs'].
  { (* an entry of l' parses like the entry of l under its key, which is one of those that parsed *)
    intros [k j'] Hin. specialize (Hsubs k). rewrite (get_in_nodup l' k j' Hnd Hin) in Hsubs.
    destruct (get k l) as [j|] eqn:Hg; [|contradiction]. cbn in Hsubs. rewrite (parse_submodel_order k j j' Hsubs).
    exact (opt_all_in parse_submodel l subs (k, j) Esubs (get_in l k j Hg)). }
  exists subs'. split; [exact Esubs'|]. intros k.
  rewrite (find_sub_parsed l' subs' k Esubs'), (find_sub_parsed l subs k Esubs).
  apply (bind_optrel same_submodel _ _ _ (Hsubs k)). intros j j'. apply parse_submodel_order.
Qed.

(* a document d' that reads like d: same settings tree, the same info entries up to key order, the same sub-models up
   to the order of the mapping, of each entry's keys and of the keys of its "coefficients" and
   "temperature_constraints" objects.  (A permutation of the top-level keys gives such a d': C01_top_level_order_reads_like;
   [perm_same_submodels] and [same_fields_same_submodel] below give the two levels under "submodels".) *)
Definition reads_like (d d' : json) : Prop :=
  field "settings" d' = field "settings" d /\
  optrel same_fields (field "info" d) (field "info" d') /\
  exists l l', field "submodels" d = Some (JObj l) /\ field "submodels" d' = Some (JObj l') /\ same_submodels l l'.

(* what stays the same: every sub-model by its key (hence every prediction), the settings, the metadata *)
Definition same_model (s s' : daily_state) : Prop :=
  (forall k, find_sub k (ds_subs s') = find_sub k (ds_subs s)) /\
  (forall k T, predict_sub s' k T = predict_sub s k T) /\
  ds_settings s' = ds_settings s /\ ds_error s' = ds_error s /\ ds_tz s' = ds_tz s /\
  ds_dq s' = ds_dq s /\ ds_warnings s' = ds_warnings s.

Lemma rest_of_key_order : forall d d' st s, reads_like d d' -> rest_of d st = Some s ->
  exists s', rest_of d' st = Some s' /\ same_model s s'.
Proof.
  intros d d' st s (_ & Hinfo & l & l' & Hl & Hl' & Hsame) H. unfold rest_of in *.
  rewrite Hl in H. rewrite Hl'. cbn [bind as_obj] in *.
  destruct (opt_all (map parse_submodel l)) as [subs|] eqn:Esubs; [|discriminate]. cbn [bind] in H.
  destruct (parse_submodels_order l l' subs Hsame Esubs) as (subs' & Esubs' & Hfind). rewrite Esubs'. cbn [bind].
  destruct (field "info" d) as [info|], (field "info" d') as [info'|]; cbn in Hinfo; try contradiction; try discriminate.
  cbn [bind] in *. rewrite !Hinfo.
  destruct (field "error" info) as [err|]; [|discriminate]. cbn [bind] in *.
  destruct (bind (field "baseline_timezone" info) as_string) as [tz|]; [|discriminate]. cbn [bind] in *.
  destruct (parse_warnings (field "disqualification" info)) as [dq|]; [|discriminate]. cbn [bind] in *.
  destruct (parse_warnings (field "warnings" info)) as [ws|]; [|discriminate]. cbn [bind] in *.
  injection H as <-. eexists. split; [reflexivity|].
  unfold same_model. cbn. split; [exact Hfind|]. split; [|repeat split].
  intros k T. unfold predict_sub. cbn. rewrite Hfind. reflexivity.
Qed.

(* for the levels a caller leaves in place *)
Lemma optrel_same_fields_refl : forall o, optrel same_fields o o.
Proof. intros [j|]; cbn; [intros k; reflexivity | exact I]. Qed.

Lemma same_submodel_refl : forall j, same_submodel j j.
Proof. intros j. repeat split; try apply optrel_same_fields_refl. Qed.

(* building the relations from re-orderings below the top level: an entry whose own keys were permuted, and a
   "submodels" mapping whose entries were *)
Lemma same_fields_same_submodel : forall j j', same_fields j j' -> same_submodel j j'.
Proof.
  intros j j' H. unfold same_submodel. rewrite !H.
  split; [apply optrel_same_fields_refl|]. split; [apply optrel_same_fields_refl | reflexivity].
Qed.

Lemma perm_same_submodels : forall l l', NoDup (map fst l) -> Permutation l l' -> same_submodels l l'.
Proof.
  intros l l' Hnd Hp. split; [exact (Permutation_NoDup (Permutation_map fst Hp) Hnd)|].
  intros k. rewrite (get_perm k l l' Hnd Hp). destruct (get k l); cbn; [apply same_submodel_refl | exact I].
Qed.

(* a decidable NoDup for the key lists of concrete documents *)
Fixpoint nodupb (l : list string) : bool :=
  match l with [] => true | x :: r => negb (existsb (String.eqb x) r) && nodupb r end.
Lemma nodupb_sound : forall l, nodupb l = true -> NoDup l.
Proof.
  induction l as [|x r IH]; intros H; [constructor|]. cbn in H. apply andb_true_iff in H. destruct H as [H1 H2].
  constructor; [|apply IH; exact H2]. intros Hin. apply negb_true_iff in H1.
  assert (existsb (String.eqb x) r = true) by (apply existsb_exists; exists x; split; [exact Hin | apply String.eqb_refl]). congruence.
Qed.
