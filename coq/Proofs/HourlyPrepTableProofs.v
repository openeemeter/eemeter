(* Lemmas about Model/HourlyPrepTable.v: an [accepted] table, interpreted, is the model of Model/HourlyPrep.v
   ([prep_col_range_by_accepted]).  Two facts carry it: after the time method the column is settled, so the rest of the
   fall-back list is idle whatever it is; the zero rule keeps stamps, so it commutes with the duplicate removal. *)
From Coq Require Import ZArith List Bool Lia.
From V Require Import Model.HourlyPrep Model.HourlyPrepTable Proofs.HourlyPrepProofs.
Import ListNotations.
Open Scope Z_scope.

(* what the interpreter reads of an accepted table: the threshold, the head of the fall-backs, the keep policy, the row
   steps and the flag rule; the other eight fields are compared with constants in [accepted] and read by nothing *)
Lemma accepted_reads : forall p, accepted p = true ->
  p_min_rows p = AUTOCORR_MIN_ROWS /\ (exists rest, p_fallbacks p = FTime LBoth :: rest) /\ p_keep p = KeepFirst /\
  (p_row_steps p = [RDedup; RZero] \/ p_row_steps p = [RZero; RDedup]) /\ p_flag p = FlagMissingAndPresent.
Proof.
  intros p H. unfold accepted in H. rewrite !andb_true_iff in H.
  destruct H as [[[[[[[[[[[[Hm Hf] Hk] Hr] _] _] _] _] _] _] _] _] Hl].
  split; [apply Z.eqb_eq; exact Hm|].
  split; [destruct (p_fallbacks p) as [|[[| |]| |] rest]; try discriminate Hf; exists rest; reflexivity|].
  split; [destruct (p_keep p); [reflexivity | discriminate Hk]|].
  split; [destruct (p_row_steps p) as [|[|] [|[|] [|]]]; try discriminate Hr; auto|].
  destruct (p_flag p); [reflexivity | discriminate Hl].
Qed.

Section ByTable.
  Variable A : Type.
  Variable is_zero : A -> bool.
  Variable lin : A -> A -> Z -> Z -> A.
  Variable est : colname -> col A -> col A.

  Lemma fallback_all_missing : forall f z, all_missing A z -> apply_fallback lin f z = z.
  Proof.
    intros [[| |]| |] z H; cbn [apply_fallback];
      [apply time_linear_all_missing | reflexivity | reflexivity | apply ffill_all_missing | apply bfill_all_missing]; exact H.
  Qed.

  Lemma fallbacks_by_settled : forall l z, settled A z -> fallbacks_by lin l z = z.
  Proof.
    unfold fallbacks_by. induction l as [|f l IH]; intros z S; [reflexivity|]. cbn [fold_left].
    fold (stage (apply_fallback lin f) z).
    rewrite (stage_idle (apply_fallback lin f) z S (fallback_all_missing f z)). apply IH. exact S.
  Qed.

  Lemma fallbacks_by_time_first : forall rest x, fallbacks_by lin (FTime LBoth :: rest) x = fallbacks lin x.
  Proof.
    intros rest x. rewrite fallbacks_time_only.
    change (fallbacks_by lin rest (stage (time_linear lin) x) = stage (time_linear lin) x).
    apply fallbacks_by_settled, after_time_settled.
  Qed.

  Lemma remove_dups_from_map : forall (f : row A -> row A), (forall r, ts (f r) = ts r) ->
    forall l seen, remove_dups_from seen (map f l) = map f (remove_dups_from seen l).
  Proof.
    intros f Hf. induction l as [|r l IH]; intros seen; [reflexivity|].
    cbn [map remove_dups_from]. rewrite Hf. destruct (existsb (Z.eqb (ts r)) seen); [apply IH|].
    cbn [map]. rewrite IH. reflexivity.
  Qed.

  Lemma zero_dedup_commute : forall elec rows,
    map (zero_to_nan is_zero elec) (remove_duplicates rows) = remove_duplicates (map (zero_to_nan is_zero elec) rows).
  Proof.
    intros. unfold remove_duplicates. symmetry. apply remove_dups_from_map. intros r. reflexivity.
  Qed.

  Lemma prep_col_range_by_accepted : forall p elec lo hi rows c, accepted p = true ->
    prep_col_range_by is_zero lin est p elec lo hi rows c = prep_col_range is_zero lin est elec lo hi rows c.
  Proof.
    intros p elec lo hi rows c H.
    destruct (accepted_reads p H) as (Hm & [rest Hf] & Hk & Hr & Hl).
    unfold prep_col_range_by, prep_col_range. rewrite Hm, Hf, Hk, Hl. cbn zeta.
    assert (R : fold_left (fun rs s => row_step is_zero elec KeepFirst s rs) (p_row_steps p) rows =
                remove_duplicates (map (zero_to_nan is_zero elec) rows)).
    { destruct Hr as [-> | ->]; cbn [fold_left row_step dedup_by]; [apply zero_dedup_commute | reflexivity]. }
    rewrite R. unfold interp_col, autocorr_stage, autocorr_stage_by, flags_by.
    rewrite fallbacks_by_time_first. reflexivity.
  Qed.
End ByTable.

Lemma model_pipeline_accepted : accepted model_pipeline = true.
Proof. reflexivity. Qed.

(* the tables of the examples of Properties/C17.v differ from the model's in these four fields *)
Definition tbl (fb : list fallback) (k : keep) (fl : flag_rule) (mr : Z) : pipeline :=
  mkpipeline mr fb k [RZero; RDedup] true Obs CmpEq 0 true 0 23 STEP fl.
