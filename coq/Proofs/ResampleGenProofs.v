(* Interpreters of the tables that harness/translate_resample.py extracts from the source on every run
   (Generated/ResampleGen.v).  Properties/C08.v (section G) proves that the hand-written model of Model/Resample.v
   computes what they compute: the model's constants, comparison operators and decision tables ARE the ones the source
   literally contains.  A source edit changes the generated file and breaks a theorem there. *)
From Coq Require Import ZArith QArith List Bool.
From V Require Import Model.Resample Model.Cmp Generated.ResampleGen.
Import ListNotations.
Open Scope Z_scope.

(* ---- clean_billing_data ---- *)

Definition gen_lo (g : gran) : cop * Z := match g with BillingBimonthly => gen_bimonthly_lo | _ => gen_monthly_lo end.
Definition gen_hi (g : gran) : cop * Z := match g with BillingBimonthly => gen_bimonthly_hi | _ => gen_monthly_hi end.
Definition gen_warn_lo (g : gran) : cop * Z := match g with BillingBimonthly => gen_bimonthly_warn_lo | _ => gen_monthly_warn_lo end.
Definition gen_warn_hi (g : gran) : cop * Z := match g with BillingBimonthly => gen_bimonthly_warn_hi | _ => gen_monthly_warn_hi end.

(* ---- compute_minimum_granularity as an interpreter of the generated tables ---- *)

(* thresholds of the median table are in days; m2 = twice the median spacing in minutes *)
Definition upper_ok (t : cop * Z) (m2 : Z) : bool := cmpz (fst t, 2 * 1440 * snd t) m2.          (* m <op> c *)
Definition lower_ok (t : cop * Z) (m2 : Z) : bool :=                                              (* c <op> m *)
  match fst t with CLt => 2 * 1440 * snd t <? m2 | CLe => 2 * 1440 * snd t <=? m2 | _ => false end.
Definition in_rule (m2 : Z) (r : option (cop * Z) * (cop * Z) * gran) : bool :=
  let '(lo, hi, _) := r in (match lo with Some t => lower_ok t m2 | None => true end) && upper_ok hi m2.

(* a dict literal with boolean keys followed by .get(True, default): the LAST true key holds the value *)
Definition gran_by_median (rules : list (option (cop * Z) * (cop * Z) * gran)) (dflt : gran) (m2 : Z) : gran :=
  match fold_left (fun acc r => if in_rule m2 r then Some (snd r) else acc) rules None with Some g => g | None => dflt end.

(* an if / elif chain: the first rule that holds *)
Fixpoint gran_by_fixed (rules : list (Z * gran)) (dflt : gran) (m : Z) : gran :=
  match rules with [] => dflt | (k, g) :: rest => if m <=? k then g else gran_by_fixed rest dflt m end.

Definition granularity_tbl (inf : inferred) (ts : list Z) (dflt : gran) : option gran :=
  if (Nat.leb (length ts) 1) then Some dflt else
  match inf with
  | NoFreq => match median2 (deltas ts) with
              | None => Some dflt
              | Some m2 => Some (gran_by_median gen_median_rules dflt m2)
              end
  | Months n => Some (if n =? 1 then gen_month_one else gen_month_many)
  | Fixed m => Some (gran_by_fixed gen_fixed_rules gen_fixed_default m)
  | OtherFreq => None
  end.
