(* Lemmas about Model/MetricsReport.v: the month labels that are counted ([finite_months]) are among the labels given, and
   split where the rows split. No axioms. *)
From Coq Require Import ZArith QArith Qabs List Bool Lia Lqa.
From V Require Import Model.Metrics Generated.MetricsGen Model.MetricsReport Proofs.MetricsProofs.
Import ListNotations.
Open Scope Q_scope.

Lemma finite_months_in : forall rows months x, In x (finite_months rows months) -> In x months.
Proof.
  induction rows as [|[[a|] [b|]] rows IH]; intros [|m ms] x H; cbn [finite_months] in H; try contradiction.
  - destruct H as [<-|H]; [left; reflexivity|right; apply IH; exact H].
  - right. apply IH. exact H.
  - right. apply IH. exact H.
  - right. apply IH. exact H.
Qed.

Lemma finite_months_nonfinite : forall r b m mb, nonfinite r -> finite_months (r :: b) (m :: mb) = finite_months b mb.
Proof. intros [o q] b m mb H. cbn [finite_months]. destruct H as [H|H]; cbn in H; subst; [reflexivity|destruct o; reflexivity]. Qed.

Lemma finite_months_app : forall a ma b mb, length a = length ma ->
  finite_months (a ++ b) (ma ++ mb) = finite_months a ma ++ finite_months b mb.
Proof.
  induction a as [|[[x|] [y|]] a IH]; intros [|m ma] b mb Hl; cbn [length] in Hl; try discriminate;
    cbn [app finite_months]; rewrite ?IH by lia; reflexivity.
Qed.
