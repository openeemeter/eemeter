(* Meaning of the seed-flow check of Model/ReproFlow.v (C03).
   [resolve] is a fuel-bounded search through the tables the translator regenerates from the source.  Here: a declarative
   semantics of those tables -- [flows s l]: "some data-flow path from the expression s ends at a source of kind l" -- and
   the theorem that the search is COMPLETE: when it reports no bad leaf, every path of the semantics, of any length, through
   any chain of attribute assignments and parameter bindings, ends at a leaf the search has listed (and every good leaf it
   lists is the end of such a path: resolve_sound).  So [site_seeded s = true] means: with a seed in the settings EVERY
   path into the consumer starts at the settings field `seed`; without one, EVERY path starts at the one documented
   draw.  For all tables, not only today's. *)
From Coq Require Import List Bool String.
From V Require Import Model.ReproFlow.
Import ListNotations.
Open Scope string_scope.

Section FlowSemantics.
  Variable assigns : list attr_assign.
  Variable bindings : list binding.
  Variable given : bool.          (* is the settings field `seed` given (true) or None (false) *)

  Definition assign_matches (o : string) (a : attr_assign) : bool :=
    String.eqb (a_owner a) o && guard_ok given (a_guard a).
  Definition binding_matches (f p : string) (b : binding) : bool :=
    String.eqb (b_func b) f && String.eqb (b_param b) p.

  (* one step of data flow at a time; LBad stands for every way of NOT being derived from the seed: the literal None, a
     keyword that is not passed, an expression the translator has no word for, an attribute that is read but never
     assigned under this guard, a parameter of a function nobody calls *)
  Inductive flows : src -> leaf -> Prop :=
  | f_none : flows SNone LBad
  | f_absent : flows SAbsent LBad
  | f_external : flows SExternal LBad
  | f_other : forall w, flows (SOther w) LBad
  | f_const : flows SConst LConst
  | f_field : flows SField LField
  | f_draw : flows SGlobalDraw LDraw
  | f_plus : forall s l, flows s l -> flows (SPlusIdx s) l
  | f_attr : forall o a l, In a assigns -> assign_matches o a = true -> flows (a_src a) l -> flows (SAttr o) l
  | f_attr_unassigned : forall o, (forall a, In a assigns -> assign_matches o a = false) -> flows (SAttr o) LBad
  | f_param : forall f p b x l, In b bindings -> binding_matches f p b = true -> In x (b_args b) -> flows x l ->
      flows (SParam f p) l
  | f_param_uncalled : forall f p b, In b bindings -> binding_matches f p b = true -> b_args b = [] -> flows (SParam f p) LBad
  | f_param_unbound : forall f p, (forall b, In b bindings -> binding_matches f p b = false) -> flows (SParam f p) LBad.

  (* the two non-leaf cases of [resolve], named: the leaves reached through the matching assignments / bindings, and
     LBad in their place when there is none *)
  Definition or_bad (l : list leaf) : list leaf := match l with [] => [LBad] | x :: r => x :: r end.
  Definition attr_paths (fuel : nat) (o : string) : list leaf :=
    flat_map (fun a => if assign_matches o a then resolve assigns bindings fuel given (a_src a) else []) assigns.
  Definition param_paths (fuel : nat) (f p : string) : list leaf :=
    flat_map (fun b => if binding_matches f p b
                       then match b_args b with [] => [LBad] | l => flat_map (resolve assigns bindings fuel given) l end
                       else []) bindings.

  Lemma resolve_attr : forall fuel o,
    resolve assigns bindings (S fuel) given (SAttr o) = or_bad (attr_paths fuel o).
  Proof. reflexivity. Qed.
  Lemma resolve_param : forall fuel f p,
    resolve assigns bindings (S fuel) given (SParam f p) = or_bad (param_paths fuel f p).
  Proof. reflexivity. Qed.

  Lemma in_or_bad : forall l x, In x (or_bad l) <-> In x l \/ ((forall y, ~ In y l) /\ x = LBad).
  Proof.
    intros [|y l] x; cbn [or_bad]; split.
    - intros [<-|[]]. right. split; [intros y []|reflexivity].
    - intros [[]|[_ ->]]. left. reflexivity.
    - intros H. left. exact H.
    - intros [H|[H _]]; [exact H|]. destruct (H y). left. reflexivity.
  Qed.

  Lemma in_attr_paths : forall fuel o l, In l (attr_paths fuel o) <->
    exists a, In a assigns /\ assign_matches o a = true /\ In l (resolve assigns bindings fuel given (a_src a)).
  Proof.
    intros fuel o l. unfold attr_paths. rewrite in_flat_map. split; intros [a [Ha H]]; exists a.
    - destruct (assign_matches o a); [auto|destruct H].
    - destruct H as [Hm H]. rewrite Hm. auto.
  Qed.

  Lemma in_param_paths : forall fuel f p l, In l (param_paths fuel f p) <->
    exists b, In b bindings /\ binding_matches f p b = true /\
      ((b_args b = [] /\ l = LBad) \/ exists x, In x (b_args b) /\ In l (resolve assigns bindings fuel given x)).
  Proof.
    intros fuel f p l. unfold param_paths. rewrite in_flat_map. split; intros [b [Hb H]]; exists b.
    - destruct (binding_matches f p b); [|destruct H]. split; [exact Hb|]. split; [reflexivity|].
      destruct (b_args b) as [|y ys]; [left; destruct H as [<-|[]]; split; reflexivity|].
      right. apply in_flat_map in H. exact H.
    - destruct H as [Hm H]. split; [exact Hb|]. rewrite Hm.
      destruct H as [[E ->]|[x [Hx H]]]; [rewrite E; left; reflexivity|].
      destruct (b_args b) as [|y ys]; [destruct Hx|]. apply in_flat_map. exists x. split; assumption.
  Qed.

  Theorem resolve_complete : forall fuel s,
    ~ In LBad (resolve assigns bindings fuel given s) ->
    forall l, flows s l -> In l (resolve assigns bindings fuel given s).
  Proof.
    induction fuel as [|fuel IH]; intros s Hbad l Hf; [exfalso; apply Hbad; left; reflexivity|].
    destruct Hf as [ | | |w| | | |s l Hf|o a l Ha Hm Hf|o Hno|f p b x l Hb Hm Hx Hf|f p b Hb Hm Hargs|f p Hno].
    (* SNone, SAbsent, SExternal, SOther: the search lists LBad itself; SConst, SField, SGlobalDraw: it lists the leaf *)
    1-4: exfalso; apply Hbad; left; reflexivity.
    1-3: left; reflexivity.
    - cbn [resolve] in *. apply IH; assumption.
    - rewrite resolve_attr in *. rewrite in_or_bad in Hbad |- *. left. apply in_attr_paths.
      exists a. split; [exact Ha|]. split; [exact Hm|].
      apply IH; [|exact Hf]. intros Hin. apply Hbad. left. apply in_attr_paths. exists a. auto.
    - exfalso. rewrite resolve_attr, in_or_bad in Hbad. apply Hbad. right. split; [|reflexivity].
      intros y Hy. apply in_attr_paths in Hy. destruct Hy as (a & Ha & Hm & _). rewrite (Hno a Ha) in Hm. discriminate.
    - rewrite resolve_param in *. rewrite in_or_bad in Hbad |- *. left. apply in_param_paths.
      exists b. split; [exact Hb|]. split; [exact Hm|]. right. exists x. split; [exact Hx|].
      apply IH; [|exact Hf]. intros Hin. apply Hbad. left. apply in_param_paths.
      exists b. split; [exact Hb|]. split; [exact Hm|]. right. exists x. auto.
    - exfalso. rewrite resolve_param, in_or_bad in Hbad. apply Hbad. left. apply in_param_paths.
      exists b. split; [exact Hb|]. split; [exact Hm|]. left. split; [exact Hargs|reflexivity].
    - exfalso. rewrite resolve_param, in_or_bad in Hbad. apply Hbad. right. split; [|reflexivity].
      intros y Hy. apply in_param_paths in Hy. destruct Hy as (b & Hb & Hm & _). rewrite (Hno b Hb) in Hm. discriminate.
  Qed.

  Lemma leaf_is_eq : forall x y, leaf_is x y = true -> x = y.
  Proof. destruct x, y; cbn; congruence. Qed.

  Lemma all_leaves_spec : forall want l, all_leaves want l = true -> l <> [] /\ forall x, In x l -> x = want.
  Proof.
    intros want [|y l] H; [discriminate|]. split; [discriminate|].
    unfold all_leaves in H. rewrite forallb_forall in H. intros x Hx. symmetry. apply leaf_is_eq. apply H. exact Hx.
  Qed.

  (* what a successful check MEANS: every path ends where the check says *)
  Theorem all_leaves_sound : forall fuel want s, want <> LBad ->
    all_leaves want (resolve assigns bindings fuel given s) = true -> forall l, flows s l -> l = want.
  Proof.
    intros fuel want s Hw H l Hf. destruct (all_leaves_spec _ _ H) as [_ Hall].
    apply Hall. apply resolve_complete; [|exact Hf].
    intros Hbad. apply Hw. symmetry. apply Hall. exact Hbad.
  Qed.

  (* ... and the check is not vacuous: a listed leaf is the end of a real path *)
  Theorem resolve_sound : forall fuel s l, In l (resolve assigns bindings fuel given s) -> l <> LBad -> flows s l.
  Proof.
    induction fuel as [|fuel IH]; intros s l Hin Hl; [destruct Hin as [<-|[]]; congruence|].
    destruct s as [ | | | | | |o|f p|s|w];
      try (destruct Hin as [<-|[]]; (congruence || constructor)).
    - rewrite resolve_attr, in_or_bad in Hin. destruct Hin as [Hin|[_ ->]]; [|congruence].
      apply in_attr_paths in Hin. destruct Hin as (a & Ha & Hm & Hin).
      eapply f_attr; [exact Ha|exact Hm|]. apply IH; assumption.
    - rewrite resolve_param, in_or_bad in Hin. destruct Hin as [Hin|[_ ->]]; [|congruence].
      apply in_param_paths in Hin. destruct Hin as (b & Hb & Hm & [[_ ->]|(x & Hx & Hin)]); [congruence|].
      eapply f_param; [exact Hb|exact Hm|exact Hx|]. apply IH; assumption.
    - cbn [resolve] in Hin. apply f_plus. apply IH; assumption.
  Qed.

End FlowSemantics.

(* Both settings of the seed at once.  The fuel is a variable here: the two users below meet it as the literal 12 inside
   [site_seeded] / [site_constant], and they [apply] this lemma to the goal so that the kernel unfolds those two constants
   and finds the conjunction syntactically; from the hypothesis side it would unfold [resolve 12] symbolically instead
   (three recursive branches per level). *)
Lemma leaves_sound_both : forall assigns bindings fuel w1 w2 s, w1 <> LBad -> w2 <> LBad ->
  all_leaves w1 (resolve assigns bindings fuel true s) && all_leaves w2 (resolve assigns bindings fuel false s) = true ->
  (forall l, flows assigns bindings true s l -> l = w1) /\ (forall l, flows assigns bindings false s l -> l = w2).
Proof.
  intros assigns bindings fuel w1 w2 s Hw1 Hw2 H. apply andb_prop in H. destruct H as [H1 H2].
  split; intros l Hf; eapply all_leaves_sound; eassumption.
Qed.

Theorem site_seeded_means : forall assigns bindings s, site_seeded assigns bindings s = true ->
  (forall l, flows assigns bindings true (s_src s) l -> l = LField) /\
  (forall l, flows assigns bindings false (s_src s) l -> l = LDraw).
Proof. intros assigns bindings s. apply leaves_sound_both; discriminate. Qed.

Lemma site_ok_seeded : forall assigns bindings s, site_ok assigns bindings s = true -> s_dead s = false -> exempt s = false ->
  site_constant assigns bindings s = false -> site_seeded assigns bindings s = true.
Proof.
  intros assigns bindings s H Hd He Hc. unfold site_ok in H. rewrite Hd, He, Hc in H.
  destruct (site_seeded assigns bindings s); [reflexivity|discriminate H].
Qed.

Lemma site_constant_both : forall assigns bindings s, site_constant assigns bindings s = true ->
  (forall l, flows assigns bindings true (s_src s) l -> l = LConst) /\
  (forall l, flows assigns bindings false (s_src s) l -> l = LConst).
Proof. intros assigns bindings s. apply leaves_sound_both; discriminate. Qed.

Theorem site_constant_means : forall assigns bindings s given, site_constant assigns bindings s = true ->
  forall l, flows assigns bindings given (s_src s) l -> l = LConst.
Proof.
  intros assigns bindings s given H. destruct (site_constant_both _ _ _ H) as [Ht Hf]. destruct given; assumption.
Qed.
