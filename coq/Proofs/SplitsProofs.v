(* Lemmas about Model/Splits.v and Model/SplitsCal.v (property C13), and the predicates the statements of
   Properties/C13.v are written with, each defined where its lemmas are ([exactly_one], [exact_cover], [cell_of],
   [std_maps], [keep_spec], [sname_text], [canon_text], [shape], [own]).  In this order.
   Routing: [exact_cover] (every cell lies in exactly one component) read through [filter]; on a day with standard
   names the receivers are the components covering the day's cell ([receivers_cell]); in a month with a foreign season name there are none.
   Calendar: the month and day-of-month of every integer day number are in range.
   Trim: [trim_keep_spec] / [In_trim] say what _trim_combinations keeps, with [keep_spec]; [In_combinations] what
   _combinations() returns.
   Best: [best_from_spec] describes the scan of _best_combination for any "<" that is irreflexive and satisfies the
   chain rule (IEEE "<" with NaN does); [best_is_argmin], [best_none_iff], [best_table] are read off it.
   Today's candidate list: the generator is evaluated once ([candidates_today]); the list is complete
   ([complete_check_sound]: a Boolean enumeration of all consistent assignments of blocks to the six cells, proved
   sound for any list of candidates, evaluated on today's).
   Only that last part ([parsed_exact_cover] .. [candidates_print_today], [complete_check_today]) reads the regenerated
   Generated/SplitsGen.v; everything before it holds whatever the source generates. *)
From Coq Require Import ZArith List Bool String Ascii QArith Lia.
From V Require Import Model.Splits Model.SplitsCal Generated.SplitsGen.
From V Require Proofs.ListFacts Proofs.ArithFacts.
Import ListNotations.
Open Scope list_scope.

Definition exactly_one {A} (p : A -> bool) (l : list A) : Prop :=
  exists l1 x l2, l = l1 ++ x :: l2 /\ p x = true /\
    (forall y, In y l1 -> p y = false) /\ (forall y, In y l2 -> p y = false).

Lemma filter_nil_inv : forall A (p : A -> bool) l, filter p l = [] -> forall y, In y l -> p y = false.
Proof.
  intros A p l F y Hy. destruct (p y) eqn:E; [|reflexivity].
  assert (H : In y (filter p l)) by (apply filter_In; split; assumption). rewrite F in H. destruct H.
Qed.

Lemma filter_singleton : forall A (p : A -> bool) l x,
  filter p l = [x] -> forall y, In y l -> p y = true -> y = x.
Proof.
  intros A p l x F y Hy Hp. assert (H : In y (filter p l)) by (apply filter_In; split; assumption).
  rewrite F in H. destruct H as [H|[]]. symmetry. exact H.
Qed.

Lemma filter_single_in : forall A (p : A -> bool) l x, filter p l = [x] -> In x l /\ p x = true.
Proof. intros A p l x F. apply filter_In. rewrite F. left. reflexivity. Qed.

(* exactly one element passes the test: the filter is a singleton *)
Lemma exactly_one_iff_filter : forall A (p : A -> bool) l, exactly_one p l <-> exists x, filter p l = [x].
Proof.
  intros A p l. split.
  - intros (l1 & x & l2 & -> & Hx & H1 & H2). exists x. rewrite filter_app. cbn [filter].
    rewrite Hx, (ListFacts.filter_none _ p l1 H1), (ListFacts.filter_none _ p l2 H2). reflexivity.
  - intros [x F]. revert x F. induction l as [|a l IH]; cbn [filter]; intros x F; [discriminate|]. destruct (p a) eqn:E.
    + (* a is the one; nothing after it passes *)
      injection F as <- F. exists [], a, l. split; [reflexivity|]. split; [exact E|].
      split; [intros y []|apply filter_nil_inv; exact F].
    + destruct (IH x F) as (l1 & y & l2 & -> & Hy & H1 & H2). exists (a :: l1), y, l2.
      split; [reflexivity|]. split; [exact Hy|]. split; [|exact H2].
      intros z [<-|Hz]; [exact E|exact (H1 z Hz)].
Qed.

Lemma count_true_filter : forall A (p : A -> bool) l, count_true p l = List.length (filter p l).
Proof.
  induction l as [|a l IH]; cbn [count_true filter]; [reflexivity|].
  destruct (p a); cbn [List.length]; rewrite IH; reflexivity.
Qed.

Lemma count_true_one : forall A (p : A -> bool) l,
  count_true p l = 1%nat <-> exactly_one p l.
Proof.
  intros A p l. rewrite count_true_filter, exactly_one_iff_filter. split.
  - destruct (filter p l) as [|x [|y r]]; try discriminate. intros _. exists x. reflexivity.
  - intros [x ->]. reflexivity.
Qed.

(* a component with an empty season group covers nothing; [exactly_one] is positional, so a split that lists a
   component twice is not an exact cover *)
Definition exact_cover (s : split) : Prop :=
  forall x : cell, exactly_one (fun c => covers c x) s.

(* how an exact cover is used: the components covering a cell are one component, a member that covers it *)
Lemma exact_cover_filter : forall s, exact_cover s -> forall x,
  exists c, filter (fun c => covers c x) s = [c] /\ In c s /\ covers c x = true.
Proof.
  intros s Hs x. destruct (proj1 (exactly_one_iff_filter _ _ _) (Hs x)) as (c & F).
  exists c. split; [exact F | exact (filter_single_in _ _ _ _ F)].
Qed.

Lemma cells_complete : forall x : cell, In x cells.
Proof. intros [[] []]; cbn; tauto. Qed.

Lemma exact_coverb_spec : forall s, exact_coverb s = true <-> exact_cover s.
Proof.
  intros s. unfold exact_coverb, exact_cover. rewrite forallb_forall. split.
  - intros H x. apply count_true_one. apply Nat.eqb_eq. apply H. apply cells_complete.
  - intros H x _. apply Nat.eqb_eq. apply count_true_one. apply H.
Qed.

Definition std_season (n : sname) : option season :=
  match n with Summer => Some SU | Shoulder => Some SH | Winter => Some WI | OtherSeason => None end.
(* the cell of a day under the model's own maps; None when a map uses a name that is not one of the
   hard-wired ones (the settings classes reject such option names at construction; sname / dname keep
   them so that the unrestricted routing statement can be stated and refuted) *)
Definition cell_of (n : sname) (d : dname) : option cell :=
  match std_season n, d with
  | Some s, Weekday => Some (s, false)
  | Some s, Weekend => Some (s, true)
  | _, _ => None
  end.

Lemma cell_of_inv : forall n d s w, cell_of n d = Some (s, w) ->
  n = season_name s /\ d = (if w then Weekend else Weekday).
Proof. intros [] [] s w H; cbn in H; try discriminate; injection H as <- <-; split; reflexivity. Qed.

(* on a day with standard names, a component receives the day exactly when it covers the day's cell *)
Lemma routes_covers : forall c sm wm month dow x,
  cell_of (sm month) (wm dow) = Some x -> routes c sm wm month dow = covers c x.
Proof.
  intros [d g] sm wm month dow [s w] H. apply cell_of_inv in H. destruct H as [Hs Hd].
  unfold routes, covers, mem_season. cbn [fst snd]. rewrite Hs, Hd. apply (f_equal2 andb).
  - (* a season of the group bears the day's season name exactly when it is the day's season *)
    apply ListFacts.existsb_ext. intros s'. destruct s', s; reflexivity.
  - destruct d, w; reflexivity.
Qed.

Lemma receivers_cell : forall s sm wm month dow x,
  cell_of (sm month) (wm dow) = Some x -> receivers s sm wm month dow = filter (fun c => covers c x) s.
Proof.
  intros s sm wm month dow x H. apply filter_ext. intros c. apply routes_covers. exact H.
Qed.

(* a month whose season name is not summer/shoulder/winter is received by no component at all *)
Lemma routes_foreign_season : forall c sm wm month dow,
  sm month = OtherSeason -> routes c sm wm month dow = false.
Proof.
  intros [d g] sm wm month dow H. unfold routes. cbn [fst snd]. rewrite H.
  destruct (existsb _ g) eqn:E; [|reflexivity].
  apply existsb_exists in E. destruct E as ([] & _ & E); discriminate.
Qed.

Lemma receivers_foreign_season : forall s sm wm month dow,
  sm month = OtherSeason -> receivers s sm wm month dow = [].
Proof.
  intros s sm wm month dow H. apply ListFacts.filter_none. intros c _. apply routes_foreign_season. exact H.
Qed.

(* maps as the settings validators leave them: 12 months, 7 days, every name one of the hard-wired
   ones (empty seasons, no weekend day, ... allowed) *)
Definition std_maps (sm : list sname) (wm : list dname) : Prop :=
  List.length sm = 12%nat /\ List.length wm = 7%nat /\
  Forall (fun n => n <> OtherSeason) sm /\ Forall (fun d => d <> OtherDay) wm.

Lemma std_maps_cell : forall sm wm, std_maps sm wm -> forall month dow,
  (1 <= month <= 12)%Z -> (1 <= dow <= 7)%Z ->
  exists x, cell_of (lookup_s sm month) (lookup_d wm dow) = Some x.
Proof.
  intros sm wm (L1 & L2 & F1 & F2) month dow Hm Hd.
  assert (S : lookup_s sm month <> OtherSeason).
  { unfold lookup_s. apply (proj1 (Forall_nth _ _) F1). rewrite L1. lia. }
  assert (D : lookup_d wm dow <> OtherDay).
  { unfold lookup_d. apply (proj1 (Forall_nth _ _) F2). rewrite L2. lia. }
  unfold cell_of. destruct (lookup_s sm month), (lookup_d wm dow); try congruence; cbn; eauto.
Qed.

(* the library's ListFacts.all_from_spec with the position given as an offset from z *)
Lemma all_from_spec : forall n z p, all_from n z p = true ->
  forall k, (0 <= k < Z.of_nat n)%Z -> p (z + k)%Z = true.
Proof.
  intros n z p H k Hk. apply (ListFacts.all_from_spec n z p H). lia.
Qed.

Definition era_days : Z := 146097.

Lemma doe_of_range : forall z, (0 <= doe_of z < era_days)%Z.
Proof. intros z. unfold doe_of, era_days. apply Z.mod_pos_bound. reflexivity. Qed.

(* a section only to keep the setting of lia's hook (division and modulo as equations) local *)
Section CalendarArith.
  Local Open Scope Z_scope.
  Ltac Zify.zify_post_hook ::= Z.to_euclidean_division_equations.

  (* Hinnant's day-of-year (counted from March 1st) stays inside one year *)
  Lemma doy_of_doe_range : forall doe, 0 <= doe < era_days -> 0 <= doy_of_doe doe <= 365.
  Proof. intros doe H. unfold era_days in H. unfold doy_of_doe, yoe_of_doe. lia. Qed.

  Lemma mp_of_doe_range : forall doe, 0 <= doe < era_days -> 0 <= mp_of_doe doe <= 11.
  Proof.
    intros doe H. pose proof (doy_of_doe_range doe H) as D. unfold mp_of_doe.
    generalize dependent (doy_of_doe doe). intros doy D. lia.
  Qed.

  Lemma month_of_doe_range : forall doe, 0 <= doe < era_days -> 1 <= month_of_doe doe <= 12.
  Proof.
    intros doe H. pose proof (mp_of_doe_range doe H) as M. unfold month_of_doe.
    destruct (Z.ltb_spec (mp_of_doe doe) 10); lia.
  Qed.

  Lemma dom_of_doe_range : forall doe, 0 <= doe < era_days -> 1 <= dom_of_doe doe <= 31.
  Proof.
    intros doe H. pose proof (doy_of_doe_range doe H) as D. unfold dom_of_doe, mp_of_doe.
    generalize dependent (doy_of_doe doe). intros doy D. lia.
  Qed.
End CalendarArith.

Theorem month_of_periodic_l : forall z, month_of (z + era_days)%Z = month_of z.
Proof.
  intros z. unfold month_of, doe_of, era_days.
  replace (z + 146097 + 719468)%Z with (z + 719468 + 1 * 146097)%Z by lia.
  rewrite Z.mod_add by discriminate. reflexivity.
Qed.

Definition n_season (c : counts) (s : season) : Z :=
  match s with SU => n_su c | SH => n_sh c | WI => n_wi c end.

(* what trim asks of one component: a single-season group only if that season may be separate and has enough days,
   and enough weekend days in the group *)
Definition comp_keep (f : flags) (c : counts) (x : comp) : Prop :=
  (forall se, snd x = [se] -> allow_season f se = true /\ (split_min_days <= n_season c se)%Z) /\
  (4 * split_min_days <= 15 * we_count c (snd x))%Z.

Definition keep_spec (f : flags) (c : counts) (s : split) : Prop :=
  (has_wd s = true -> a_wdwe f = true) /\
  forall x, In x s ->
    (forall se, snd x = [se] -> allow_season f se = true /\ (split_min_days <= n_season c se)%Z) /\
    (4 * split_min_days <= 15 * we_count c (snd x))%Z.

Lemma effective_flags_season : forall f c s,
  allow_season (effective_flags f c) s = true <->
  allow_season f s = true /\ (split_min_days <= n_season c s)%Z.
Proof.
  intros f c s. destruct s; cbn; rewrite andb_true_iff, negb_true_iff, Z.ltb_ge; reflexivity.
Qed.

(* [keep_spec] writes [comp_keep] out for every component *)
Lemma keep_spec_comp : forall f c s,
  keep_spec f c s <-> (has_wd s = true -> a_wdwe f = true) /\ forall x, In x s -> comp_keep f c x.
Proof. reflexivity. Qed.

Lemma comp_ok_effective : forall f c x, comp_ok (effective_flags f c) c x = true <-> comp_keep f c x.
Proof.
  intros f c x. unfold comp_ok, comp_keep. rewrite andb_true_iff, !negb_true_iff, Z.ltb_ge.
  apply and_iff_compat_r. destruct (snd x) as [|se [|se' r]].
  - split; [intros _ s E; discriminate|reflexivity].
  - rewrite negb_false_iff, effective_flags_season. split.
    + intros H s E. injection E as <-. exact H.
    + intros H. apply H. reflexivity.
  - split; [intros _ s E; discriminate|reflexivity].
Qed.

(* what _trim_combinations keeps: the unsplit model, and whatever the settings and the data allow *)
Theorem trim_keep_spec : forall f c s,
  trim_keep f c s = true <-> print_split s = print_split unsplit \/ keep_spec f c s.
Proof.
  intros f c s. rewrite keep_spec_comp. unfold trim_keep. change (print_split unsplit) with "fw-su_sh_wi"%string.
  destruct (String.eqb_spec (print_split s) "fw-su_sh_wi") as [E|E]; [tauto|].
  setoid_rewrite <- comp_ok_effective. rewrite <- forallb_forall.
  (* what is left is propositional in the three tests *)
  destruct (has_wd s), (a_wdwe f), (forallb (comp_ok (effective_flags f c) c) s); cbn [andb negb];
    intuition discriminate.
Qed.

Lemma In_trim : forall f c l s,
  In s (trim f c l) <-> In s l /\ (print_split s = print_split unsplit \/ keep_spec f c s).
Proof. intros f c l s. unfold trim. rewrite filter_In, trim_keep_spec. reflexivity. Qed.

(* the texts _combinations() returns: the candidates that trim keeps under the flags left by the ellipsoid filter *)
Lemma In_combinations : forall opts f gauss sm wm h str,
  In str (combinations opts f gauss sm wm h) <->
  exists s, print_split s = str /\ In s (candidates opts) /\
    (print_split s = print_split unsplit \/
     keep_spec (match gauss with Some g => flags_and f g | None => f end) (counts_of sm wm h) s).
Proof.
  intros opts f gauss sm wm h str. unfold combinations. rewrite in_map_iff. setoid_rewrite In_trim. reflexivity.
Qed.

Section BestProofs.
  Variable A : Type.
  Variable lt : A -> A -> bool.
  Variable top : A.
  (* what is used of IEEE "<": irreflexive, and  a < b, not (x < b)  =>  not (x < a)  (NaN included) *)
  Hypothesis lt_irrefl : forall a, lt a a = false.
  Hypothesis lt_chain : forall a b x, lt a b = true -> lt x b = false -> lt x a = false.

  (* the scan from incumbent (o, m): nothing of the list is below the result, whatever was not below m is
     not below it either, and it is the incumbent unchanged or a member of the list strictly below m *)
  Lemma best_from_spec : forall l o m, let r := best_from A lt (o, m) l in
    (forall s c, In (s, c) l -> lt c (snd r) = false) /\
    (forall x, lt x m = false -> lt x (snd r) = false) /\
    (r = (o, m) \/ exists s, fst r = Some s /\ In (s, snd r) l /\ lt (snd r) m = true).
  Proof.
    induction l as [|[s c] l IH]; intros o m; cbn [best_from snd].
    - split; [intros s c []|]. split; [auto|]. left. reflexivity.
    - destruct (lt c m) eqn:E.
      + (* c becomes the incumbent *)
        destruct (IH (Some s) c) as (I1 & I2 & I3). split; [|split].
        * intros s' c' [[= <- <-]|H]; [apply I2, lt_irrefl | exact (I1 _ _ H)].
        * intros x Hx. apply I2. exact (lt_chain _ _ _ E Hx).
        * right. destruct I3 as [->|(s' & Hs & Hin & Hlt)].
          -- exists s. split; [reflexivity|]. split; [left; reflexivity|exact E].
          -- exists s'. split; [exact Hs|]. split; [right; exact Hin|].
             destruct (lt (snd (best_from A lt (Some s, c) l)) m) eqn:E3; [reflexivity|].
             rewrite (lt_chain _ _ _ E E3) in Hlt. discriminate.
      + destruct (IH o m) as (I1 & I2 & I3). split; [|split].
        * intros s' c' [[= <- <-]|H]; [apply I2, E | exact (I1 _ _ H)].
        * exact I2.
        * destruct I3 as [Er|(s' & Hs & Hin & Hlt)]; [left; exact Er|].
          right. exists s'. split; [exact Hs|]. split; [right; exact Hin|exact Hlt].
  Qed.

  Theorem best_is_argmin : forall l s, best A lt top l = Some s ->
    exists c, In (s, c) l /\ lt c top = true /\ forall s' c', In (s', c') l -> lt c' c = false.
  Proof.
    intros l s H. unfold best in H. destruct (best_from_spec l None top) as (S1 & _ & [E|(s' & Hs & Hin & Hlt)]).
    - rewrite E in H. discriminate.
    - rewrite Hs in H. injection H as <-.
      exists (snd (best_from A lt (None, top) l)). split; [exact Hin|]. split; [exact Hlt|exact S1].
  Qed.

  Theorem best_none_iff : forall l, best A lt top l = None <-> forall s c, In (s, c) l -> lt c top = false.
  Proof.
    intros l. unfold best. destruct (best_from_spec l None top) as (S1 & _ & [E|(s' & Hs & Hin & Hlt)]).
    - rewrite E in *. split; [intros _; exact S1|reflexivity].
    - rewrite Hs. split; [discriminate|]. intros H. rewrite (H _ _ Hin) in Hlt. discriminate.
  Qed.

  (* the list being a table  name -> criterion *)
  Corollary best_table : forall (f : string -> A) names s, best A lt top (map (fun x => (x, f x)) names) = Some s ->
    In s names /\ lt (f s) top = true /\ forall s', In s' names -> lt (f s') (f s) = false.
  Proof.
    intros f names s H. destruct (best_is_argmin _ s H) as (c & Hin & Hlt & Hmin).
    apply in_map_iff in Hin. destruct Hin as (s0 & E & Hs). injection E as -> <-.
    split; [exact Hs|]. split; [exact Hlt|].
    intros s' Hs'. apply (Hmin s'). exact (in_map (fun x => (x, f x)) names s' Hs').
  Qed.
End BestProofs.

Lemma xlt_irrefl : forall a, xlt a a = false.
Proof. intros [| |q|]; cbn; auto. apply ArithFacts.Qltb_false. apply Qle_refl. Qed.

Lemma xlt_chain : forall a b x, xlt a b = true -> xlt x b = false -> xlt x a = false.
Proof.
  intros [| |p|] [| |q|] [| |r|]; cbn; intros H1 H2; try discriminate; try reflexivity.
  apply ArithFacts.Qltb_false. apply ArithFacts.Qltb_true in H1. apply ArithFacts.Qltb_false in H2.
  apply Qlt_le_weak. eapply Qlt_le_trans; eassumption.
Qed.

(* the scan as the code runs it: binary64 values as extended rationals, NaN included, from +inf *)
Lemma best_x_argmin : forall l s, best_x l = Some s ->
  exists c, In (s, c) l /\ xlt c XPosInf = true /\ forall s' c', In (s', c') l -> xlt c' c = false.
Proof. exact (best_is_argmin xr xlt XPosInf xlt_irrefl xlt_chain). Qed.

(* the name _best_combination returns is one of the names it was given *)
Lemma best_x_in : forall crit str, best_x crit = Some str -> In str (map fst crit).
Proof.
  intros crit str Hb. destruct (best_x_argmin crit str Hb) as (c & Hin & _). exact (in_map fst crit (str, c) Hin).
Qed.

Lemma substring_all : forall s, substring 0 (String.length s) s = s.
Proof. induction s as [|c s IH]; cbn; [reflexivity|]. rewrite IH. reflexivity. Qed.

(* the character slices of _meter_segment on a printed component: component[:2] and component[3:] *)
Lemma take_print_comp : forall c, take 2 (print_comp c) = print_daytype (fst c).
Proof. intros [d g]. unfold take, print_comp. destruct d; cbn; destruct (print_group g); reflexivity. Qed.

Lemma drop_print_comp : forall c, drop 3 (print_comp c) = print_group (snd c).
Proof. intros [d g]. unfold drop, print_comp. destruct d; cbn; rewrite Nat.sub_0_r; apply substring_all. Qed.

(* the text of a group with two seasons or more starts with a two-letter season and "_", which split("_") cuts off *)
Lemma print_group_cons : forall a b g, print_group (a :: b :: g) = (print_season a ++ "_" ++ print_group (b :: g))%string.
Proof. reflexivity. Qed.

Lemma split_us_season : forall a r, split_us (print_season a ++ "_" ++ r) = print_season a :: split_us r.
Proof. intros [] r; reflexivity. Qed.

Lemma split_us_group : forall g, g <> [] ->
  all_some (map parse_season (split_us (print_group g))) = Some g.
Proof.
  induction g as [|a g IH]; intros H; [contradiction|].
  destruct g as [|b g].
  - destruct a; reflexivity.
  - rewrite print_group_cons, split_us_season. cbn [map all_some].
    rewrite IH by discriminate. destruct a; reflexivity.
Qed.

(* the season names as combo_dictionary spells them (C13_combo_dictionary_same) *)
Definition sname_text (n : sname) : string :=
  match n with Summer => "summer" | Shoulder => "shoulder" | Winter => "winter" | OtherSeason => "?" end.

Definition parsed_exact_cover (str : string) : bool :=
  match parse_split str with Some s => exact_coverb s | None => false end.

Lemma generated_all_exact_cover_b : forallb parsed_exact_cover all_splits = true.
Proof. vm_compute. reflexivity. Qed.

(* the regenerated candidate texts, parsed *)
Definition parsed_splits : list split :=
  match all_some (map parse_split all_splits) with Some l => l | None => [] end.

Lemma options_today : exists opts, parse_options seasonal_options = Some opts.
Proof. eexists. vm_compute. reflexivity. Qed.

(* the one place where the model's generator is evaluated; what else is said of today's candidates is evaluated on
   the parsed list *)
Lemma candidates_today : forall opts, parse_options seasonal_options = Some opts ->
  candidates opts = parsed_splits.
Proof. intros opts H. vm_compute in H. injection H as <-. vm_compute. reflexivity. Qed.

Lemma candidates_print_today : forall opts, parse_options seasonal_options = Some opts ->
  map print_split (candidates opts) = all_splits.
Proof. intros opts H. rewrite (candidates_today opts H). vm_compute. reflexivity. Qed.

(* the component texts sorted, then joined: the same for two splits that are one partition written in two orders *)
Definition canon_text (s : split) : string := String.concat "__" (sort_strings (map print_comp s)).

Lemma mem_string_In : forall x l, mem_string x l = true <-> In x l.
Proof.
  intros x l. unfold mem_string. rewrite existsb_exists. split.
  - intros (y & Hy & E). apply String.eqb_eq in E. subst y. exact Hy.
  - intros H. exists x. split; [exact H|apply String.eqb_refl].
Qed.

(* completeness of the candidate list: every partition of the six cells into blocks
   "day type x set of seasons" is offered *)
Definition shape : Type := (daytype * (bool * bool * bool))%type.
Definition shape_of (c : comp) : shape :=
  (fst c, (mem_season SU (snd c), mem_season SH (snd c), mem_season WI (snd c))).
Definition shape_covers (sh : shape) (x : cell) : bool :=
  let '(d, (a, b, w)) := sh in
  (match fst x with SU => a | SH => b | WI => w end) && day_covers d (snd x).
Definition shape_eqb (p q : shape) : bool :=
  let '(d, (a, b, w)) := p in
  let '(d', (a', b', w')) := q in
  daytype_eqb d d' && Bool.eqb a a' && Bool.eqb b b' && Bool.eqb w w'.

Lemma daytype_eqb_eq : forall a b, daytype_eqb a b = true <-> a = b.
Proof. intros [] []; cbn; split; intros H; try reflexivity; discriminate. Qed.

Lemma shape_eqb_eq : forall p q, shape_eqb p q = true <-> p = q.
Proof.
  intros [d [[a b] w]] [d' [[a' b'] w']]. unfold shape_eqb.
  rewrite !andb_true_iff, daytype_eqb_eq, !Bool.eqb_true_iff. split.
  - intros [[[-> ->] ->] ->]. reflexivity.
  - intros H. injection H as -> -> -> ->. auto.
Qed.

Lemma covers_shape : forall c x, covers c x = shape_covers (shape_of c) x.
Proof. intros [d g] [[] w]; reflexivity. Qed.

Definition all_shapes : list shape :=
  flat_map (fun d => flat_map (fun a => flat_map (fun b => map (fun w => (d, (a, b, w))) [true; false])
                                                 [true; false]) [true; false]) [FW; WD; WE].

Lemma all_shapes_complete : forall sh, In sh all_shapes.
Proof.
  assert (B : forall b : bool, In b [true; false]) by (intros []; cbn; auto).
  intros [d [[a b] w]]. unfold all_shapes.
  apply in_flat_map. exists d. split; [destruct d; cbn; auto|].
  apply in_flat_map. exists a. split; [apply B|].
  apply in_flat_map. exists b. split; [apply B|].
  exact (in_map (fun w => (d, (a, b, w))) _ w (B w)).
Qed.

Definition cover_shapes (x : cell) : list shape := filter (fun sh => shape_covers sh x) all_shapes.

(* the block that owns a cell: the shape of the only component covering it *)
Definition own (s : split) (x : cell) : option shape :=
  match filter (fun c => covers c x) s with [c] => Some (shape_of c) | _ => None end.
Definition owns (s : split) : list (option shape) := map (own s) cells.

Definition opt_shape_eqb (a b : option shape) : bool :=
  match a, b with Some p, Some q => shape_eqb p q | None, None => true | _, _ => false end.

Lemma opt_shape_eqb_eq : forall a b, opt_shape_eqb a b = true -> a = b.
Proof.
  intros [p|] [q|] H; cbn in H; try discriminate; [|reflexivity].
  apply shape_eqb_eq in H. subst. reflexivity.
Qed.

Lemma list_eqb_eq : forall A (eqb : A -> A -> bool), (forall a b, eqb a b = true -> a = b) ->
  forall l l', list_eqb eqb l l' = true -> l = l'.
Proof.
  intros A eqb Heq. induction l as [|a l IH]; intros [|b l'] H; try discriminate; [reflexivity|].
  cbn in H. apply andb_true_iff in H. destruct H as [H1 H2]. f_equal; auto.
Qed.

(* two cells with their owners: the owner of y is the owner of x exactly when the owner of x covers y,
   and the other way round (what an assignment of shapes to cells must satisfy to come from a
   partition) *)
Definition pair_ok (x : cell) (a : shape) (y : cell) (b : shape) : bool :=
  Bool.eqb (shape_covers a y) (shape_eqb b a) && Bool.eqb (shape_covers b x) (shape_eqb a b).

(* every pairwise-consistent way to go on from [acc] (cells already given a covering shape, latest
   first) through the cells [todo] ends in the assignment of some member of [co]; inconsistent
   prefixes are cut off early *)
Fixpoint extensions_offered (co : list (list (option shape))) (acc : list (cell * shape)) (todo : list cell)
  : bool :=
  match todo with
  | [] => existsb (fun o => list_eqb opt_shape_eqb o (map Some (rev (map snd acc)))) co
  | y :: rest =>
      forallb (fun b => if forallb (fun xa => pair_ok (fst xa) (snd xa) y b) acc
                        then extensions_offered co ((y, b) :: acc) rest else true) (cover_shapes y)
  end.

Definition complete_check (cands : list split) : bool := extensions_offered (map owns cands) [] cells.

Lemma complete_check_today : complete_check parsed_splits = true.
Proof. vm_compute. reflexivity. Qed.

Lemma own_inv : forall s x a, own s x = Some a ->
  exists c, filter (fun c => covers c x) s = [c] /\ In c s /\ covers c x = true /\ a = shape_of c.
Proof.
  intros s x a H. unfold own in H. destruct (filter _ s) as [|c [|c' r]] eqn:F; try discriminate.
  injection H as <-. exists c. destruct (filter_single_in _ _ _ _ F) as [Hin V]. auto.
Qed.

Lemma own_exact_cover : forall s, exact_cover s -> forall x, exists a, own s x = Some a.
Proof.
  intros s Hs x. destruct (exact_cover_filter s Hs x) as (c & F & _). exists (shape_of c).
  unfold own. rewrite F. reflexivity.
Qed.

Lemma own_in_cover_shapes : forall s x a, own s x = Some a -> In a (cover_shapes x).
Proof.
  intros s x a H. destruct (own_inv s x a H) as (c & _ & _ & V & ->).
  unfold cover_shapes. apply filter_In. split; [apply all_shapes_complete|].
  rewrite <- covers_shape. exact V.
Qed.

(* in any split: the owner of x covers y exactly when it is also the owner of y *)
Lemma own_covers : forall s x y a b, own s x = Some a -> own s y = Some b -> shape_covers a y = shape_eqb b a.
Proof.
  intros s x y a b Hx Hy.
  destruct (own_inv s x a Hx) as (cx & _ & Ix & _ & ->).
  destruct (own_inv s y b Hy) as (cy & Fy & _ & Vy & ->).
  rewrite <- covers_shape. destruct (covers cx y) eqn:E.
  - (* cx covers y, and cy is the only component that does *)
    rewrite (filter_singleton _ _ _ _ Fy cx Ix E). symmetry. apply shape_eqb_eq. reflexivity.
  - destruct (shape_eqb (shape_of cy) (shape_of cx)) eqn:E2; [|reflexivity].
    apply shape_eqb_eq in E2. rewrite covers_shape, <- E2, <- covers_shape, Vy in E. discriminate.
Qed.

Lemma pair_ok_own : forall s x y a b, own s x = Some a -> own s y = Some b -> pair_ok x a y b = true.
Proof.
  intros s x y a b Hx Hy. unfold pair_ok.
  rewrite (own_covers s x y a b Hx Hy), (own_covers s y x b a Hy Hx), !eqb_reflx. reflexivity.
Qed.

(* the owners in an exact cover are one of the consistent assignments the check goes through *)
Lemma extensions_offered_own : forall s, exact_cover s -> forall co todo acc,
  Forall (fun xa => own s (fst xa) = Some (snd xa)) acc ->
  extensions_offered co acc todo = true ->
  In (map Some (rev (map snd acc)) ++ map (own s) todo) co.
Proof.
  intros s Hs co. induction todo as [|y todo IH]; intros acc Hacc H; cbn [extensions_offered] in H.
  - apply existsb_exists in H. destruct H as (o & Ho & E).
    apply (list_eqb_eq _ _ opt_shape_eqb_eq) in E. subst o. cbn [map]. rewrite app_nil_r. exact Ho.
  - destruct (own_exact_cover s Hs y) as (b & Hb).
    rewrite forallb_forall in H. specialize (H b (own_in_cover_shapes s y b Hb)).
    replace (forallb _ acc) with true in H.
    + apply IH in H; [|constructor; assumption].
      cbn [map rev snd] in H. rewrite map_app, <- app_assoc in H. cbn [map app]. rewrite Hb. exact H.
    + symmetry. apply forallb_forall. intros [x a] Hin. rewrite Forall_forall in Hacc.
      exact (pair_ok_own s x y a b (Hacc _ Hin) Hb).
Qed.

Theorem complete_check_sound : forall cands, complete_check cands = true ->
  forall s, exact_cover s -> exists s', In s' cands /\ forall x, own s' x = own s x.
Proof.
  intros cands CK s Hs.
  pose proof (extensions_offered_own s Hs _ cells [] (Forall_nil _) CK) as H. cbn [map rev app] in H.
  apply in_map_iff in H. destruct H as (s' & E & Hs'). exists s'. split; [exact Hs'|].
  intros x. exact (ext_in_map E x (cells_complete x)).
Qed.
