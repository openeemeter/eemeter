(* Lemmas about Model/Resample.v (property C08; reused by C09); rationals up to Qeq (==).
   Sums are taken with sumQ (qsum without its Qred); ovl lo hi iv is the overlap of an interval with the bucket [lo,hi),
   and what is said of bucket_sum / bucket_count goes through contrib_eq, bucket_cons and bucket_disjoint.
   The theorems of Properties/C08.v rest on three facts: bucket_sum_tiling (usage is additive over a tiling),
   bucket_in_period (a bucket inside one interval of a sorted series sees that interval only) and, for the data
   classes, lookup_downsample / lookup_billing_days (a relevant day that is not the last row is looked up as day_row). *)
From Coq Require Import ZArith QArith List Bool Lia Sorting.Sorted.
From V Require Import Model.Resample Proofs.ListFacts Proofs.ArithFacts.
Import ListNotations.
Open Scope Z_scope.

(* ---- sums ---- *)

Fixpoint sumQ (l : list Q) : Q := match l with [] => 0%Q | x :: r => (x + sumQ r)%Q end.

Lemma qsum_sumQ : forall l, (qsum l == sumQ l)%Q.
Proof.
  induction l as [|x l IH]; cbn [qsum sumQ fold_right]; [reflexivity|].
  fold (qsum l). rewrite Qred_correct, IH. reflexivity.
Qed.

Lemma sumQ_app : forall a b, (sumQ (a ++ b) == sumQ a + sumQ b)%Q.
Proof. induction a as [|x a IH]; intros; cbn [sumQ app]; [ring|]. rewrite IH. ring. Qed.

Lemma sumQ_ext : forall {A} (f g : A -> Q) l,
  (forall x, In x l -> (f x == g x)%Q) -> (sumQ (map f l) == sumQ (map g l))%Q.
Proof.
  induction l as [|x l IH]; intros H; cbn [map sumQ]; [reflexivity|].
  rewrite (H x (or_introl eq_refl)), IH; [reflexivity|]. intros y Hy. apply H. right. exact Hy.
Qed.

Lemma sumQ_zero : forall {A} (f : A -> Q) l, (forall x, In x l -> (f x == 0)%Q) -> (sumQ (map f l) == 0)%Q.
Proof.
  induction l as [|x l IH]; intros H; cbn [map sumQ]; [reflexivity|].
  rewrite (H x (or_introl eq_refl)), IH; [ring|]. intros y Hy. apply H. right. exact Hy.
Qed.

Lemma sumQ_plus : forall {A} (f g : A -> Q) l,
  (sumQ (map (fun x => f x + g x) l) == sumQ (map f l) + sumQ (map g l))%Q.
Proof. induction l as [|x l IH]; cbn [map sumQ]; [ring|]. rewrite IH. ring. Qed.

Lemma sumQ_scale : forall {A} (f : A -> Q) (k : Q) l,
  (sumQ (map (fun x => f x * k) l) == sumQ (map f l) * k)%Q.
Proof. induction l as [|x l IH]; cbn [map sumQ]; [ring|]. rewrite IH. ring. Qed.

Lemma sumQ_swap : forall {A B} (f : A -> B -> Q) la lb,
  (sumQ (map (fun a => sumQ (map (fun b => f a b) lb)) la) ==
   sumQ (map (fun b => sumQ (map (fun a => f a b) la)) lb))%Q.
Proof.
  induction la as [|a la IH]; intros lb; cbn [map sumQ].
  - symmetry. apply sumQ_zero. reflexivity.
  - rewrite IH. rewrite <- sumQ_plus. reflexivity.
Qed.

(* a sum whose terms vanish off a subset is a sum over the subset *)
Lemma sumQ_filter_if : forall {A} (f : A -> bool) (g h : A -> Q) l,
  (forall x, In x l -> (g x == if f x then h x else 0)%Q) ->
  (sumQ (map g l) == sumQ (map h (filter f l)))%Q.
Proof.
  induction l as [|x l IH]; intros H; [reflexivity|].
  cbn [map sumQ filter]. rewrite (H x (or_introl eq_refl)), IH by (intros y Hy; apply H; right; exact Hy).
  destruct (f x); cbn [map sumQ]; ring.
Qed.

Lemma zsum_cons : forall x l, zsum (x :: l) = x + zsum l.
Proof. reflexivity. Qed.

Lemma inject_Z_zsum : forall {A} (f : A -> Z) l,
  (inject_Z (zsum (map f l)) == sumQ (map (fun x => inject_Z (f x)) l))%Q.
Proof.
  induction l as [|x l IH]; cbn [map sumQ]; [reflexivity|].
  rewrite zsum_cons, inject_Z_plus, IH. reflexivity.
Qed.

Lemma Qzero_share : forall v y : Q, (v * inject_Z 0 / y == 0)%Q.
Proof. intros v y. unfold Qdiv. change (inject_Z 0) with 0%Q. ring. Qed.

Lemma inject_Z_nonzero : forall z, z <> 0 -> ~ (inject_Z z == 0)%Q.
Proof. intros z Hz E. apply Hz. apply inject_Z_injective. exact E. Qed.

Lemma zsum_app : forall a b, zsum (a ++ b) = zsum a + zsum b.
Proof. induction a as [|x a IH]; intros; cbn [app]; [reflexivity|]. rewrite !zsum_cons, IH. lia. Qed.

Lemma zsum_zero : forall {A} (f : A -> Z) l, (forall x, In x l -> f x = 0) -> zsum (map f l) = 0.
Proof.
  induction l as [|x l IH]; intros H; cbn [map]; [reflexivity|].
  rewrite zsum_cons, (H x (or_introl eq_refl)), IH; [reflexivity|]. intros y Hy. apply H. right. exact Hy.
Qed.

Lemma zsum_nonneg : forall {A} (f : A -> Z) l, (forall x, In x l -> 0 <= f x) -> 0 <= zsum (map f l).
Proof.
  induction l as [|x l IH]; intros H; cbn [map]; [reflexivity|].
  rewrite zsum_cons. specialize (H x (or_introl eq_refl)) as Hx.
  assert (0 <= zsum (map f l)) by (apply IH; intros y Hy; apply H; right; exact Hy). lia.
Qed.

Lemma zsum_filter_if : forall {A} (f : A -> bool) (g h : A -> Z) l,
  (forall x, In x l -> g x = if f x then h x else 0) -> zsum (map g l) = zsum (map h (filter f l)).
Proof.
  induction l as [|x l IH]; intros H; [reflexivity|].
  cbn [map filter]. rewrite zsum_cons, (H x (or_introl eq_refl)), IH by (intros y Hy; apply H; right; exact Hy).
  destruct (f x); cbn [map]; rewrite ?zsum_cons; lia.
Qed.

Lemma zsum_const : forall {A} (l : list A) k, zsum (map (fun _ => k) l) = k * Z.of_nat (length l).
Proof. induction l as [|x l IH]; intros k; [cbn; lia|]. cbn [map length]. rewrite zsum_cons, IH. lia. Qed.

(* ---- lists: last, removelast, find on sorted keys ---- *)

(* the default matters for the empty list only, so behind a head it can be the head *)
Lemma last_cons : forall {A} (l : list A) x d, last (x :: l) d = last l x.
Proof.
  induction l as [|y l IH]; intros x d; [reflexivity|].
  change (last (x :: y :: l) d) with (last (y :: l) d). rewrite (IH y d), (IH y x). reflexivity.
Qed.

Lemma last_map : forall {A B} (f : A -> B) l d, last (map f l) (f d) = f (last l d).
Proof. induction l as [|x [|y l] IH]; intros d; [reflexivity|reflexivity|]. exact (IH d). Qed.

Lemma removelast_cons2 : forall {A} (x y : A) l, removelast (x :: y :: l) = x :: removelast (y :: l).
Proof. reflexivity. Qed.

Lemma removelast_incl : forall {A} (l : list A) x, In x (removelast l) -> In x l.
Proof.
  induction l as [|y [|z l] IH]; intros x Hx; [destruct Hx|destruct Hx|].
  rewrite removelast_cons2 in Hx.
  destruct Hx as [<-|Hx]; [left; reflexivity|right; apply IH; exact Hx].
Qed.

Lemma map_removelast : forall {A B} (f : A -> B) l, map f (removelast l) = removelast (map f l).
Proof.
  induction l as [|y [|z l] IH]; [reflexivity|reflexivity|].
  rewrite removelast_cons2. cbn [map] in *. rewrite removelast_cons2, IH. reflexivity.
Qed.

Lemma sorted_removelast : forall l, StronglySorted Z.lt l -> StronglySorted Z.lt (removelast l).
Proof.
  induction l as [|y [|z l] IH]; intros H; [constructor|constructor|].
  rewrite removelast_cons2.
  inversion H as [|? ? Hs Hf]; subst. constructor; [apply IH; exact Hs|].
  apply Forall_forall. intros x Hx. rewrite Forall_forall in Hf. apply Hf. apply removelast_incl. exact Hx.
Qed.

Lemma in_removelast_sorted : forall {A} (f : A -> Z) l p q,
  StronglySorted Z.lt (map f l) -> In p l -> In q l -> f p < f q -> In p (removelast l).
Proof.
  induction l as [|y [|z l] IH]; intros p q H Hp Hq Hlt; [destruct Hp| |].
  - destruct Hp as [<-|[]]. destruct Hq as [<-|[]]. lia.
  - rewrite removelast_cons2. cbn [map] in H. inversion H as [|? ? Hs Hf]; subst.
    destruct Hp as [<-|Hp]; [left; reflexivity|right].
    rewrite Forall_forall in Hf. destruct Hq as [<-|Hq].
    + assert (f y < f p) by (apply Hf; apply (in_map f (z :: l)); exact Hp). lia.
    + apply (IH p q); assumption.
Qed.

Lemma find_sorted : forall {A} (key : A -> Z) l x,
  StronglySorted Z.lt (map key l) -> In x l -> find (fun r => key r =? key x) l = Some x.
Proof.
  induction l as [|y l IH]; intros x H Hx; [destruct Hx|].
  cbn [map] in H. inversion H as [|? ? Hs Hf]; subst. cbn [find].
  destruct Hx as [<-|Hx]; [rewrite Z.eqb_refl; reflexivity|].
  rewrite Forall_forall in Hf. assert (key y < key x) by (apply Hf; apply in_map; exact Hx).
  destruct (key y =? key x) eqn:E; [apply Z.eqb_eq in E; lia|]. apply IH; assumption.
Qed.

Lemma find_map : forall {A B} (f : A -> B) (k : B -> bool) l, find k (map f l) = option_map f (find (fun x => k (f x)) l).
Proof. induction l as [|x l IH]; [reflexivity|]. cbn [map find]. destruct (k (f x)); [reflexivity|exact IH]. Qed.

Lemma lookup_day_sorted : forall {A} (key : A -> Z) (val : A -> option Q) rows x,
  StronglySorted Z.lt (map key rows) -> In x rows ->
  lookup_day (map (fun r => (key r, val r)) rows) (key x) = val x.
Proof.
  intros A key val rows x Hs Hx. unfold lookup_day. rewrite find_map. cbn [fst].
  rewrite (find_sorted key rows x Hs Hx). reflexivity.
Qed.

(* ---- overlap and tilings ---- *)

Lemma overlap_nonneg : forall a b c d, 0 <= overlap a b c d.
Proof. intros. unfold overlap. lia. Qed.

Lemma overlap_le_len : forall a b c d, a <= b -> overlap a b c d <= b - a.
Proof. intros. unfold overlap. lia. Qed.

Lemma overlap_interval_inside : forall a b c d, c <= a -> b <= d -> a <= b -> overlap a b c d = b - a.
Proof. intros. unfold overlap. lia. Qed.

Lemma overlap_disjoint : forall a b c d, b <= c \/ d <= a -> overlap a b c d = 0.
Proof. intros. unfold overlap. lia. Qed.

Lemma overlap_bucket_inside : forall a b c d, a <= c -> d <= b -> c <= d -> overlap a b c d = d - c.
Proof. intros. unfold overlap. lia. Qed.

(* strictly increasing boundary lists *)
Fixpoint incr (l : list Z) : Prop :=
  match l with
  | a :: ((b :: _) as r) => a < b /\ incr r
  | _ => True
  end.

Lemma incr_tail : forall a l, incr (a :: l) -> incr l.
Proof. intros a [|b l]; cbn; tauto. Qed.

Lemma incr_app_r : forall pre l, incr (pre ++ l) -> incr l.
Proof. induction pre as [|a pre IH]; intros l H; [exact H|]. apply IH. eapply incr_tail. exact H. Qed.

Lemma incr_app_l : forall l post, incr (l ++ post) -> incr l.
Proof.
  induction l as [|a [|b l] IH]; intros post H; [exact I|exact I|].
  destruct H as [Hab H]. split; [exact Hab|]. apply (IH post). exact H.
Qed.

Lemma incr_le_last : forall l a, incr (a :: l) -> a <= last l a.
Proof.
  induction l as [|b l IH]; intros a H; [cbn; lia|].
  destruct H as [Hab H]. rewrite last_cons. specialize (IH b H). lia.
Qed.

Lemma pairs_cons2 : forall a b l, pairs (a :: b :: l) = (a, b) :: pairs (b :: l).
Proof. reflexivity. Qed.

Lemma pairs_length : forall l, length (pairs l) = pred (length l).
Proof.
  induction l as [|a [|b l] IH]; [reflexivity|reflexivity|]. rewrite pairs_cons2. cbn [length] in *. rewrite IH. reflexivity.
Qed.

(* the overlaps of [a,b) with the pieces of a tiling add up to its overlap with the tiled range *)
Lemma overlap_tiling : forall rest c a b, incr (c :: rest) ->
  zsum (map (fun p => overlap a b (fst p) (snd p)) (pairs (c :: rest))) = overlap a b c (last rest c).
Proof.
  induction rest as [|d rest IH]; intros c a b H.
  - cbn. unfold overlap. lia.
  - destruct H as [Hcd H]. pose proof (incr_le_last rest d H) as Hl.
    rewrite pairs_cons2. cbn [map fst snd]. rewrite zsum_cons, (IH d a b H), last_cons.
    unfold overlap. lia.
Qed.

Lemma pairs_in_bounds : forall l c p, incr (c :: l) -> In p (pairs (c :: l)) ->
  c <= fst p /\ fst p < snd p /\ snd p <= last l c.
Proof.
  induction l as [|d l IH]; intros c p H Hp; [destruct Hp|].
  rewrite pairs_cons2 in Hp. rewrite last_cons.
  destruct H as [Hcd H]. pose proof (incr_le_last l d H) as Hl.
  destruct Hp as [<-|Hp]; cbn [fst snd]; [lia|].
  specialize (IH d p H Hp). lia.
Qed.

Lemma pairs_pos : forall bs p, incr bs -> In p (pairs bs) -> fst p < snd p.
Proof. intros [|c l] p H Hp; [destruct Hp|]. pose proof (pairs_in_bounds l c p H Hp). lia. Qed.

Lemma pairs_disjoint : forall bs p q, incr bs -> In p (pairs bs) -> In q (pairs bs) ->
  p = q \/ snd p <= fst q \/ snd q <= fst p.
Proof.
  induction bs as [|c [|d l] IH]; intros p q H Hp Hq; [destruct Hp|destruct Hp|].
  rewrite pairs_cons2 in Hp, Hq. destruct H as [Hcd H].
  destruct Hp as [<-|Hp]; destruct Hq as [<-|Hq]; [left; reflexivity| | |apply IH; assumption]; cbn [fst snd].
  - pose proof (pairs_in_bounds l d q H Hq). right. left. lia.
  - pose proof (pairs_in_bounds l d p H Hp). right. right. lia.
Qed.

Lemma pairs_fst_sorted : forall bs, incr bs -> StronglySorted Z.lt (map fst (pairs bs)).
Proof.
  induction bs as [|c [|d l] IH]; intros H; [constructor|constructor|].
  rewrite pairs_cons2. cbn [map fst]. destruct H as [Hcd H]. constructor; [apply IH; exact H|].
  apply Forall_forall. intros x Hx. apply in_map_iff in Hx. destruct Hx as (p & <- & Hp).
  pose proof (pairs_in_bounds l d p H Hp). lia.
Qed.

Lemma pairs_sub : forall pre c mid post p, In p (pairs (c :: mid)) -> In p (pairs (pre ++ (c :: mid) ++ post)).
Proof.
  induction pre as [|a pre IH]; intros c mid post p H.
  - revert c H. induction mid as [|d mid IHm]; intros c H; [destruct H|].
    rewrite pairs_cons2 in H. cbn [app] in *. rewrite pairs_cons2.
    destruct H as [<-|H]; [left; reflexivity|right; apply IHm; exact H].
  - specialize (IH c mid post p H). change ((a :: pre) ++ (c :: mid) ++ post) with (a :: (pre ++ (c :: mid) ++ post)).
    destruct (pre ++ (c :: mid) ++ post) as [|b l]; [destruct IH|]. rewrite pairs_cons2. right. exact IH.
Qed.

(* ---- contributions of one interval ---- *)

Definition ovl (lo hi : Z) (iv : interval) : Z := overlap (ilo iv) (ihi iv) lo hi.

Lemma ovl_disjoint : forall lo hi iv, ihi iv <= lo \/ hi <= ilo iv -> ovl lo hi iv = 0.
Proof. intros lo hi iv H. unfold ovl. apply overlap_disjoint. exact H. Qed.

Lemma contrib_eq : forall lo hi iv,
  (contrib lo hi iv ==
   match ival iv with
   | Some v => v * inject_Z (ovl lo hi iv) / inject_Z (ilen iv)
   | None => 0
   end)%Q.
Proof.
  intros. unfold contrib, ovl. destruct (ival iv) as [v|]; [|reflexivity].
  destruct (overlap (ilo iv) (ihi iv) lo hi =? 0) eqn:E; [|reflexivity].
  apply Z.eqb_eq in E. rewrite E. symmetry. apply Qzero_share.
Qed.

Lemma contrib_none : forall lo hi iv, ival iv = None -> (contrib lo hi iv == 0)%Q.
Proof. intros. unfold contrib. rewrite H. reflexivity. Qed.

Lemma contrib_disjoint : forall lo hi iv, ovl lo hi iv = 0 -> (contrib lo hi iv == 0)%Q.
Proof. intros. unfold contrib. fold (ovl lo hi iv). rewrite H. destruct (ival iv); reflexivity. Qed.

Lemma contrib_inside : forall lo hi iv, ilo iv < ihi iv -> lo <= ilo iv -> ihi iv <= hi ->
  (contrib lo hi iv == oq0 (ival iv))%Q.
Proof.
  intros lo hi iv Hlen Hlo Hhi. rewrite contrib_eq. destruct (ival iv) as [v|]; [|reflexivity]. unfold ovl.
  rewrite overlap_interval_inside by lia. unfold ilen. cbn [oq0]. field.
  apply inject_Z_nonzero. lia.
Qed.

Lemma covered_disjoint : forall lo hi iv, ovl lo hi iv = 0 -> covered lo hi iv = 0.
Proof. intros. unfold covered. fold (ovl lo hi iv). rewrite H. destruct (ival iv); reflexivity. Qed.

Lemma covered_nonneg : forall lo hi iv, 0 <= covered lo hi iv.
Proof. intros. unfold covered. destruct (ival iv); [apply overlap_nonneg|lia]. Qed.

(* what an interval contributes to the pieces of a tiling adds up to what it contributes to the tiled range *)
Lemma contrib_tiling : forall rest c iv, incr (c :: rest) ->
  (sumQ (map (fun p => contrib (fst p) (snd p) iv) (pairs (c :: rest))) == contrib c (last rest c) iv)%Q.
Proof.
  intros rest c iv Hinc. rewrite contrib_eq. destruct (ival iv) as [v|] eqn:Hv.
  2:{ apply sumQ_zero. intros p _. apply contrib_none. exact Hv. }
  rewrite (sumQ_ext _ (fun p => inject_Z (ovl (fst p) (snd p) iv) * (v / inject_Z (ilen iv)))%Q).
  2:{ intros p _. rewrite contrib_eq, Hv. unfold Qdiv. ring. }
  rewrite sumQ_scale, <- (inject_Z_zsum (fun p => ovl (fst p) (snd p) iv)).
  unfold ovl. rewrite overlap_tiling by exact Hinc. unfold Qdiv. ring.
Qed.

(* ---- the intervals of a series with strictly increasing stamps ---- *)

Definition sorted_rs (rs : list reading) : Prop := incr (map stamp rs).

Lemma sorted_rs_tail : forall r rs, sorted_rs (r :: rs) -> sorted_rs rs.
Proof. intros r rs H. apply (incr_tail (stamp r)). exact H. Qed.

Lemma intervals_cons2 : forall r r' rs,
  intervals (r :: r' :: rs) = mkI (stamp r) (stamp r') (rval r) :: intervals (r' :: rs).
Proof. reflexivity. Qed.

Lemma last_stamp_last : forall rs r, last_stamp (r :: rs) = last (map stamp rs) (stamp r).
Proof.
  induction rs as [|r' rs IH]; intros r; [reflexivity|].
  change (last_stamp (r :: r' :: rs)) with (last_stamp (r' :: rs)). rewrite IH.
  cbn [map]. rewrite last_cons. reflexivity.
Qed.

Lemma intervals_bounds : forall rs iv, sorted_rs rs -> In iv (intervals rs) ->
  first_stamp rs <= ilo iv /\ ilo iv < ihi iv /\ ihi iv <= last_stamp rs.
Proof.
  induction rs as [|r [|r' rs] IH]; intros iv Hs Hin; [destruct Hin|destruct Hin|].
  rewrite intervals_cons2 in Hin. destruct Hs as [Hlt Hs].
  assert (stamp r' <= last_stamp (r' :: rs)) as Hfl by (rewrite last_stamp_last; apply incr_le_last; exact Hs).
  change (last_stamp (r :: r' :: rs)) with (last_stamp (r' :: rs)).
  cbn [first_stamp]. destruct Hin as [<-|Hin]; cbn [ilo ihi]; [lia|].
  specialize (IH iv Hs Hin). cbn [first_stamp] in IH. lia.
Qed.

(* the usage of all closed intervals = all readings but the last *)
Lemma intervals_values : forall rs,
  map (fun iv => oq0 (ival iv)) (intervals rs) = map (fun r => oq0 (rval r)) (removelast rs).
Proof.
  induction rs as [|r [|r' rs] IH]; [reflexivity|reflexivity|].
  rewrite intervals_cons2, removelast_cons2. cbn [map ival]. rewrite IH. reflexivity.
Qed.

(* ---- buckets ---- *)

Lemma bucket_sum_sumQ : forall lo hi ivs, (bucket_sum lo hi ivs == sumQ (map (contrib lo hi) ivs))%Q.
Proof. intros. unfold bucket_sum. apply qsum_sumQ. Qed.

Lemma bucket_cons : forall lo hi iv ivs,
  (bucket_sum lo hi (iv :: ivs) == contrib lo hi iv + bucket_sum lo hi ivs)%Q /\
  bucket_count lo hi (iv :: ivs) = covered lo hi iv + bucket_count lo hi ivs.
Proof. intros. split; [rewrite !bucket_sum_sumQ|]; reflexivity. Qed.

Lemma bucket_disjoint : forall lo hi ivs, (forall iv, In iv ivs -> ovl lo hi iv = 0) ->
  (bucket_sum lo hi ivs == 0)%Q /\ bucket_count lo hi ivs = 0.
Proof.
  intros lo hi ivs H. split.
  - rewrite bucket_sum_sumQ. apply sumQ_zero. intros iv Hiv. apply contrib_disjoint, H, Hiv.
  - apply zsum_zero. intros iv Hiv. apply covered_disjoint, H, Hiv.
Qed.

Lemma bucket_outside : forall rs lo hi, sorted_rs rs -> hi <= first_stamp rs \/ last_stamp rs <= lo ->
  (bucket_sum lo hi (intervals rs) == 0)%Q /\ bucket_count lo hi (intervals rs) = 0.
Proof.
  intros rs lo hi Hs H. apply bucket_disjoint. intros iv Hiv.
  pose proof (intervals_bounds rs iv Hs Hiv) as (H1 & _ & H3). apply ovl_disjoint. lia.
Qed.

(* usage is additive over adjacent buckets: the days of a tiling add up to the usage of the tiled range *)
Lemma bucket_sum_tiling : forall ivs rest c, incr (c :: rest) ->
  (sumQ (map (fun p => bucket_sum (fst p) (snd p) ivs) (pairs (c :: rest))) == bucket_sum c (last rest c) ivs)%Q.
Proof.
  intros ivs rest c Hinc.
  rewrite (sumQ_ext _ (fun p => sumQ (map (fun iv => contrib (fst p) (snd p) iv) ivs)))
    by (intros p _; apply bucket_sum_sumQ).
  rewrite (sumQ_swap (fun p iv => contrib (fst p) (snd p) iv)), bucket_sum_sumQ.
  apply sumQ_ext. intros iv _. apply contrib_tiling. exact Hinc.
Qed.

Lemma bucket_count_nonneg : forall lo hi ivs, 0 <= bucket_count lo hi ivs.
Proof. intros. unfold bucket_count. apply zsum_nonneg. intros. apply covered_nonneg. Qed.

(* on a sorted series: a bucket that ends before the second stamp sees the head interval only ... *)
Lemma bucket_head_only : forall r r' rest lo hi, sorted_rs (r' :: rest) -> hi <= stamp r' ->
  (bucket_sum lo hi (intervals (r :: r' :: rest)) == contrib lo hi (mkI (stamp r) (stamp r') (rval r)))%Q /\
  bucket_count lo hi (intervals (r :: r' :: rest)) = covered lo hi (mkI (stamp r) (stamp r') (rval r)).
Proof.
  intros r r' rest lo hi Hs Hhi. rewrite intervals_cons2.
  destruct (bucket_cons lo hi (mkI (stamp r) (stamp r') (rval r)) (intervals (r' :: rest))) as [E1 E2].
  destruct (bucket_outside (r' :: rest) lo hi Hs) as [Z1 Z2]; [left; exact Hhi|].
  rewrite E1, E2, Z1, Z2. split; [ring|lia].
Qed.

(* ... and one that begins at or after it does not see the head interval *)
Lemma bucket_drop_head : forall r r' rest lo hi, stamp r' <= lo ->
  (bucket_sum lo hi (intervals (r :: r' :: rest)) == bucket_sum lo hi (intervals (r' :: rest)))%Q /\
  bucket_count lo hi (intervals (r :: r' :: rest)) = bucket_count lo hi (intervals (r' :: rest)).
Proof.
  intros r r' rest lo hi Hlo. rewrite intervals_cons2.
  destruct (bucket_cons lo hi (mkI (stamp r) (stamp r') (rval r)) (intervals (r' :: rest))) as [E1 E2].
  assert (ovl lo hi (mkI (stamp r) (stamp r') (rval r)) = 0) as Ho by (apply ovl_disjoint; left; exact Hlo).
  rewrite E1, E2, (contrib_disjoint _ _ _ Ho), (covered_disjoint _ _ _ Ho). split; [ring|lia].
Qed.

(* a bucket inside one interval of a sorted series sees that interval only: the earlier intervals end before it, the
   later ones begin after it *)
Lemma bucket_in_period : forall rs iv lo hi, sorted_rs rs -> In iv (intervals rs) ->
  ilo iv <= lo -> hi <= ihi iv ->
  (bucket_sum lo hi (intervals rs) == contrib lo hi iv)%Q /\
  bucket_count lo hi (intervals rs) = covered lo hi iv.
Proof.
  induction rs as [|r [|r' rest] IH]; intros iv lo hi Hs Hin Hlo Hhi; [destruct Hin|destruct Hin|].
  destruct Hs as [Hlt Hs]. rewrite intervals_cons2 in Hin. destruct Hin as [<-|Hin].
  - apply bucket_head_only; [exact Hs|exact Hhi].
  - pose proof (intervals_bounds _ iv Hs Hin) as (H1 & _). cbn [first_stamp] in H1.
    destruct (bucket_drop_head r r' rest lo hi) as [E1 E2]; [lia|].
    rewrite E1, E2. apply IH; assumption.
Qed.

Lemma bucket_value_some : forall lo hi ivs, bucket_count lo hi ivs <> 0 ->
  bucket_value lo hi ivs = Some (bucket_sum lo hi ivs).
Proof. intros lo hi ivs H. unfold bucket_value. apply Z.eqb_neq in H. rewrite H. reflexivity. Qed.

Lemma bucket_value_none : forall lo hi ivs, bucket_count lo hi ivs = 0 -> bucket_value lo hi ivs = None.
Proof. intros lo hi ivs H. unfold bucket_value. rewrite H. reflexivity. Qed.

Lemma contrib_uncovered : forall lo hi iv, covered lo hi iv = 0 -> (contrib lo hi iv == 0)%Q.
Proof.
  intros lo hi iv H. unfold covered in H.
  destruct (ival iv) eqn:Ev; [apply contrib_disjoint; exact H|apply contrib_none; exact Ev].
Qed.

(* the value of a bucket, read as a number (NaN as 0), is its usage: a bucket without a covered minute holds none *)
Lemma bucket_value_sum : forall lo hi ivs, (oq0 (bucket_value lo hi ivs) == bucket_sum lo hi ivs)%Q.
Proof.
  intros lo hi ivs. unfold bucket_value. destruct (bucket_count lo hi ivs =? 0) eqn:E; [|reflexivity].
  apply Z.eqb_eq in E. cbn [oq0]. symmetry. induction ivs as [|iv ivs IH]; [reflexivity|].
  destruct (bucket_cons lo hi iv ivs) as [E1 E2]. rewrite E2 in E.
  pose proof (covered_nonneg lo hi iv). pose proof (bucket_count_nonneg lo hi ivs).
  rewrite E1, IH, contrib_uncovered by lia. ring.
Qed.

Lemma relevant_spec : forall rs b, relevant rs b = true <-> first_stamp rs < snd b /\ fst b <= last_stamp rs.
Proof. intros. unfold relevant. rewrite andb_true_iff, Z.ltb_lt, Z.leb_le. reflexivity. Qed.

(* buckets that pandas does not create (before the first / after the last stamp) hold no usage *)
Lemma irrelevant_empty : forall rs p, sorted_rs rs -> relevant rs p = false ->
  (bucket_sum (fst p) (snd p) (intervals rs) == 0)%Q.
Proof.
  intros rs p Hs Hr. apply bucket_outside; [exact Hs|].
  apply not_true_iff_false in Hr. rewrite relevant_spec in Hr. lia.
Qed.

(* ---- as_freq_cum row by row ---- *)

Lemma rows_of_spec : forall ivs bk,
  map (fun r => (d_lo r, d_hi r, d_val r)) (rows_of ivs bk) =
  map (fun p => (fst p, snd p, bucket_value (fst p) (snd p) ivs)) bk.
Proof.
  induction bk as [|[lo hi] bk IH]; [reflexivity|].
  cbn [rows_of map d_lo d_hi d_val fst snd]. rewrite IH. reflexivity.
Qed.

Lemma rows_of_keys : forall ivs bk, map d_lo (rows_of ivs bk) = map fst bk.
Proof. induction bk as [|[lo hi] bk IH]; [reflexivity|]. cbn [rows_of map d_lo fst]. rewrite IH. reflexivity. Qed.

(* the row of a bucket that is not the last one: its coverage is counted over its own length *)
Definition day_row (ivs : list interval) (p : Z * Z) : drow :=
  mkD (fst p) (snd p) (bucket_value (fst p) (snd p) ivs) (coverage (fst p) (snd p) ivs false).

Lemma rows_of_removelast : forall ivs bk, removelast (rows_of ivs bk) = map (day_row ivs) (removelast bk).
Proof.
  induction bk as [|[lo hi] [|[lo' hi'] bk] IH]; [reflexivity|reflexivity|].
  rewrite removelast_cons2. cbn [map]. rewrite <- IH. reflexivity.
Qed.

Lemma rows_of_cov : forall ivs bk r, In r (removelast (rows_of ivs bk)) ->
  d_cov r = coverage (d_lo r) (d_hi r) ivs false.
Proof.
  intros ivs bk r Hr. rewrite rows_of_removelast in Hr. apply in_map_iff in Hr.
  destruct Hr as (p & <- & _). reflexivity.
Qed.

(* ---- days of aligned sub-daily readings ---- *)

Definition inside (lo hi : Z) (iv : interval) : bool := (lo <=? ilo iv) && (ihi iv <=? hi).

(* no reading interval straddles a boundary of the bucket *)
Definition no_straddle (lo hi : Z) (ivs : list interval) : Prop :=
  forall iv, In iv ivs ->
    ilo iv < ihi iv /\ (ihi iv <= lo \/ hi <= ilo iv \/ (lo <= ilo iv /\ ihi iv <= hi)).

Lemma no_straddle_tail : forall lo hi iv ivs, no_straddle lo hi (iv :: ivs) -> no_straddle lo hi ivs.
Proof. intros lo hi iv ivs H x Hx. apply H. right. exact Hx. Qed.

(* the minutes an interval covers with a value; the usage of the intervals that lie inside the bucket *)
Definition present_len (iv : interval) : Z := if is_some (ival iv) then ilen iv else 0.

Definition readings_in (lo hi : Z) (ivs : list interval) : Q :=
  sumQ (map (fun iv => oq0 (ival iv)) (filter (inside lo hi) ivs)).

(* under no_straddle an interval lies in the bucket with its whole length, or does not meet it *)
Lemma no_straddle_ovl : forall lo hi ivs iv, no_straddle lo hi ivs -> In iv ivs ->
  ovl lo hi iv = if inside lo hi iv then ilen iv else 0.
Proof.
  intros lo hi ivs iv Hn Hiv. destruct (Hn iv Hiv) as [Hlen Hpos].
  unfold ovl, overlap, inside, ilen.
  destruct (Z.leb_spec lo (ilo iv)); destruct (Z.leb_spec (ihi iv) hi); cbn [andb]; lia.
Qed.

Lemma bucket_sum_no_straddle : forall lo hi ivs, no_straddle lo hi ivs ->
  (bucket_sum lo hi ivs == readings_in lo hi ivs)%Q.
Proof.
  intros lo hi ivs Hn. rewrite bucket_sum_sumQ. apply sumQ_filter_if. intros iv Hiv.
  destruct (Hn iv Hiv) as [Hlen _]. rewrite contrib_eq, (no_straddle_ovl lo hi ivs iv Hn Hiv).
  assert (~ inject_Z (ilen iv) == 0)%Q as Hnz by (apply inject_Z_nonzero; unfold ilen; lia).
  destruct (inside lo hi iv); destruct (ival iv) as [v|]; cbn [oq0]; try reflexivity.
  - field. exact Hnz.
  - apply Qzero_share.
Qed.

Lemma bucket_count_no_straddle : forall lo hi ivs, no_straddle lo hi ivs ->
  bucket_count lo hi ivs = zsum (map present_len (filter (inside lo hi) ivs)).
Proof.
  intros lo hi ivs Hn. unfold bucket_count. apply zsum_filter_if. intros iv Hiv.
  unfold covered, present_len. fold (ovl lo hi iv). rewrite (no_straddle_ovl lo hi ivs iv Hn Hiv).
  destruct (ival iv); destruct (inside lo hi iv); reflexivity.
Qed.

(* ---- the 50 % rule of clean_day ---- *)

(* equality of optional rationals up to == *)
Definition oq_eq (a b : option Q) : Prop :=
  match a, b with Some x, Some y => (x == y)%Q | None, None => True | _, _ => False end.

Lemma oq_eq_trans : forall a b c, oq_eq a b -> oq_eq b c -> oq_eq a c.
Proof.
  intros [x|] [y|] [z|]; cbn [oq_eq]; try contradiction; [|trivial].
  intros Hxy Hyz. rewrite Hxy. exact Hyz.
Qed.

Lemma qltb_true : forall a b, qltb a b = true <-> (a < b)%Q.
Proof. exact Qltb_true. Qed.

Lemma qltb_false : forall a b, qltb a b = false <-> (b <= a)%Q.
Proof. exact Qltb_false. Qed.

Lemma coverage_day : forall lo hi ivs,
  coverage lo hi ivs false = (inject_Z (bucket_count lo hi ivs) / inject_Z (hi - lo))%Q.
Proof. reflexivity. Qed.

(* ---- clean_billing_data: off-cycle periods ---- *)

Definition filter_iv (cal : bool) (offs : list (Z * Z)) (g : gran) (iv : interval) : interval :=
  mkI (ilo iv) (ihi iv) (if valid_len g (whole_days cal offs (ilo iv) (ihi iv)) then ival iv else None).

Lemma offcycle_filter_cons2 : forall cal offs g r r' rest,
  offcycle_filter cal offs g (r :: r' :: rest) =
  (stamp r, if valid_len g (whole_days cal offs (stamp r) (stamp r')) then rval r else None)
  :: offcycle_filter cal offs g (r' :: rest).
Proof. reflexivity. Qed.

(* the filter works interval by interval ... *)
Lemma offcycle_intervals : forall cal offs g rs, intervals (offcycle_filter cal offs g rs) = map (filter_iv cal offs g) (intervals rs).
Proof.
  intros cal offs g. induction rs as [|r [|r' rest] IH]; [reflexivity|reflexivity|].
  rewrite offcycle_filter_cons2, (intervals_cons2 r r' rest). cbn [map]. rewrite <- IH.
  (* the filtered tail still begins with the stamp of r' *)
  destruct rest; reflexivity.
Qed.

(* ... and keeps the stamps *)
Lemma offcycle_stamps : forall cal offs g rs, map stamp (offcycle_filter cal offs g rs) = map stamp rs.
Proof.
  intros cal offs g. induction rs as [|r [|r' rest] IH]; [reflexivity|reflexivity|].
  rewrite offcycle_filter_cons2. cbn [map] in *. rewrite IH. reflexivity.
Qed.

Lemma valid_len_spec : forall g d, valid_len g d = true <-> 25 <= d <= max_days g.
Proof. intros. unfold valid_len. rewrite andb_true_iff, !Z.leb_le. tauto. Qed.

Lemma clean_billing_cases : forall cal offs g rs, clean_billing cal offs g rs = [] \/ clean_billing cal offs g rs = offcycle_filter cal offs g rs.
Proof. intros. unfold clean_billing. destruct (all_nan rs); [auto|]. destruct (all_nan (offcycle_filter cal offs g rs)); auto. Qed.

Lemma intervals_some_not_all_nan : forall rs lo hi v, In (mkI lo hi (Some v)) (intervals rs) -> all_nan rs = false.
Proof.
  induction rs as [|r [|r' rest] IH]; intros lo hi v Hin; [destruct Hin|destruct Hin|].
  rewrite intervals_cons2 in Hin. unfold all_nan. cbn [forallb]. destruct Hin as [E|Hin].
  - injection E as _ _ E. rewrite E. reflexivity.
  - apply andb_false_iff. right. apply (IH lo hi v Hin).
Qed.

Lemma clean_billing_sorted : forall cal offs g rs, sorted_rs rs -> sorted_rs (clean_billing cal offs g rs).
Proof.
  intros cal offs g rs Hs. destruct (clean_billing_cases cal offs g rs) as [E|E]; rewrite E; [exact I|].
  unfold sorted_rs. rewrite offcycle_stamps. exact Hs.
Qed.

(* ---- looking a day up in the rows (the data classes' merge on the day index) ---- *)

Lemma removelast_rows_spec : forall l, removelast_rows l = removelast l.
Proof. induction l as [|x [|y l] IH]; [reflexivity|reflexivity|]. cbn [removelast_rows removelast] in *. rewrite IH. reflexivity. Qed.

Definition billing_closing (bs : list Z) (rows : list reading) : Z :=
  let fb := floor_boundary bs (last_stamp rows) in fb + (last_stamp rows - fb) mod 60 + 1440.

Definition billing_days (cl : list reading) (bs : list Z) (b : Z * Z) : option Q :=
  lookup_day (map (fun r => (d_lo r, d_val r)) (removelast_rows (as_freq_cum cl bs))) (fst b).

(* a relevant day that is not the last row: the daily class' entry is clean_day, the billing class' entry is the
   bucket value *)
Section Lookup.
  Variable rs : list reading.
  Variable bs : list Z.
  Hypothesis Hinc : incr bs.
  Let bk := filter (relevant rs) (pairs bs).

  Lemma bk_sorted : StronglySorted Z.lt (map fst bk).
  Proof. apply StronglySorted_map_filter. apply pairs_fst_sorted. exact Hinc. Qed.

  Lemma lookup_downsample : forall p, In p (removelast bk) ->
    lookup_day (downsample_and_clean rs bs) (fst p) = clean_day (fst p) (snd p) (intervals rs) false.
  Proof.
    intros p Hp. unfold downsample_and_clean, as_freq_cum. fold bk.
    apply (lookup_day_sorted d_lo (fun r => clean_value (d_val r) (d_cov r)) _ (day_row (intervals rs) p)).
    - rewrite rows_of_keys. exact bk_sorted.
    - apply removelast_incl. rewrite rows_of_removelast. apply in_map. exact Hp.
  Qed.

  Lemma lookup_billing_days : forall p, In p (removelast bk) -> billing_days rs bs p = bucket_value (fst p) (snd p) (intervals rs).
  Proof.
    intros p Hp. unfold billing_days, as_freq_cum. fold bk. rewrite removelast_rows_spec.
    apply (lookup_day_sorted d_lo d_val _ (day_row (intervals rs) p)).
    - rewrite map_removelast, rows_of_keys. apply sorted_removelast. exact bk_sorted.
    - rewrite rows_of_removelast. apply in_map. exact Hp.
  Qed.

  (* a relevant bucket that lies before another relevant one is not the last row *)
  Lemma not_last_row : forall p q, In p (pairs bs) -> relevant rs p = true ->
    In q (pairs bs) -> relevant rs q = true -> fst p < fst q -> In p (removelast bk).
  Proof.
    intros p q Hp Hrp Hq Hrq Hlt.
    apply (in_removelast_sorted fst bk p q bk_sorted); [apply filter_In; tauto|apply filter_In; tauto|exact Hlt].
  Qed.
End Lookup.

(* a day inside an interval of the series lies before the day q that holds the last stamp: both are rows of as_freq,
   and the day is not the last row *)
Lemma day_in_interval_not_last : forall cl bs iv p q, sorted_rs cl -> In iv (intervals cl) -> incr bs ->
  In p (pairs bs) -> ilo iv <= fst p -> snd p <= ihi iv -> In q (pairs bs) -> fst q <= last_stamp cl < snd q ->
  In p (removelast (filter (relevant cl) (pairs bs))).
Proof.
  intros cl bs iv p q Hs Hin Hinc Hp H1 H2 Hq Hq12.
  pose proof (intervals_bounds cl iv Hs Hin) as (Hb1 & Hb2 & Hb3).
  pose proof (pairs_pos bs p Hinc Hp) as Hpp.
  apply (not_last_row cl bs Hinc p q Hp); [apply relevant_spec; lia|exact Hq|apply relevant_spec; lia|].
  destruct (pairs_disjoint bs p q Hinc Hp Hq) as [E|[E|E]]; [subst q|..]; lia.
Qed.

(* ---- the code's literal 1-minute materialisation ---- *)

Lemma atom_cons2 : forall r r' rest m,
  atom (r :: r' :: rest) m =
  if stamp r' <=? m then atom (r' :: rest) m
  else if stamp r <=? m then option_map (fun v => (v * inject_Z 1 / inject_Z (stamp r' - stamp r))%Q) (rval r)
       else None.
Proof. reflexivity. Qed.

Lemma grid_count_ext : forall (f g : Z -> bool) lo n, (forall m, f m = g m) -> grid_count f lo n = grid_count g lo n.
Proof. induction n as [|k IH]; intros H; cbn [grid_count]; [reflexivity|]. rewrite IH, H by exact H. reflexivity. Qed.

Lemma bucket_split : forall ivs a b c, a <= b -> b <= c ->
  (bucket_sum a c ivs == bucket_sum a b ivs + bucket_sum b c ivs)%Q /\
  bucket_count a c ivs = bucket_count a b ivs + bucket_count b c ivs.
Proof.
  intros ivs a b c Hab Hbc.
  assert (forall iv, ovl a c iv = ovl a b iv + ovl b c iv) as Ho by (intros iv; unfold ovl, overlap; lia).
  split.
  - rewrite !bucket_sum_sumQ, <- sumQ_plus. apply sumQ_ext. intros iv _.
    rewrite !contrib_eq, Ho, inject_Z_plus. destruct (ival iv); unfold Qdiv; ring.
  - unfold bucket_count. induction ivs as [|iv ivs IH]; [reflexivity|].
    cbn [map]. rewrite !zsum_cons, IH. unfold covered. fold (ovl a c iv) (ovl a b iv) (ovl b c iv). rewrite Ho.
    destruct (ival iv); lia.
Qed.

Lemma bucket_empty : forall ivs a, (bucket_sum a a ivs == 0)%Q /\ bucket_count a a ivs = 0.
Proof. intros ivs a. apply bucket_disjoint. intros iv _. unfold ovl, overlap. lia. Qed.

(* the one-minute bucket [m, m+1) holds what the forward-filled atomic series carries at m: the rate of the interval
   that holds m, if there is one *)
Lemma minute_bucket : forall rs m, sorted_rs rs ->
  (bucket_sum m (m + 1) (intervals rs) == oq0 (atom rs m))%Q /\
  bucket_count m (m + 1) (intervals rs) = if is_some (atom rs m) then 1 else 0.
Proof.
  induction rs as [|r [|r' rest] IH]; intros m Hs; [split; reflexivity|split; reflexivity|].
  rewrite atom_cons2. destruct Hs as [Hlt Hs].
  destruct (Z.leb_spec (stamp r') m) as [Hm|Hm].
  - destruct (bucket_drop_head r r' rest m (m + 1) Hm) as [E1 E2]. rewrite E1, E2. apply IH. exact Hs.
  - destruct (bucket_head_only r r' rest m (m + 1) Hs) as [E1 E2]; [lia|].
    rewrite E1, E2, contrib_eq. unfold covered, ovl, ilen. cbn [ival ilo ihi].
    destruct (Z.leb_spec (stamp r) m) as [Hr|Hr].
    + rewrite overlap_bucket_inside by lia. replace (m + 1 - m) with 1 by lia.
      destruct (rval r) as [v|]; cbn [option_map oq0 is_some]; split; try reflexivity; apply Qplus_0_r.
    + rewrite overlap_disjoint by lia.
      destruct (rval r) as [v|]; cbn [oq0 is_some]; split; try reflexivity.
      rewrite Qzero_share. reflexivity.
Qed.
