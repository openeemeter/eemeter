(* Lemmas about Model/HourlyState.v (C02): which field a call writes under which flag ([next_state_fields]); what the
   result depends on; witnesses, named [<flag>_off] / [*_history_off]: if the named field (resp. the result after a
   one-call history) on the witness data is what it would be without the write, the flag is off; and that none of the
   three branches of [corrected] invents a cluster label ([labels_reindex], [labels_fill_nearest], [labels_fill_unstacked]). *)
From Coq Require Import ZArith List Bool.
From V Require Import Model.HourlyState.
From V Require Proofs.GateProofs.   (* fold_left_invariant *)
Import ListNotations.
Open Scope Z_scope.

Lemma combo_eqb_refl : forall c, combo_eqb c c = true.
Proof. intros [a b]. unfold combo_eqb. cbn. rewrite !Z.eqb_refl. reflexivity. Qed.

Lemma combo_eqb_eq : forall a b, combo_eqb a b = true <-> a = b.
Proof.
  intros [a1 a2] [b1 b2]. unfold combo_eqb. cbn. rewrite andb_true_iff, !Z.eqb_eq.
  split; [intros [-> ->]; reflexivity | intros H; inversion H; auto].
Qed.

Lemma combo_eqb_neq : forall a b, a <> b -> combo_eqb a b = false.
Proof.
  intros a b H. destruct (combo_eqb a b) eqn:E; [|reflexivity]. apply combo_eqb_eq in E. contradiction.
Qed.

(* ---- which field of the model object a call writes: only the one whose flag is set ---- *)

Lemma next_state_fields : forall cfg fill s d,
  (assigns_back cfg = false -> clusters (next_state cfg fill s d) = clusters s) /\
  (appends_warning cfg = false -> warnings (next_state cfg fill s d) = warnings s) /\
  (extends_features cfg = false -> ts_features (next_state cfg fill s d) = ts_features s) /\
  (writes_other_state cfg = false -> hidden (next_state cfg fill s d) = hidden s).
Proof.
  intros cfg fill s d. unfold next_state.
  destruct (missing_features s d); [tauto|].
  destruct (corrected fill (clusters s) d); cbn [clusters warnings ts_features hidden];
    repeat split; intros ->; reflexivity.
Qed.

Lemma abs_inj : forall a b, abs a = abs b -> a = b.
Proof. intros [t f w h] [t' f' w' h'] H. unfold abs in H. cbn in H. inversion H. reflexivity. Qed.

(* ---- what the result depends on ---- *)

Lemma predict_out_ext : forall cfg fill s s' d, writes_other_state cfg = false ->
  clusters s = clusters s' -> ts_features s = ts_features s' ->
  predict_out cfg fill s d = predict_out cfg fill s' d.
Proof.
  intros cfg fill s s' d Ho Hc Ht. unfold predict_out, missing_features, new_supp. rewrite Hc, Ht, Ho. reflexivity.
Qed.

Lemma predict_out_spec : forall cfg fill s d, extends_features cfg = false -> writes_other_state cfg = false ->
  predict_out cfg fill s d = spec_predict fill s d.
Proof. intros cfg fill s d He Ho. unfold spec_predict, predict_out. rewrite He, Ho. reflexivity. Qed.

(* a projection of the state that no call changes is the same after any history *)
Lemma hrun_keeps : forall (A : Type) (view : hstate -> A) cfg,
  (forall fill s d, view (next_state cfg fill s d) = view s) ->
  forall ops s, view (hrun cfg s ops) = view s.
Proof.
  intros A view cfg H ops s. unfold hrun.
  apply GateProofs.fold_left_invariant with (P := fun s' => view s' = view s); [|reflexivity].
  intros o _ s' Hs'. rewrite <- Hs'. destruct o; cbn [hstep]; [apply H | reflexivity ..].
Qed.

Lemma history_independent_guarded : forall cfg s ops d fill,
  assigns_back cfg = false -> extends_features cfg = false -> writes_other_state cfg = false ->
  snd (predict_step cfg fill (hrun cfg s ops) d) = snd (predict_step cfg fill s d).
Proof.
  intros cfg s ops d fill Ha He Ho. unfold predict_step. cbn [snd].
  assert (H : (clusters (hrun cfg s ops), ts_features (hrun cfg s ops)) = (clusters s, ts_features s)).
  { apply (hrun_keeps _ (fun s => (clusters s, ts_features s))). intros fill' s' d'.
    destruct (next_state_fields cfg fill' s' d') as (H1 & _ & H3 & _). rewrite H1, H3 by assumption. reflexivity. }
  injection H as H1 H2. apply predict_out_ext; assumption.
Qed.

(* ---- as coded: a data set that covers exactly the fitted table leaves it alone ---- *)

Lemma get_head : forall k v r, get ((k, v) :: r) k = v.
Proof. intros. unfold get. cbn [lookup]. rewrite combo_eqb_refl. reflexivity. Qed.

Lemma get_tail : forall k v r c, k <> c -> get ((k, v) :: r) c = get r c.
Proof. intros. unfold get. cbn [lookup]. rewrite combo_eqb_neq by assumption. reflexivity. Qed.

Lemma reindex_self : forall t, NoDup (map fst t) -> reindex t (map fst t) = t.
Proof.
  induction t as [|[k v] r IH]; intros Hn; [reflexivity|].
  cbn [map fst] in *. inversion Hn as [|? ? Hk Hr]; subst.
  unfold reindex. cbn [map]. rewrite get_head. f_equal.
  rewrite <- (IH Hr) at 2. unfold reindex. apply map_ext_in.
  intros c Hc. f_equal. apply get_tail. intros ->. contradiction.
Qed.

Definition all_known (t : table) : bool := forallb (fun e => negb (is_missing e)) t.

Lemma all_known_no_missing : forall t, all_known t = true -> has_missing t = false.
Proof.
  induction t as [|e r IH]; [reflexivity|]. cbn [all_known forallb has_missing existsb]. intros H.
  apply andb_prop in H. destruct H as [H1 H2]. apply negb_true_iff in H1. rewrite H1. apply IH, H2.
Qed.

Lemma covering_keeps_table : forall fill t d,
  NoDup (map fst t) -> all_known t = true -> ds_combos d = map fst t -> corrected fill t d = Some t.
Proof.
  intros fill t d Hn Hk Hc. unfold corrected. rewrite Hc, reindex_self by assumption.
  rewrite (all_known_no_missing t Hk). reflexivity.
Qed.

Definition covers (s : hstate) (d : dsum) : Prop :=
  NoDup (map fst (clusters s)) /\ all_known (clusters s) = true /\ ds_combos d = map fst (clusters s) /\
  (ds_ghi d = true -> mem GHI (ts_features s) = true) /\ new_supp s d = [].

(* ---- refutations: each of the writes alone breaks the property ---- *)

Definition w_table : table := [((1, 0), Some 0); ((2, 0), Some 1)].
Definition w_state : hstate := {| clusters := w_table; ts_features := [TEMPERATURE]; warnings := []; hidden := 0 |}.
(* the witnesses (prefix w_): a table learned for January and February; a week of January with observed usage;
   January+February with observed usage and a GHI column; January+February without observed usage; January+February
   with a column the settings declare as supplemental *)
Definition w_jan : dsum :=
  {| ds_id := 1; ds_combos := [(1, 0)]; ds_observed := true; ds_columns := [TEMPERATURE]; ds_supp := []; ds_late_exc := false |}.
Definition w_jan_ghi : dsum :=
  {| ds_id := 2; ds_combos := [(1, 0); (2, 0)]; ds_observed := true; ds_columns := [TEMPERATURE; GHI]; ds_supp := [];
     ds_late_exc := false |}.
Definition w_janfeb : dsum :=
  {| ds_id := 3; ds_combos := [(1, 0); (2, 0)]; ds_observed := false; ds_columns := [TEMPERATURE]; ds_supp := [];
     ds_late_exc := false |}.
Definition w_supp : dsum :=
  {| ds_id := 4; ds_combos := [(1, 0); (2, 0)]; ds_observed := true; ds_columns := [TEMPERATURE; 10]; ds_supp := [10];
     ds_late_exc := false |}.
Definition w_fill (c : combo) : Z := 0.

Lemma assigns_back_off : forall cfg,
  clusters (next_state cfg w_fill w_state w_jan) = clusters w_state -> assigns_back cfg = false.
Proof. intros cfg. unfold next_state. destruct (assigns_back cfg); [vm_compute; discriminate | reflexivity]. Qed.

Lemma appends_warning_off : forall cfg,
  warnings (next_state cfg w_fill w_state w_jan_ghi) = warnings w_state -> appends_warning cfg = false.
Proof. intros cfg. unfold next_state. destruct (appends_warning cfg); [vm_compute; discriminate | reflexivity]. Qed.

Lemma extends_features_off : forall cfg,
  ts_features (next_state cfg w_fill w_state w_supp) = ts_features w_state -> extends_features cfg = false.
Proof. intros cfg. unfold next_state. destruct (extends_features cfg); [vm_compute; discriminate | reflexivity]. Qed.

Lemma writes_other_state_off : forall cfg,
  hidden (next_state cfg w_fill w_state w_jan) = hidden w_state -> writes_other_state cfg = false.
Proof. intros cfg. unfold next_state. destruct (writes_other_state cfg); [vm_compute; discriminate | reflexivity]. Qed.

Lemma state_unchanged_iff : forall cfg,
  (forall fill s d, next_state cfg fill s d = s) <->
  (assigns_back cfg = false /\ appends_warning cfg = false /\ extends_features cfg = false /\ writes_other_state cfg = false).
Proof.
  intros cfg. split.
  - intros H. repeat split.
    + apply assigns_back_off. rewrite H. reflexivity.
    + apply appends_warning_off. rewrite H. reflexivity.
    + apply extends_features_off. rewrite H. reflexivity.
    + apply writes_other_state_off. rewrite H. reflexivity.
  - intros (Ha & Hw & He & Ho) fill s d. destruct (next_state_fields cfg fill s d) as (H1 & H2 & H3 & H4).
    apply abs_inj. unfold abs. rewrite H1, H2, H3, H4 by assumption. reflexivity.
Qed.

Lemma next_state_pure : forall fill s d, next_state pure_cfg fill s d = s.
Proof. apply state_unchanged_iff. repeat split. Qed.

(* the prediction for January+February after a January week differs from the prediction of a fresh copy, by the
   labels when the table is assigned back and by what the call may have read when it writes other state *)
Lemma rerun_history_off : forall cfg,
  snd (predict_step cfg w_fill (hrun cfg w_state [HPredict w_jan w_fill]) w_janfeb) =
  snd (predict_step cfg w_fill w_state w_janfeb) -> assigns_back cfg = false /\ writes_other_state cfg = false.
Proof.
  intros [a b c e]. destruct a, e; try (split; reflexivity); destruct b, c; vm_compute; discriminate.
Qed.

(* after a failed call on data with a new supplemental column, ordinary data is rejected *)
Lemma extends_features_history_off : forall cfg,
  snd (predict_step cfg w_fill (hrun cfg w_state [HPredict w_supp w_fill]) w_jan_ghi) =
  snd (predict_step cfg w_fill w_state w_jan_ghi) -> extends_features cfg = false.
Proof. intros [a b c e]. destruct c; [|reflexivity]. destruct a, b, e; vm_compute; discriminate. Qed.

(* ---- the corrected table never invents a label (given the oracle's contract) ---- *)

Definition labels_of (t : table) : list Z := flat_map (fun e => match snd e with Some v => [v] | None => [] end) t.
Definition lab_in (x : label) (l : list Z) : Prop := match x with Some v => In v l | None => True end.
Definition rows_in (S : list Z) (t : table) : Prop := Forall (fun e => lab_in (snd e) S) t.

(* the labels of a table lie in S when every row's label does: the form in which the lemmas below are proved *)
Lemma labels_incl : forall t S, incl (labels_of t) S <-> rows_in S t.
Proof.
  intros t S. unfold labels_of, rows_in. rewrite incl_Forall_in_iff, Forall_flat_map.
  split; apply Forall_impl; intros [c [v|]]; cbn; intros H.
  - inversion H. assumption.
  - exact I.
  - constructor; [exact H | constructor].
  - constructor.
Qed.

Lemma lookup_in : forall t c v, lookup t c = Some v -> In (c, v) t.
Proof.
  induction t as [|[k u] r IH]; intros c v H; [discriminate|]. cbn [lookup] in H.
  destruct (combo_eqb k c) eqn:E.
  - apply combo_eqb_eq in E. subst. inversion H; subst. left; reflexivity.
  - right. apply IH, H.
Qed.

Lemma get_lab_in : forall t c, lab_in (get t c) (labels_of t).
Proof.
  intros t c. unfold get. destruct (lookup t c) as [[v|]|] eqn:E; try exact I.
  (* a row (c, Some v) of the table contributes v to its labels *)
  cbn [lab_in]. unfold labels_of. apply in_flat_map. exists (c, Some v).
  split; [apply lookup_in, E | left; reflexivity].
Qed.

Lemma labels_reindex : forall t cs, incl (labels_of (reindex t cs)) (labels_of t).
Proof.
  intros t cs. apply labels_incl. unfold rows_in, reindex. rewrite Forall_map. apply Forall_forall.
  intros c _. apply get_lab_in.
Qed.

Lemma labels_fill_nearest : forall fill t, (forall c, In (fill c) (labels_of t)) ->
  incl (labels_of (fill_nearest fill t)) (labels_of t).
Proof.
  intros fill t Hf. apply labels_incl. unfold rows_in, fill_nearest. rewrite Forall_map.
  apply (Forall_impl _ (P := fun e => lab_in (snd e) (labels_of t))); [|apply labels_incl, incl_refl].
  intros [c [v|]] H; [exact H | apply Hf].
Qed.

(* ---- the unstack / ffill / bfill / stack branch never invents a label either ---- *)

Definition cells_in (S : list Z) (l : list label) : Prop := Forall (fun x => lab_in x S) l.
Definition grid_in (S : list Z) (g : grid) : Prop := Forall (cells_in S) g.

Lemma orelse_in : forall S x p, lab_in x S -> lab_in p S -> lab_in (orelse x p) S.
Proof. intros S [v|] p Hx Hp; cbn; assumption. Qed.

Lemma ffill_from_in : forall S l prev, lab_in prev S -> cells_in S l -> cells_in S (ffill_from prev l).
Proof.
  intros S. induction l as [|x r IH]; intros prev Hp Hl; cbn [ffill_from]; [constructor|].
  inversion Hl; subst. constructor; [apply orelse_in; assumption|]. apply IH; [apply orelse_in; assumption | assumption].
Qed.

Lemma ffill_in : forall S l, cells_in S l -> cells_in S (ffill l).
Proof. intros. apply ffill_from_in; [exact I | assumption]. Qed.

Lemma bfill_in : forall S l, cells_in S l -> cells_in S (bfill l).
Proof. intros S l H. unfold bfill. apply Forall_rev, ffill_in, Forall_rev, H. Qed.

Lemma zip_orelse_in : forall S row prev, cells_in S row -> cells_in S prev -> cells_in S (zip_orelse row prev).
Proof.
  intros S. induction row as [|x r IH]; intros prev Hr Hp; cbn [zip_orelse]; [constructor|].
  destruct prev as [|p q]; [assumption|]. inversion Hr; inversion Hp; subst.
  constructor; [apply orelse_in; assumption | apply IH; assumption].
Qed.

Lemma ffill_rows_from_in : forall S g prev, cells_in S prev -> grid_in S g -> grid_in S (ffill_rows_from prev g).
Proof.
  intros S. induction g as [|row rest IH]; intros prev Hp Hg; cbn [ffill_rows_from]; [constructor|].
  inversion Hg; subst. constructor; [apply zip_orelse_in; assumption|].
  apply IH; [apply zip_orelse_in; assumption | assumption].
Qed.

Lemma ffill_rows_in : forall S g, grid_in S g -> grid_in S (ffill_rows g).
Proof. intros. apply ffill_rows_from_in; [constructor | assumption]. Qed.

Lemma bfill_rows_in : forall S g, grid_in S g -> grid_in S (bfill_rows g).
Proof. intros S g H. unfold bfill_rows. apply Forall_rev, ffill_rows_in, Forall_rev, H. Qed.

Lemma fill_grid_in : forall S g, grid_in S g -> grid_in S (fill_grid g).
Proof.
  intros S g H. unfold fill_grid. apply bfill_rows_in, ffill_rows_in. unfold grid_in. rewrite !Forall_map.
  apply (Forall_impl _ (P := cells_in S)); [|exact H]. intros l Hl. apply bfill_in, ffill_in, Hl.
Qed.

Lemma unstack_in : forall t, grid_in (labels_of t) (unstack t).
Proof.
  intros t. unfold grid_in, unstack. rewrite Forall_map. apply Forall_forall. intros m _.
  unfold cells_in. rewrite Forall_map. apply Forall_forall. intros w _. apply get_lab_in.
Qed.

Lemma stack_row_in : forall S m ws row, cells_in S row -> rows_in S (stack_row m ws row).
Proof.
  intros S m. induction ws as [|w ws IH]; intros row Hr; [constructor|].
  destruct row as [|x row]; [constructor|]. inversion Hr; subst. cbn [stack_row].
  constructor; [assumption | apply IH; assumption].
Qed.

Lemma stack_in : forall S ws ms g, grid_in S g -> rows_in S (stack ms ws g).
Proof.
  intros S ws. induction ms as [|m ms IH]; intros g Hg; [constructor|].
  destruct g as [|row g]; [constructor|]. inversion Hg; subst. cbn [stack].
  apply Forall_app. split; [apply stack_row_in; assumption | apply IH; assumption].
Qed.

Lemma labels_fill_unstacked : forall t, incl (labels_of (fill_unstacked t)) (labels_of t).
Proof. intros t. unfold fill_unstacked. apply labels_incl, stack_in, fill_grid_in, unstack_in. Qed.
