(* C20: the two fields of [modelled_wsrc] that name a constant or a function of Model/Windows.v, each with the lemma
   ([_l]: it is a conjunct of C20_modelled_facts_nonvacuous in Properties/C20.v) that says which one.  The comparison
   field w_overshoot_tolerance_cmp is spelled out in C20.v (C20_overshoot_tolerance_test); the remaining fields
   are tied to the source only through C20_source_facts_are_the_modelled_ones. *)
From Coq Require Import ZArith List Bool.
From V Require Import Model.Windows Model.WindowsSrc.
Import ListNotations.
Open Scope Z_scope.

Lemma modelled_day_unit_l : day_ns (w_day_unit modelled_wsrc) = Some DAY.
Proof. reflexivity. Qed.

Definition lookup_fn (l : lookup) : list row -> Z -> option Z :=
  match l with Nearest => nearest | Pad => pad | Backfill => backfill end.

Lemma modelled_lookup_l : lookup_fn (w_boundary_lookup modelled_wsrc) = nearest.
Proof. reflexivity. Qed.
