(* Lemmas about Model/Refine.v (what happens to the optimiser's result before it is stored) at the real-number
   instance [RNumOf lo hi], for Properties/C12.v.
   The optimiser is not modelled: every statement quantifies over ALL raw vectors of the box.
   Conventions: ph, pc are smoothing fractions (what a KFullSmooth vector carries), hk, ck smoothing widths;
   lo hi are explicit arguments (C12.v puts in the package's constants), except in the four get_k branches of
   reduce_step ([rs_*_via_get_k], [rs_*_collapsed]) and in [stored_curve_refined], which are applied by giving hypotheses
   that fix them (the Arguments lines after Section Equations and after Section Readback). *)
From Coq Require Import Reals Lra List Bool Sorted Permutation Lia Arith.
From V Require Import Proofs.ListFacts Model.Num Model.NumR Model.DailyCurve Model.Refine Proofs.DailyCurveProofs.
Import ListNotations.
Local Open Scope R_scope.

(* the model's larger functions are used through their equations below, never through cbn *)
Local Arguments fix_full_model_x : simpl never.
Local Arguments get_full_model_x : simpl never.
Local Arguments get_smooth_coeffs : simpl never.
Local Arguments get_k : simpl never.
Local Arguments full_model1 : simpl never.

(* the comparisons of Model/NumR.v decided by a fact (NumR states them as equivalences) *)
Lemma Rltb_lt : forall a b : R, a < b -> Rltb a b = true.
Proof. intros a b. apply Rltb_true. Qed.
Lemma Rltb_ge : forall a b : R, b <= a -> Rltb a b = false.
Proof. intros a b. apply Rltb_false. Qed.
Lemma Reqb_eq : forall a b : R, a = b -> Reqb a b = true.
Proof. intros a b. apply Reqb_true. Qed.
Lemma Reqb_neq : forall a b : R, a <> b -> Reqb a b = false.
Proof. intros a b. apply Reqb_false. Qed.

Lemma Rlt_0_of_nonneg_ne : forall a : R, 0 <= a -> a <> 0 -> 0 < a.
Proof. intros a [H|H] Hn; [exact H | exfalso; apply Hn; symmetry; exact H]. Qed.

Lemma key_full_smooth_or_not : forall key : model_key, key = KFullSmooth \/ key <> KFullSmooth.
Proof. intros key. destruct key; [left; reflexivity | right; discriminate ..]. Qed.

(* what the functions of Model/Refine.v compute on the forms of input met below
   (get_full_model_x key by key and effective_x shape by shape are in Proofs/DailyCurveProofs.v: [gfx_..], [eff_..]) *)
Section Equations.
Variables lo hi : R.
Notation N := (RNumOf lo hi).

(* one row (lower, upper) of the optimiser's box through sort, fix_identical_bnds, clamp at 0 *)
Lemma sort_row_ordered : forall a b : R, a <= b -> sort_row N (a, b) = (a, b).
Proof. intros a b H. unfold sort_row. cbn. rewrite (Rltb_ge b a H). reflexivity. Qed.

Lemma sort_row_swapped : forall a b : R, b < a -> sort_row N (a, b) = (b, a).
Proof. intros a b H. unfold sort_row. cbn. rewrite (Rltb_lt b a H). reflexivity. Qed.

Lemma fix_identical_row_nondegenerate : forall r : R * R, fst r < snd r -> fix_identical_row N r = r.
Proof.
  intros [a b] H. unfold fix_identical_row. cbn [fst snd] in *. change (@n_eqb N a b) with (Reqb a b).
  rewrite (Reqb_neq a b) by lra. reflexivity.
Qed.

Lemma fix_identical_row_pinned : forall a : R, fix_identical_row N (a, a) = (a - oom_width N a, a + oom_width N a).
Proof.
  intros a. unfold fix_identical_row. cbn [fst snd]. change (@n_eqb N a a) with (Reqb a a).
  rewrite (Reqb_eq a a eq_refl). reflexivity.
Qed.

(* OoM_numba(0) = 1: a row pinned at 0 is widened to [-10, 10] *)
Lemma oom_width_zero : oom_width N 0 = 10.
Proof.
  unfold oom_width. change (@n_eqb N 0 n_zero) with (Reqb 0 0). rewrite (Reqb_eq 0 0 eq_refl).
  unfold n_ten, n_two. cbn. ring.
Qed.

Lemma proper_row_unchanged : forall a b : R, a < b -> fix_identical_row N (sort_row N (a, b)) = (a, b).
Proof.
  intros a b H. rewrite sort_row_ordered by lra. apply fix_identical_row_nondegenerate. exact H.
Qed.

(* fit_c_hdd_tidd: a balance point pinned by identical bounds stays pinned *)
Lemma keep_pinned_row : forall a b : R, a <= b ->
  keep_pinned N (a, b) (fix_identical_row N (sort_row N (a, b))) = (a, b).
Proof.
  intros a b H. unfold keep_pinned. cbn. unfold Reqb. destruct (Req_EM_T a b) as [E|E]; [reflexivity|].
  apply proper_row_unchanged. lra.
Qed.

Lemma clip_lower_0_neg : forall a b : R, a < 0 -> clip_lower_0 N (a, b) = (0, b).
Proof. intros a b H. unfold clip_lower_0. cbn. rewrite (Rltb_lt a 0 H). reflexivity. Qed.

Lemma clip_lower_0_id : forall a b : R, 0 <= a -> clip_lower_0 N (a, b) = (a, b).
Proof. intros a b H. unfold clip_lower_0. cbn. rewrite (Rltb_ge a 0 H). reflexivity. Qed.

Lemma clip_lower_0_nonneg : forall r : R * R, 0 <= fst (clip_lower_0 N r).
Proof.
  intros [a b]. destruct (Rlt_dec a 0) as [H|H].
  - rewrite clip_lower_0_neg by exact H. apply Rle_refl.
  - rewrite clip_lower_0_id by lra. cbn. lra.
Qed.

Lemma above_clipped_row : forall (r : R * R) (v : R), fst (clip_lower_0 N r) <= v <= snd (clip_lower_0 N r) -> 0 <= v.
Proof. intros r v [H _]. pose proof (clip_lower_0_nonneg r). lra. Qed.

(* in_box read as a proposition: on a box and a vector given row by row it computes to the conjunction of the bounds *)
Fixpoint inside (bs : list (R * R)) (xs : list R) : Prop :=
  match bs, xs with
  | [], [] => True
  | r :: bs, v :: xs => fst r <= v <= snd r /\ inside bs xs
  | _, _ => False
  end.

Lemma in_box_inside : forall bs xs, in_box N bs xs = true -> length xs = length bs /\ inside bs xs.
Proof.
  induction bs as [|[a b] bs IH]; intros [|v xs] H; cbn [in_box] in H; try discriminate; [split; [reflexivity | exact I]|].
  apply andb_true_iff in H. destruct H as [H H3]. apply andb_true_iff in H. destruct H as [H1 H2].
  destruct (IH xs H3) as [L I']. split; [cbn; f_equal; exact L|].
  split; [split; apply Rleb_true; assumption | exact I'].
Qed.

Lemma get_k_spec : forall hbp ph cbp pc Tminseg Tmaxseg : R, hbp <= cbp -> 0 <= ph -> 0 <= pc ->
  exists hbp' hk cbp' ck : R,
    get_k N hbp ph cbp pc Tminseg Tmaxseg = (hbp', hk, cbp', ck) /\
    hbp <= hbp' /\ hbp' <= cbp' /\ cbp' <= cbp /\ 0 <= hk /\ 0 <= ck /\
    (ph = 0 -> hk = 0) /\ (pc = 0 -> ck = 0).
Proof.
  intros hbp ph cbp pc Tminseg Tmaxseg Ho Hph Hpc. unfold get_k.
  destruct (smooth_coeffs_spec lo hi hbp ph cbp pc Ho Hph Hpc) as (hk & ck & Hs & S1 & S2 & S3 & Z1 & Z2 & _).
  rewrite Hs. cbn. unfold n_geb. cbn. unfold Rleb, Reqb.
  (* get_k only moves a balance point onto the other or zeroes a width: decide its tests, every branch is within the bounds *)
  repeat (match goal with
          | |- context [Rle_dec ?a ?b] => destruct (Rle_dec a b)
          | |- context [Req_EM_T ?a ?b] => destruct (Req_EM_T a b)
          end; cbn);
  do 4 eexists; (split; [reflexivity|]); repeat split; intros; try lra; auto.
Qed.

Lemma get_k_interior : forall hb ph cb pc Tminseg Tmaxseg : R, hb < Tmaxseg -> Tminseg < cb ->
  get_k N hb ph cb pc Tminseg Tmaxseg = get_smooth_coeffs N hb ph cb pc.
Proof.
  intros hb ph cb pc Tminseg Tmaxseg H1 H2. unfold get_k.
  destruct (get_smooth_coeffs N hb ph cb pc) as [[[a b] c] d].
  unfold n_geb. change (@n_leb N) with Rleb. unfold Rleb.
  destruct (Rle_dec Tmaxseg hb); [lra|]. destruct (Rle_dec cb Tminseg); [lra|]. reflexivity.
Qed.

(* fix_full_model_x swaps crossed balance points first *)
Lemma fix_swapped : forall hb hbeta hk cb cbeta ck i Tlo Thi : R, cb < hb ->
  fix_full_model_x N (mkfx N hb hbeta hk cb cbeta ck i) Tlo Thi =
  fix_full_model_x N (mkfx N cb cbeta ck hb hbeta hk i) Tlo Thi.
Proof.
  intros * Hc. unfold fix_full_model_x.
  replace (order_bps N (mkfx N hb hbeta hk cb cbeta ck i)) with (order_bps N (mkfx N cb cbeta ck hb hbeta hk i)); [reflexivity|].
  unfold order_bps, mkfx. cbn. rewrite (Rltb_lt cb hb Hc), (Rltb_ge hb cb) by lra. reflexivity.
Qed.

Lemma mkx_mkfx : mkx lo hi = mkfx N.
Proof. reflexivity. Qed.

(* named_coeffs = from_np_arrays after reduce_model after get_full_model_x *)
Lemma named_coeffs_unfold : forall key raw x (Tmin Tmax Tminseg Tmaxseg : R),
  get_full_model_x N key raw Tmin Tmax Tminseg Tmaxseg = Some x ->
  named_coeffs N key raw (Build_tconstr N Tmin Tmax Tminseg Tmaxseg) =
  match reduce_model N x Tminseg Tmaxseg key with Some (id, x') => from_np_arrays N id x' | None => None end.
Proof.
  intros key raw x Tmin Tmax Tminseg Tmaxseg H.
  unfold named_coeffs, refine. cbn [T_min T_max T_min_seg T_max_seg]. rewrite H. reflexivity.
Qed.

(* reduce_step, branch by branch: rs_<result>.  Where the input key matters: _other = any input key but KFullSmooth,
   _via_get_k = input key KFullSmooth (the fractions go through get_k), _collapsed = KFullSmooth and get_k leaves no width, so
   the vector is reduced once more.  x >= Tmaxseg ? Tmaxseg : x is Rmin Tmaxseg x, x <= Tminseg ? Tminseg : x is Rmax x Tminseg *)
Section Branches.
Variable rec : fullx N -> option (model_key * list R).
Variables hb hbeta ph cb cbeta pc i Tminseg Tmaxseg : R.
Notation x := (mkfx N hb hbeta ph cb cbeta pc i).

(* rewrite the tests [Reqb a 0] that a hypothesis decides *)
Ltac rq := repeat match goal with
  | H : ?a = 0 |- context [Reqb ?a 0] => rewrite (Reqb_eq a 0 H)
  | H : ?a <> 0 |- context [Reqb ?a 0] => rewrite (Reqb_neq a 0 H)
  | |- context [Reqb 0 0] => rewrite (Reqb_eq 0 0 eq_refl)
  end.

(* expose the tests of reduce_step on x and decide them *)
Ltac rs := unfold reduce_step, mkfx;
  cbn [x_hdd_bp x_hdd_beta x_hdd_k x_cdd_bp x_cdd_beta x_cdd_k x_intercept];
  unfold n_neqb; change (@n_eqb N) with Reqb; change (@n_zero N) with 0; rq; cbn [negb andb orb].

Lemma rs_full_smooth : forall key, hbeta <> 0 -> cbeta <> 0 -> (ph <> 0 \/ pc <> 0) ->
  reduce_step N rec x Tminseg Tmaxseg key = Some (KFullSmooth, [hb; hbeta; ph; cb; cbeta; pc; i]).
Proof.
  intros key H1 H2 [H3|H3]; rs.
  - destruct (Req_EM_T pc 0); rq; reflexivity.
  - reflexivity.
Qed.

Lemma rs_full : forall key, hbeta <> 0 -> cbeta <> 0 -> ph = 0 -> pc = 0 ->
  reduce_step N rec x Tminseg Tmaxseg key = Some (KFull, [hb; hbeta; cb; cbeta; i]).
Proof. intros key H1 H2 H3 H4. rs. reflexivity. Qed.

Lemma rs_heat_smooth_other : forall key, key <> KFullSmooth -> hbeta <> 0 -> cbeta = 0 -> ph <> 0 ->
  reduce_step N rec x Tminseg Tmaxseg key = Some (KCSmooth, [hb; - hbeta; ph; i]).
Proof. intros key Hk H1 H2 H3. rs. destruct key; try reflexivity. contradiction Hk; reflexivity. Qed.

Lemma rs_cool_smooth_other : forall key, key <> KFullSmooth -> hbeta = 0 -> cbeta <> 0 -> pc <> 0 ->
  reduce_step N rec x Tminseg Tmaxseg key = Some (KCSmooth, [cb; cbeta; pc; i]).
Proof. intros key Hk H1 H2 H3. rs. destruct key; try reflexivity. contradiction Hk; reflexivity. Qed.

(* under the smoothed two-sided key the fractions go through get_k; if no width is left the vector is reduced once more *)
Lemma rs_heat_smooth_via_get_k : forall hb' hk cb' ck, hbeta <> 0 -> cbeta = 0 -> ph <> 0 ->
  get_k N hb ph cb pc Tminseg Tmaxseg = (hb', hk, cb', ck) -> hk <> 0 ->
  reduce_step N rec x Tminseg Tmaxseg KFullSmooth = Some (KCSmooth, [hb'; - hbeta; hk; i]).
Proof. intros hb' hk cb' ck H1 H2 H3 Hg Hk. rs. rewrite Hg. rq. reflexivity. Qed.

Lemma rs_heat_collapsed : forall hb' cb', hbeta <> 0 -> cbeta = 0 -> ph <> 0 ->
  get_k N hb ph cb pc Tminseg Tmaxseg = (hb', 0, cb', 0) ->
  reduce_step N rec x Tminseg Tmaxseg KFullSmooth = rec (mkfx N hb' hbeta 0 cb' cbeta 0 i).
Proof. intros hb' cb' H1 H2 H3 Hg. rs. rewrite Hg. rq. reflexivity. Qed.

Lemma rs_cool_smooth_via_get_k : forall hb' hk cb' ck, hbeta = 0 -> cbeta <> 0 -> pc <> 0 ->
  get_k N hb ph cb pc Tminseg Tmaxseg = (hb', hk, cb', ck) -> ck <> 0 ->
  reduce_step N rec x Tminseg Tmaxseg KFullSmooth = Some (KCSmooth, [cb'; cbeta; ck; i]).
Proof. intros hb' hk cb' ck H1 H2 H3 Hg Hk. rs. rewrite Hg. rq. rewrite andb_false_r. reflexivity. Qed.

Lemma rs_cool_collapsed : forall hb' cb', hbeta = 0 -> cbeta <> 0 -> pc <> 0 ->
  get_k N hb ph cb pc Tminseg Tmaxseg = (hb', 0, cb', 0) ->
  reduce_step N rec x Tminseg Tmaxseg KFullSmooth = rec (mkfx N hb' hbeta 0 cb' cbeta 0 i).
Proof. intros hb' cb' H1 H2 H3 Hg. rs. rewrite Hg. rq. reflexivity. Qed.

Lemma rs_heat : forall key, hbeta <> 0 -> cbeta = 0 -> ph = 0 ->
  reduce_step N rec x Tminseg Tmaxseg key = Some (KC, [Rmin Tmaxseg hb; - hbeta; i]).
Proof.
  intros key H1 H2 H3. rs. unfold n_geb, Rmin. change (@n_leb N) with Rleb. unfold Rleb.
  destruct (Rle_dec Tmaxseg hb); reflexivity.
Qed.

Lemma rs_cool : forall key, hbeta = 0 -> cbeta <> 0 -> pc = 0 ->
  reduce_step N rec x Tminseg Tmaxseg key = Some (KC, [Rmax cb Tminseg; cbeta; i]).
Proof.
  intros key H1 H2 H3. rs. unfold Rmax. change (@n_leb N) with Rleb. unfold Rleb.
  destruct (Rle_dec cb Tminseg); reflexivity.
Qed.

Lemma rs_tidd : forall key, hbeta = 0 -> cbeta = 0 -> reduce_step N rec x Tminseg Tmaxseg key = Some (KTidd, [i]).
Proof.
  intros key H1 H2. rs.
  destruct (Req_EM_T ph 0); destruct (Req_EM_T pc 0); rq; cbn; reflexivity.
Qed.
End Branches.

(* from_<shape>: from_np_arrays layout by layout; a one-sided layout is read as heating or cooling by the sign of its slope *)
Lemma from_full_smooth : forall hb hbeta hk cb cbeta ck i : R, hb <= cb ->
  from_np_arrays N KFullSmooth [hb; hbeta; hk; cb; cbeta; ck; i] =
  Some (Build_coeffs N HddTiddCddSmooth i (Some hb) (Some hbeta) (Some hk) (Some cb) (Some cbeta) (Some ck)).
Proof. intros * H. cbn. rewrite (Rltb_ge cb hb H). reflexivity. Qed.

Lemma from_full : forall hb hbeta cb cbeta i : R, hb <= cb ->
  from_np_arrays N KFull [hb; hbeta; cb; cbeta; i] =
  Some (Build_coeffs N HddTiddCdd i (Some hb) (Some hbeta) None (Some cb) (Some cbeta) None).
Proof. intros * H. cbn. rewrite (Rltb_ge cb hb H). reflexivity. Qed.

Lemma from_heat_smooth : forall bp beta k i : R, beta < 0 ->
  from_np_arrays N KCSmooth [bp; beta; k; i] = Some (Build_coeffs N HddTiddSmooth i (Some bp) (Some beta) (Some k) None None None).
Proof. intros * H. cbn. rewrite (Rltb_lt beta 0 H). reflexivity. Qed.

Lemma from_cool_smooth : forall bp beta k i : R, 0 <= beta ->
  from_np_arrays N KCSmooth [bp; beta; k; i] = Some (Build_coeffs N TiddCddSmooth i None None None (Some bp) (Some beta) (Some k)).
Proof. intros * H. cbn. rewrite (Rltb_ge beta 0 H). reflexivity. Qed.

Lemma from_heat : forall bp beta i : R, beta < 0 ->
  from_np_arrays N KC [bp; beta; i] = Some (Build_coeffs N HddTidd i (Some bp) (Some beta) None None None None).
Proof. intros * H. cbn. rewrite (Rltb_lt beta 0 H). reflexivity. Qed.

Lemma from_cool : forall bp beta i : R, 0 <= beta ->
  from_np_arrays N KC [bp; beta; i] = Some (Build_coeffs N TiddCdd i None None None (Some bp) (Some beta) None).
Proof. intros * H. cbn. rewrite (Rltb_ge beta 0 H). reflexivity. Qed.
End Equations.

(* the four branches that go through get_k are used by giving the facts that select them *)
Arguments rs_heat_smooth_via_get_k {lo hi rec hb hbeta ph cb cbeta pc i Tminseg Tmaxseg hb' hk cb' ck}.
Arguments rs_heat_collapsed {lo hi rec hb hbeta ph cb cbeta pc i Tminseg Tmaxseg hb' cb'}.
Arguments rs_cool_smooth_via_get_k {lo hi rec hb hbeta ph cb cbeta pc i Tminseg Tmaxseg hb' hk cb' ck}.
Arguments rs_cool_collapsed {lo hi rec hb hbeta ph cb cbeta pc i Tminseg Tmaxseg hb' cb'}.

(* read-back: when do the kept coefficients describe the curve the optimiser scored? *)
Section Readback.
Variables lo hi : R.
Hypothesis Hlo : lo <= 0.
Hypothesis Hhi : 0 <= hi.
Notation N := (RNumOf lo hi).

Lemma good_mkfx : forall hb hbeta hk cb cbeta ck i : R,
  hb <= cb -> 0 <= hbeta -> 0 <= cbeta -> 0 <= hk -> 0 <= ck -> good lo hi (mkfx N hb hbeta hk cb cbeta ck i).
Proof. intros. unfold good, mkfx. cbn. repeat split; assumption. Qed.

(* same live sides: equal base load and slopes, and equal balance point and width wherever the slope is not zero *)
Definition same_sides (x y : fullx N) : Prop :=
  x_intercept x = x_intercept y /\
  x_hdd_beta x = x_hdd_beta y /\ (x_hdd_beta x <> 0 -> x_hdd_bp x = x_hdd_bp y /\ x_hdd_k x = x_hdd_k y) /\
  x_cdd_beta x = x_cdd_beta y /\ (x_cdd_beta x <> 0 -> x_cdd_bp x = x_cdd_bp y /\ x_cdd_k x = x_cdd_k y).

(* two sign-correct ordered vectors outside the corner with the same live sides have the same curve *)
Lemma same_sides_curve : forall (x y : fullx N) (Tmin Tmax T : R),
  good lo hi x -> good lo hi y -> x_cdd_bp x < Tmax -> x_cdd_bp y < Tmax -> same_sides x y ->
  full_model1 N x Tmin Tmax T = full_model1 N y Tmin Tmax T.
Proof.
  intros [a1 b1 k1 c1 d1 l1 i1] [a2 b2 k2 c2 d2 l2 i2] Tmin Tmax T
         (G1 & G2 & G3 & G4 & G5) (H1 & H2 & H3 & H4 & H5) O1 O2 (S0 & S1 & S2 & S3 & S4).
  cbn in *.
  pose proof (full_model1_curve lo hi Hlo Hhi a1 b1 k1 c1 d1 l1 i1 Tmin Tmax T G1 G2 G3 G4 G5) as P1.
  pose proof (full_model1_curve lo hi Hlo Hhi a2 b2 k2 c2 d2 l2 i2 Tmin Tmax T H1 H2 H3 H4 H5) as P2.
  unfold mkx in P1, P2. rewrite P1 by (left; intros; lra). rewrite P2 by (left; intros; lra).
  unfold curve. subst i2 b2 d2.
  assert (E1 : branch lo b1 k1 (pos (a1 - T)) = branch lo b1 k2 (pos (a2 - T))).
  { destruct (Req_EM_T b1 0) as [E|E]; [subst; rewrite !branch_zero_slope; reflexivity|].
    destruct (S2 E) as [-> ->]. reflexivity. }
  assert (E2 : branch lo d1 l1 (pos (T - c1)) = branch lo d1 l2 (pos (T - c2))).
  { destruct (Req_EM_T d1 0) as [E|E]; [subst; rewrite !branch_zero_slope; reflexivity|].
    destruct (S4 E) as [-> ->]. reflexivity. }
  rewrite E1, E2. reflexivity.
Qed.

Section Guarded.
Variables Tmin Tmax Tminseg Tmaxseg : R.
Notation tc := (Build_tconstr N Tmin Tmax Tminseg Tmaxseg).
Hypothesis HB : Tmin <= Tminseg /\ Tminseg <= Tmaxseg /\ Tmaxseg <= Tmax.

Lemma full_model1_flat : forall (x : fullx N) (T : R), x_hdd_beta x = 0 -> x_cdd_beta x = 0 ->
  full_model1 N x Tmin Tmax T = 1 * x_intercept x.
Proof.
  intros [hb hbeta hk cb cbeta ck i] T Hb Hc. cbn in Hb, Hc. subst hbeta cbeta.
  unfold full_model1. cbn. unfold Reqb. destruct (Req_EM_T 0 0); [reflexivity | lra].
Qed.

Lemma readback_via : forall key raw x id x' c y T v,
  get_full_model_x N key raw Tmin Tmax Tminseg Tmaxseg = Some x ->
  reduce_model N x Tminseg Tmaxseg key = Some (id, x') ->
  from_np_arrays N id x' = Some c -> effective_x N c tc = Some y ->
  full_model1 N y Tmin Tmax T = v ->
  stored_curve N key raw tc T = Some v.
Proof.
  intros * Hx Hr Hc Hy Hv. unfold stored_curve. erewrite named_coeffs_unfold by exact Hx. rewrite Hr, Hc.
  unfold predict_submodel. rewrite Hy. cbn. rewrite Hv. reflexivity.
Qed.

(* a side without slope does not matter: neither its balance point nor its smoothing width *)
Lemma dead_heating_side : forall hb1 k1 hb2 k2 cb cbeta ck i T : R,
  hb1 <= cb -> hb2 <= cb -> 0 <= k1 -> 0 <= k2 -> 0 <= cbeta -> 0 <= ck -> cb < Tmax ->
  full_model1 N (mkfx N hb1 0 k1 cb cbeta ck i) Tmin Tmax T = full_model1 N (mkfx N hb2 0 k2 cb cbeta ck i) Tmin Tmax T.
Proof.
  intros. apply same_sides_curve.
  - apply good_mkfx; lra.
  - apply good_mkfx; lra.
  - cbn. lra.
  - cbn. lra.
  - unfold same_sides, mkfx. cbn. repeat split; intros; try reflexivity; contradiction.
Qed.

Lemma dead_cooling_side : forall hb hbeta hk cb1 k1 cb2 k2 i T : R,
  hb <= cb1 -> hb <= cb2 -> 0 <= k1 -> 0 <= k2 -> 0 <= hbeta -> 0 <= hk -> cb1 < Tmax -> cb2 < Tmax ->
  full_model1 N (mkfx N hb hbeta hk cb1 0 k1 i) Tmin Tmax T = full_model1 N (mkfx N hb hbeta hk cb2 0 k2 i) Tmin Tmax T.
Proof.
  intros. apply same_sides_curve.
  - apply good_mkfx; lra.
  - apply good_mkfx; lra.
  - cbn. lra.
  - cbn. lra.
  - unfold same_sides, mkfx. cbn. repeat split; intros; try reflexivity; contradiction.
Qed.

(* the stored curve when reduce_model returns a one-sided result [r]: the kernel on any sign-correct vector whose live
   side is that result (the dead side is free).  The result is given in two steps, [.. = Some r] and [r = (KC, ..)], so
   that a caller can close the first by the [rs_*] equation as it stands and then bring its balance point (an Rmax / Rmin
   of the clamp) into the form the conclusion needs *)
Lemma stored_cool : forall key raw x r bp beta i hb k T,
  get_full_model_x N key raw Tmin Tmax Tminseg Tmaxseg = Some x -> reduce_model N x Tminseg Tmaxseg key = Some r ->
  r = (KC, [bp; beta; i]) -> 0 < beta -> Tminseg <= bp <= Tmaxseg -> bp < Tmax -> hb <= bp -> 0 <= k ->
  stored_curve N key raw tc T = Some (full_model1 N (mkfx N hb 0 k bp beta 0 i) Tmin Tmax T).
Proof.
  intros * Hx Hr -> Hb Hbp Hm Hh Hk.
  eapply readback_via; [exact Hx | exact Hr | apply from_cool; lra | apply eff_cool; lra | apply dead_heating_side; lra].
Qed.

Lemma stored_cool_smooth : forall key raw x r bp beta w i hb k T,
  get_full_model_x N key raw Tmin Tmax Tminseg Tmaxseg = Some x -> reduce_model N x Tminseg Tmaxseg key = Some r ->
  r = (KCSmooth, [bp; beta; w; i]) -> 0 < beta -> 0 <= w -> bp < Tmax -> hb <= bp -> 0 <= k ->
  stored_curve N key raw tc T = Some (full_model1 N (mkfx N hb 0 k bp beta w i) Tmin Tmax T).
Proof.
  intros * Hx Hr -> Hb Hw Hm Hh Hk.
  eapply readback_via; [exact Hx | exact Hr | apply from_cool_smooth; lra | apply eff_cool_smooth; exact Hb
                       | apply dead_heating_side; lra].
Qed.

Lemma stored_heat : forall key raw x r bp beta i cb k T,
  get_full_model_x N key raw Tmin Tmax Tminseg Tmaxseg = Some x -> reduce_model N x Tminseg Tmaxseg key = Some r ->
  r = (KC, [bp; - beta; i]) -> 0 < beta -> Tminseg <= bp <= Tmaxseg -> bp <= cb -> cb < Tmax -> 0 <= k ->
  stored_curve N key raw tc T = Some (full_model1 N (mkfx N bp beta 0 cb 0 k i) Tmin Tmax T).
Proof.
  intros * Hx Hr -> Hb Hbp Hh Hm Hk.
  eapply readback_via; [exact Hx | exact Hr | apply from_heat; lra | apply eff_heat; lra
                       | rewrite Ropp_involutive; apply dead_cooling_side; lra].
Qed.

Lemma stored_heat_smooth : forall key raw x r bp beta w i cb k T,
  get_full_model_x N key raw Tmin Tmax Tminseg Tmaxseg = Some x -> reduce_model N x Tminseg Tmaxseg key = Some r ->
  r = (KCSmooth, [bp; - beta; w; i]) -> 0 < beta -> 0 <= w -> bp <= cb -> cb < Tmax -> 0 <= k ->
  stored_curve N key raw tc T = Some (full_model1 N (mkfx N bp beta w cb 0 k i) Tmin Tmax T).
Proof.
  intros * Hx Hr -> Hb Hw Hh Hm Hk.
  eapply readback_via; [exact Hx | exact Hr | apply from_heat_smooth; lra | apply eff_heat_smooth; lra
                       | rewrite Ropp_involutive; apply dead_cooling_side; lra].
Qed.

(* the stored curve is the kernel on the vector get_full_model_x returned, whenever that vector is ordered, sign-correct,
   strictly inside the segment range and smoothed on one side at most (hk, ck are widths; under KFullSmooth the vector
   carries fractions instead, and the lemma applies when both are zero) *)
Lemma stored_curve_refined : forall key raw hb hbeta hk cb cbeta ck i T,
  get_full_model_x N key raw Tmin Tmax Tminseg Tmaxseg = Some (mkfx N hb hbeta hk cb cbeta ck i) ->
  (key = KFullSmooth -> hk = 0 /\ ck = 0) ->
  Tminseg < hb -> hb <= cb -> cb < Tmaxseg -> 0 <= hbeta -> 0 <= cbeta -> 0 <= hk -> 0 <= ck ->
  (hbeta = 0 -> hk = 0) -> (cbeta = 0 -> ck = 0) -> (hbeta = 0 \/ cbeta = 0 \/ (hk = 0 /\ ck = 0)) ->
  stored_curve N key raw tc T = Some (full_model1 N (mkfx N hb hbeta hk cb cbeta ck i) Tmin Tmax T).
Proof.
  intros key raw hb hbeta hk cb cbeta ck i T Hx Hkey G1 G2 G3 B1 B2 P1 P2 Z1 Z2 Hone.
  destruct HB as (HB1 & HB2 & HB3).
  destruct (Req_EM_T hbeta 0) as [Eh|Eh]; destruct (Req_EM_T cbeta 0) as [Ec|Ec].
  - eapply readback_via; [exact Hx | apply rs_tidd; assumption | reflexivity | apply eff_tidd; reflexivity |].
    subst hbeta cbeta. rewrite !full_model1_flat by reflexivity. reflexivity.
  - assert (hk = 0) by auto. subst hbeta hk. assert (Pc : 0 < cbeta) by (apply Rlt_0_of_nonneg_ne; assumption).
    destruct (Req_EM_T ck 0) as [Ek|Ek].
    + subst ck. eapply stored_cool; [exact Hx | apply rs_cool; auto | rewrite Rmax_left by lra; reflexivity | lra ..].
    + assert (key <> KFullSmooth) by (intros E; apply Ek, Hkey, E).
      eapply stored_cool_smooth; [exact Hx | apply rs_cool_smooth_other; auto | reflexivity | lra ..].
  - assert (ck = 0) by auto. subst cbeta ck. assert (Ph : 0 < hbeta) by (apply Rlt_0_of_nonneg_ne; assumption).
    destruct (Req_EM_T hk 0) as [Ek|Ek].
    + subst hk. eapply stored_heat; [exact Hx | apply rs_heat; auto | rewrite Rmin_right by lra; reflexivity | lra ..].
    + assert (key <> KFullSmooth) by (intros E; apply Ek, Hkey, E).
      eapply stored_heat_smooth; [exact Hx | apply rs_heat_smooth_other; auto | reflexivity | lra ..].
  - destruct Hone as [E|[E|[E1 E2]]]; try contradiction. subst hk ck.
    eapply readback_via; [exact Hx | apply rs_full; auto | apply from_full; exact G2
                         | apply eff_full; [exact G2 | right; lra] | reflexivity].
Qed.

(* smoothed two-sided layout, optimiser's balance points ordered and strictly inside the segment range: the vector
   carries fractions ph, pc; beyond [stored_curve_refined] remain the cases where one of them is not zero *)
Theorem readback_full_smooth : forall hb hbeta ph cb cbeta pc i T : R,
  Tminseg < hb -> hb <= cb -> cb < Tmaxseg -> 0 <= hbeta -> 0 <= cbeta -> 0 <= ph -> 0 <= pc ->
  (hbeta = 0 -> ph = 0) -> (cbeta = 0 -> pc = 0) ->
  stored_curve N KFullSmooth [hb; hbeta; ph; cb; cbeta; pc; i] tc T =
  scored_curve N KFullSmooth [hb; hbeta; ph; cb; cbeta; pc; i] tc T.
Proof.
  intros hb hbeta ph cb cbeta pc i T G1 G2 G3 B1 B2 P1 P2 Z1 Z2.
  assert (Hint : hb = cb \/ (Tmin < hb /\ cb < Tmax)) by (right; lra).
  destruct (smooth_coeffs_spec lo hi hb ph cb pc G2 P1 P2) as (hk & ck & Hs & S1 & S2 & S3 & Y1 & Y2 & _).
  unfold scored_curve, scored_x. rewrite Hs. cbn [T_min T_max].
  assert (Hx : get_full_model_x N KFullSmooth [hb; hbeta; ph; cb; cbeta; pc; i] Tmin Tmax Tminseg Tmaxseg =
               Some (mkfx N hb hbeta ph cb cbeta pc i)).
  { rewrite gfx_full_smooth, fix_identity by assumption. reflexivity. }
  assert (Hgk : get_k N hb ph cb pc Tminseg Tmaxseg = (hb + hk, hk, cb - ck, ck))
    by (rewrite get_k_interior by lra; exact Hs).
  assert (Hsmooth : hbeta <> 0 -> cbeta <> 0 -> ph <> 0 \/ pc <> 0 ->
            stored_curve N KFullSmooth [hb; hbeta; ph; cb; cbeta; pc; i] tc T =
            Some (full_model1 N (mkfx N (hb + hk) hbeta hk (cb - ck) cbeta ck i) Tmin Tmax T)).
  { intros Eh Ec Ek.
    eapply readback_via; [exact Hx | apply rs_full_smooth; assumption | apply from_full_smooth; exact G2
                         | eapply eff_full_smooth; [exact G2 | exact Hint | exact Z1 | exact Z2 | exact Hs] | reflexivity]. }
  destruct (Req_EM_T ph 0) as [Ek|Ek]; [destruct (Req_EM_T pc 0) as [Ek'|Ek']|].
  - subst ph pc. rewrite (Y1 eq_refl), (Y2 eq_refl), Rplus_0_r, Rminus_0_r.
    apply stored_curve_refined; auto.
  - assert (Ec : cbeta <> 0) by auto. destruct (Req_EM_T hbeta 0) as [Eh|Eh]; [|apply Hsmooth; auto].
    (* cooling only *)
    subst hbeta ph. assert (hk = 0) by auto. subst hk. assert (Pc : 0 < cbeta) by (apply Rlt_0_of_nonneg_ne; assumption).
    destruct (Req_EM_T ck 0) as [Ek2|Ek2].
    + subst ck.
      eapply stored_cool; [exact Hx | unfold reduce_model; rewrite (rs_cool_collapsed eq_refl Ec Ek' Hgk); apply rs_cool; auto
                          | rewrite Rmax_left by lra; reflexivity | lra ..].
    + eapply stored_cool_smooth; [exact Hx | apply (rs_cool_smooth_via_get_k eq_refl Ec Ek' Hgk Ek2) | reflexivity | lra ..].
  - assert (Eh : hbeta <> 0) by auto. destruct (Req_EM_T cbeta 0) as [Ec|Ec]; [|apply Hsmooth; auto].
    (* heating only *)
    assert (pc = 0) by auto. subst cbeta pc. assert (ck = 0) by auto. subst ck.
    assert (Ph : 0 < hbeta) by (apply Rlt_0_of_nonneg_ne; assumption).
    destruct (Req_EM_T hk 0) as [Ek2|Ek2].
    + subst hk.
      eapply stored_heat; [exact Hx | unfold reduce_model; rewrite (rs_heat_collapsed Eh eq_refl Ek Hgk); apply rs_heat; auto
                          | rewrite Rmin_right by lra; reflexivity | lra ..].
    + eapply stored_heat_smooth; [exact Hx | apply (rs_heat_smooth_via_get_k Eh eq_refl Ek Hgk Ek2) | reflexivity | lra ..].
Qed.
End Guarded.

End Readback.

Arguments stored_curve_refined {lo hi} Hlo Hhi {Tmin Tmax Tminseg Tmaxseg} HB {key raw hb hbeta hk cb cbeta ck i} T Hx.

Section RefineFacts.
Variables lo hi : R.
Hypothesis Hlo : lo <= 0.
Hypothesis Hhi : 0 <= hi.
Notation N := (RNumOf lo hi).

(* [wellformed]: the list of conditions in the property text (C12), on one stored sub-model *)
Section WF.
Variables Tmin Tmax Tminseg Tmaxseg : R.
Notation tc := (Build_tconstr N Tmin Tmax Tminseg Tmaxseg).
Variables qlo qhi : R.

Definition wellformed (c : coeffs N) : Prop :=
  qlo <= intercept c <= qhi /\
  match model_type c, hdd_bp c, hdd_beta c, hdd_k c, cdd_bp c, cdd_beta c, cdd_k c with
  | HddTiddCddSmooth, Some hb, Some hbeta, Some hk, Some cb, Some cbeta, Some ck =>
      T_min tc <= hb /\ hb <= cb /\ cb <= T_max tc /\ 0 < hbeta /\ 0 < cbeta /\ 0 <= hk /\ 0 <= ck /\ (hk <> 0 \/ ck <> 0)
  | HddTiddCdd, Some hb, Some hbeta, None, Some cb, Some cbeta, None =>
      T_min tc <= hb /\ hb <= cb /\ cb <= T_max tc /\ 0 < hbeta /\ 0 < cbeta
  | HddTiddSmooth, Some hb, Some hbeta, Some hk, None, None, None =>
      T_min tc <= hb <= T_max tc /\ hbeta < 0 /\ 0 < hk
  | TiddCddSmooth, None, None, None, Some cb, Some cbeta, Some ck =>
      T_min tc <= cb <= T_max tc /\ 0 < cbeta /\ 0 < ck
  | HddTidd, Some hb, Some hbeta, None, None, None, None => T_min tc <= hb <= T_max_seg tc /\ hbeta < 0
  | TiddCdd, None, None, None, Some cb, Some cbeta, None => T_min_seg tc <= cb <= T_max tc /\ 0 < cbeta
  | Tidd, None, None, None, None, None, None => True
  | _, _, _, _, _, _, _ => False
  end.

(* the 7-vector after get_full_model_x, for a raw vector of the box *)
Definition fixed_ok (x : fullx N) : Prop :=
  x_hdd_bp x <= x_cdd_bp x /\
  ((x_hdd_beta x <> 0 \/ x_cdd_beta x <> 0) -> T_min tc <= x_hdd_bp x /\ x_cdd_bp x <= T_max tc) /\
  0 <= x_hdd_beta x /\ 0 <= x_cdd_beta x /\ 0 <= x_hdd_k x /\ 0 <= x_cdd_k x /\
  (x_hdd_beta x = 0 -> x_hdd_k x = 0) /\ (x_cdd_beta x = 0 -> x_cdd_k x = 0) /\
  qlo <= x_intercept x <= qhi.

Definition wellformed_result (r : option (model_key * list R)) : Prop :=
  exists id x' c, r = Some (id, x') /\ from_np_arrays N id x' = Some c /\ wellformed c.

Lemma wellformed_result_of : forall id x' c, from_np_arrays N id x' = Some c -> wellformed c -> wellformed_result (Some (id, x')).
Proof. intros id x' c H W. exists id, x', c. auto. Qed.

Hypothesis Hb : bounds_ok lo hi tc.

(* every branch of reduce_model stores a well-formed document ([wellformed]): slopes that survive are non-zero, a smoothing width that
   survives is non-zero, a one-sided balance point ends inside the segment range on the side that matters *)
Lemma reduce_model_ok : forall (key : model_key) (x : fullx N), fixed_ok x ->
  wellformed_result (reduce_model N x Tminseg Tmaxseg key).
Proof.
  intros key [hb hbeta ph cb cbeta pc i] (F1 & F2 & F3 & F4 & F5 & F6 & F7 & F8 & F9).
  cbn in F1, F2, F3, F4, F5, F6, F7, F8, F9. destruct Hb as (B1 & B2 & B3). cbn in B1, B2, B3.
  change (Build_fullx N hb hbeta ph cb cbeta pc i) with (mkfx N hb hbeta ph cb cbeta pc i). unfold reduce_model.
  destruct (Req_EM_T hbeta 0) as [Eh|Eh]; destruct (Req_EM_T cbeta 0) as [Ec|Ec].
  - rewrite rs_tidd by assumption. eapply wellformed_result_of; [reflexivity|]. split; [exact F9 | exact I].
  - (* cooling only *)
    destruct (F2 (or_intror Ec)) as [R1 R2]. pose proof (Rlt_0_of_nonneg_ne cbeta F4 Ec) as Pc.
    assert (Hcool : forall bp, bp <= cb -> wellformed_result (Some (KC, [Rmax bp Tminseg; cbeta; i]))).
    { intros bp Hbp. eapply wellformed_result_of; [apply from_cool; lra|]. split; [exact F9|]. cbn.
      unfold Rmax. destruct (Rle_dec bp Tminseg); lra. }
    assert (Hsmooth : forall bp k, hb <= bp <= cb -> 0 <= k -> k <> 0 -> wellformed_result (Some (KCSmooth, [bp; cbeta; k; i]))).
    { intros bp k Hbp K0 K1. eapply wellformed_result_of; [apply from_cool_smooth; lra|]. split; [exact F9|]. cbn.
      pose proof (Rlt_0_of_nonneg_ne k K0 K1). lra. }
    destruct (Req_EM_T pc 0) as [Ek|Ek]; [rewrite rs_cool by assumption; apply Hcool; lra|].
    destruct (key_full_smooth_or_not key) as [->|Hkey]; [|rewrite rs_cool_smooth_other by assumption; apply Hsmooth; lra].
    destruct (get_k_spec lo hi hb ph cb pc Tminseg Tmaxseg F1 F5 F6) as (hb' & hk & cb' & ck & Hg & G1 & G2 & G3 & G4 & G5 & G6 & G7).
    assert (hk = 0) by auto. subst hk.
    destruct (Req_EM_T ck 0) as [->|Ek2].
    + rewrite (rs_cool_collapsed Eh Ec Ek Hg), rs_cool by auto. apply Hcool; lra.
    + rewrite (rs_cool_smooth_via_get_k Eh Ec Ek Hg Ek2). apply Hsmooth; lra.
  - (* heating only *)
    destruct (F2 (or_introl Eh)) as [R1 R2]. pose proof (Rlt_0_of_nonneg_ne hbeta F3 Eh) as Ph.
    assert (Hheat : forall bp, hb <= bp -> wellformed_result (Some (KC, [Rmin Tmaxseg bp; - hbeta; i]))).
    { intros bp Hbp. eapply wellformed_result_of; [apply from_heat; lra|]. split; [exact F9|]. cbn.
      unfold Rmin. destruct (Rle_dec Tmaxseg bp); lra. }
    assert (Hsmooth : forall bp k, hb <= bp <= cb -> 0 <= k -> k <> 0 -> wellformed_result (Some (KCSmooth, [bp; - hbeta; k; i]))).
    { intros bp k Hbp K0 K1. eapply wellformed_result_of; [apply from_heat_smooth; lra|]. split; [exact F9|]. cbn.
      pose proof (Rlt_0_of_nonneg_ne k K0 K1). lra. }
    destruct (Req_EM_T ph 0) as [Ek|Ek]; [rewrite rs_heat by assumption; apply Hheat; lra|].
    destruct (key_full_smooth_or_not key) as [->|Hkey]; [|rewrite rs_heat_smooth_other by assumption; apply Hsmooth; lra].
    destruct (get_k_spec lo hi hb ph cb pc Tminseg Tmaxseg F1 F5 F6) as (hb' & hk & cb' & ck & Hg & G1 & G2 & G3 & G4 & G5 & G6 & G7).
    assert (ck = 0) by auto. subst ck.
    destruct (Req_EM_T hk 0) as [->|Ek2].
    + rewrite (rs_heat_collapsed Eh Ec Ek Hg), rs_heat by auto. apply Hheat; lra.
    + rewrite (rs_heat_smooth_via_get_k Eh Ec Ek Hg Ek2). apply Hsmooth; lra.
  - (* both slopes *)
    destruct (F2 (or_introl Eh)) as [R1 R2]. pose proof (Rlt_0_of_nonneg_ne hbeta F3 Eh) as Ph. pose proof (Rlt_0_of_nonneg_ne cbeta F4 Ec) as Pc.
    assert (D : (ph = 0 /\ pc = 0) \/ (ph <> 0 \/ pc <> 0)) by (destruct (Req_EM_T ph 0), (Req_EM_T pc 0); auto).
    destruct D as [[Ek Ek']|Ek].
    + rewrite rs_full by assumption. eapply wellformed_result_of; [apply from_full; exact F1|]. split; [exact F9|]. cbn. lra.
    + rewrite rs_full_smooth by assumption. eapply wellformed_result_of; [apply from_full_smooth; exact F1|]. split; [exact F9|]. cbn.
      repeat split; lra.
Qed.

(* the box of the fit functions (widest form: balance points anywhere in the observed range) *)
Definition box_spec (key : model_key) (raw : list R) : Prop :=
  match key, raw with
  | KFullSmooth, [hb; hbeta; ph; cb; cbeta; pc; i] =>
      Tmin <= hb <= Tmax /\ Tmin <= cb <= Tmax /\ 0 <= hbeta /\ 0 <= cbeta /\ 0 <= ph /\ 0 <= pc /\ qlo <= i <= qhi
  | KFull, [hb; hbeta; cb; cbeta; i] =>
      Tmin <= hb <= Tmax /\ Tmin <= cb <= Tmax /\ 0 <= hbeta /\ 0 <= cbeta /\ qlo <= i <= qhi
  | KCSmooth, [bp; beta; k; i] => Tmin <= bp <= Tmax /\ 0 <= k /\ qlo <= i <= qhi
  | KC, [bp; beta; i] => Tmin <= bp <= Tmax /\ qlo <= i <= qhi
  | KTidd, [i] => qlo <= i <= qhi
  | _, _ => False
  end.

(* fix_full_model_x on any sign-correct vector whose live balance points lie in the observed range *)
Lemma fix_ok_ordered : forall hb hbeta hk cb cbeta ck i : R, hb <= cb ->
  0 <= hbeta -> 0 <= cbeta -> 0 <= hk -> 0 <= ck -> qlo <= i <= qhi ->
  ((hbeta <> 0 \/ cbeta <> 0) -> Tmin <= hb /\ cb <= Tmax) ->
  fixed_ok (fix_full_model_x N (mkfx N hb hbeta hk cb cbeta ck i) Tmin Tmax).
Proof.
  intros * Ho H1 H2 H3 H4 Hi Hr.
  destruct (fix_on_ordered lo hi hb hbeta hk cb cbeta ck i Tmin Tmax Ho) as (b1 & k1 & b2 & k2 & Hf & F).
  destruct (kept_signs F H1 H2 H3 H4) as (P1 & P2 & [K1 _] & [K2 _]).
  rewrite (mkx_mkfx lo hi) in Hf. rewrite Hf. unfold fixed_ok, mkfx. cbn.
  pose proof (dead_hk F) as Z1. pose proof (dead_ck F) as Z2.
  (* a slope that survives was there before *)
  assert (Hr' : b1 <> 0 \/ b2 <> 0 -> Tmin <= hb /\ cb <= Tmax).
  { intros [Hn|Hn]; apply Hr; [left; destruct (kept_hbeta F); congruence | right; destruct (kept_cbeta F); congruence]. }
  split; [exact Ho|]. split; [exact Hr'|]. repeat split; try assumption; lra.
Qed.

Lemma fix_ok : forall hb hbeta hk cb cbeta ck i : R,
  0 <= hbeta -> 0 <= cbeta -> 0 <= hk -> 0 <= ck -> qlo <= i <= qhi ->
  ((hbeta <> 0 \/ cbeta <> 0) -> Tmin <= hb <= Tmax /\ Tmin <= cb <= Tmax) ->
  fixed_ok (fix_full_model_x N (mkfx N hb hbeta hk cb cbeta ck i) Tmin Tmax).
Proof.
  intros * H1 H2 H3 H4 Hi Hr. destruct (Rlt_dec cb hb) as [Hc|Hc].
  - rewrite fix_swapped by exact Hc. apply fix_ok_ordered; try assumption; [lra|].
    intros Hn. apply or_comm in Hn. destruct (Hr Hn) as [Ha Hb']. lra.
  - apply fix_ok_ordered; try assumption; [lra|].
    intros Hn. destruct (Hr Hn) as [Ha Hb']. lra.
Qed.

Lemma get_full_model_x_ok : forall key raw, box_spec key raw ->
  exists x, get_full_model_x N key raw Tmin Tmax Tminseg Tmaxseg = Some x /\ fixed_ok x.
Proof.
  intros key raw B. destruct Hb as (B1 & B2 & B3). cbn in B1, B2, B3.
  destruct key; cbn in B.
  - destruct raw as [|hb [|hbeta [|ph [|cb [|cbeta [|pc [|i [|]]]]]]]]; try contradiction.
    rewrite gfx_full_smooth. eexists. split; [reflexivity|]. apply fix_ok; lra.
  - destruct raw as [|hb [|hbeta [|cb [|cbeta [|i [|]]]]]]; try contradiction.
    rewrite gfx_full. eexists. split; [reflexivity|]. apply fix_ok; lra.
  - destruct raw as [|bp [|beta [|k [|i [|]]]]]; try contradiction.
    rewrite gfx_c_smooth. eexists. split; [reflexivity|].
    destruct (Rltb beta 0) eqn:E; [apply Rltb_true in E | apply Rltb_false in E]; apply fix_ok; lra.
  - destruct raw as [|bp [|beta [|i [|]]]]; try contradiction.
    rewrite gfx_c. eexists. split; [reflexivity|]. pose proof (clamp_range Tminseg Tmaxseg bp B2).
    destruct (Rltb beta 0) eqn:E; [apply Rltb_true in E | apply Rltb_false in E]; apply fix_ok; lra.
  - destruct raw as [|i [|]]; try contradiction.
    rewrite gfx_tidd. eexists. split; [reflexivity|].
    unfold fixed_ok, mkfx. cbn. repeat split; lra.
Qed.

(* C12: the stored sub-model of ANY optimiser outcome inside the box is well formed ([wellformed]; not the predicate
   [admissible] of DailyCurveProofs, which bounds the balance points by the segment range) *)
Theorem refine_admissible : forall key raw, box_spec key raw ->
  exists c, named_coeffs N key raw tc = Some c /\ wellformed c.
Proof.
  intros key raw B. destruct (get_full_model_x_ok key raw B) as (x & Hx & F).
  destruct (reduce_model_ok key x F) as (id & x' & c & Hr & Hc & W).
  exists c. split; [|exact W]. erewrite named_coeffs_unfold by exact Hx. rewrite Hr. exact Hc.
Qed.

(* the pinned one-sided balance point (fit_c_hdd_tidd gives the optimiser the degenerate bounds
   [T_max, T_max] for a building that heats over its whole range; reduce_model stores T_max_seg instead) *)

(* what the optimiser scored: the heating line through (T_max, intercept), on both sides *)
Lemma pinned_scored : forall beta i T : R, beta < 0 ->
  scored_curve N KC [Tmax; beta; i] tc T = Some (i + - beta * (Tmax - T)).
Proof.
  intros beta i T Hbeta. unfold scored_curve, scored_x. change (@n_zero N) with 0.
  change (@n_ltb N beta 0) with (Rltb beta 0). rewrite (Rltb_lt beta 0 Hbeta).
  cbn [T_min T_max]. f_equal. change (@n_opp N beta) with (- beta).
  apply (full_model1_corner_unsmoothed lo hi Tmax (- beta) 0 0 i Tmin Tmax T (Rle_refl _)). lra.
Qed.

(* what is stored: a hinge at T_max_seg with the same intercept *)
Lemma pinned_stored : forall beta i T : R, beta < 0 -> Tmin <= Tminseg -> Tminseg <= Tmaxseg -> Tmaxseg < Tmax ->
  stored_curve N KC [Tmax; beta; i] tc T = Some (i + - beta * pos (Tmaxseg - T)).
Proof.
  intros beta i T Hbeta S0 S1 S2. eapply (readback_via lo hi) with (x := mkfx N Tmaxseg (- beta) 0 Tmaxseg 0 0 i).
  - rewrite gfx_c, clamp_above, (Rltb_lt beta 0 Hbeta), fix_identity_one_bp by first [reflexivity | lra].
    reflexivity.
  - unfold reduce_model. rewrite rs_heat, Rmin_left by first [reflexivity | lra]. reflexivity.
  - apply from_heat. lra.
  - apply eff_heat; lra.
  - rewrite !Ropp_involutive.
    etransitivity; [apply (full_model1_curve lo hi Hlo Hhi); try lra; left; intros; lra|].
    unfold curve. rewrite !branch_k0. change (carrier N) with R. ring.
Qed.

(* hence on the fitted days at or below T_max_seg the stored curve is the scored one shifted down by a constant *)
Theorem pinned_readback : forall beta i T : R, beta < 0 -> Tmin <= Tminseg -> Tminseg <= Tmaxseg -> Tmaxseg < Tmax ->
  T <= Tmaxseg ->
  exists sc st, scored_curve N KC [Tmax; beta; i] tc T = Some sc /\ stored_curve N KC [Tmax; beta; i] tc T = Some st /\
                sc - st = - beta * (Tmax - Tmaxseg) /\ 0 < sc - st.
Proof using Hlo Hhi Hb.
  intros beta i T Hbeta S0 S1 S2 HT.
  exists (i + - beta * (Tmax - T)), (i + - beta * pos (Tmaxseg - T)).
  split; [apply pinned_scored; exact Hbeta|]. split; [apply pinned_stored; assumption|].
  rewrite pos_of_nonneg by lra.
  assert (0 < - beta * (Tmax - Tmaxseg)) by (apply Rmult_lt_0_compat; lra).
  split; [ring | lra].
Qed.
End WF.
End RefineFacts.

Section Idem.
Variables lo hi : R.
Notation N := (RNumOf lo hi).
Variables Tmin Tmax Tminseg Tmaxseg : R.
Notation tc := (Build_tconstr N Tmin Tmax Tminseg Tmaxseg).

(* a stored document on which OptimizedResult's refinement has nothing left to do *)
Definition stable (c : coeffs N) : Prop :=
  match model_type c, hdd_bp c, hdd_beta c, hdd_k c, cdd_bp c, cdd_beta c, cdd_k c with
  | HddTiddCddSmooth, Some hb, Some hbeta, Some hk, Some cb, Some cbeta, Some ck =>
      hb <= cb /\ (hb = cb \/ (Tmin < hb /\ cb < Tmax)) /\ 0 < hbeta /\ 0 < cbeta /\ (hk <> 0 \/ ck <> 0)
  | HddTiddCdd, Some hb, Some hbeta, None, Some cb, Some cbeta, None =>
      hb <= cb /\ (hb = cb \/ (Tmin < hb /\ cb < Tmax)) /\ 0 < hbeta /\ 0 < cbeta
  | HddTiddSmooth, Some hb, Some hbeta, Some hk, None, None, None => hbeta < 0 /\ hk <> 0
  | TiddCddSmooth, None, None, None, Some cb, Some cbeta, Some ck => 0 < cbeta /\ ck <> 0
  | HddTidd, Some hb, Some hbeta, None, None, None, None => hbeta < 0 /\ Tminseg <= hb < Tmaxseg
  | TiddCdd, None, None, None, Some cb, Some cbeta, None => 0 < cbeta /\ Tminseg < cb <= Tmaxseg
  | Tidd, None, None, None, None, None, None => True
  | _, _, _, _, _, _, _ => False
  end.

Theorem refine_idempotent : forall c, stable c ->
  exists arr, to_np_array N c = Some arr /\ named_coeffs N (key_of_shape (model_type c)) arr tc = Some c.
Proof.
  intros [s i hb hbeta hk cb cbeta ck] S. unfold stable in S. cbn in S.
  (* a field the shape does not allow makes [stable] False at once: 7 live cases, one per shape *)
  destruct s; destruct hb as [hb|]; try contradiction; destruct hbeta as [hbeta|]; try contradiction;
    destruct hk as [hk|]; try contradiction; destruct cb as [cb|]; try contradiction;
    destruct cbeta as [cbeta|]; try contradiction; destruct ck as [ck|]; try contradiction;
    cbn [model_type key_of_shape]; eexists; (split; [reflexivity|]); cbn [intercept].
  - destruct S as (S1 & S2 & S3 & S4 & S5).
    erewrite named_coeffs_unfold by (rewrite gfx_full_smooth, fix_identity by (cbn; auto; intros; lra); reflexivity).
    unfold reduce_model. rewrite (mkx_mkfx lo hi), rs_full_smooth by first [assumption | lra]. apply from_full_smooth. exact S1.
  - destruct S as (S1 & S2 & S3 & S4).
    erewrite named_coeffs_unfold by (rewrite gfx_full, fix_identity by auto; reflexivity).
    unfold reduce_model. rewrite (mkx_mkfx lo hi), rs_full by first [reflexivity | lra]. apply from_full. exact S1.
  - destruct S as (S1 & S2).
    erewrite named_coeffs_unfold
      by (rewrite gfx_c_smooth, (Rltb_lt hbeta 0 S1), fix_identity_one_bp by (intros; lra); reflexivity).
    unfold reduce_model. rewrite (mkx_mkfx lo hi), rs_heat_smooth_other by first [assumption | reflexivity | discriminate | lra].
    rewrite Ropp_involutive. apply from_heat_smooth. exact S1.
  - destruct S as (S1 & S2).
    erewrite named_coeffs_unfold
      by (rewrite gfx_c_smooth, (Rltb_ge cbeta 0), fix_identity_one_bp by (intros; lra); reflexivity).
    unfold reduce_model. rewrite (mkx_mkfx lo hi), rs_cool_smooth_other by first [assumption | reflexivity | discriminate | lra].
    apply from_cool_smooth. lra.
  - destruct S as (S1 & S2).
    erewrite named_coeffs_unfold
      by (rewrite gfx_c, clamp_inside, (Rltb_lt hbeta 0 S1), fix_identity_one_bp by first [reflexivity | lra];
          reflexivity).
    unfold reduce_model. rewrite (mkx_mkfx lo hi), rs_heat, Rmin_right by first [reflexivity | lra].
    rewrite Ropp_involutive. apply from_heat. exact S1.
  - destruct S as (S1 & S2).
    erewrite named_coeffs_unfold
      by (rewrite gfx_c, clamp_inside, (Rltb_ge cbeta 0), fix_identity_one_bp by first [reflexivity | lra];
          reflexivity).
    unfold reduce_model. rewrite (mkx_mkfx lo hi), rs_cool, Rmax_left by first [reflexivity | lra]. apply from_cool. lra.
  - erewrite named_coeffs_unfold by apply gfx_tidd. unfold reduce_model. rewrite (mkx_mkfx lo hi), rs_tidd by reflexivity. reflexivity.
Qed.
End Idem.

Section TBnds.
Variables lo hi : R.
Notation N := (RNumOf lo hi).

(* sort_list is the library's insertion sort ([InsertionSortBy]) with the test [Rleb] *)
Lemma sort_list_perm : forall l : list R, Permutation l (sort_list N l).
Proof.
  intros l. apply Permutation_sym.
  exact (isort_by_perm R (@n_leb N) (insert_sorted N) (fun _ => eq_refl) (fun _ _ _ => eq_refl) l).
Qed.

Lemma sort_list_sorted : forall l : list R, StronglySorted Rle (sort_list N l).
Proof.
  intros l. apply Sorted_StronglySorted; [exact Rle_trans|]. apply Sorted_LocallySorted_iff.
  apply (isort_by_sorted R (@n_leb N) (insert_sorted N) (fun _ => eq_refl) (fun _ _ _ => eq_refl) Rle).
  - intros x y H. apply Rleb_true. exact H.
  - intros x y H. apply Rleb_false in H. lra.
Qed.

Lemma sort_list_length : forall l : list R, @length R (sort_list N l) = length l.
Proof. intros l. symmetry. apply Permutation_length. apply sort_list_perm. Qed.

Lemma get_T_bnds_some : forall (T : list R) n tc, get_T_bnds N T n = Some tc ->
  let s := sort_list N T in
  (n < length T)%nat /\
  tc = Build_tconstr N (nth 0 s 0) (nth (length T - 1) s 0) (nth n s 0)
                       (nth (match n with O => O | _ => length T - n end) s 0).
Proof.
  intros T n tc H. unfold get_T_bnds in H. cbv zeta in H. rewrite sort_list_length in H.
  destruct (sort_list N T) as [|t0 r] eqn:Es; [discriminate|].
  destruct (Nat.ltb n (length T)) eqn:El; [|discriminate]. apply Nat.ltb_lt in El.
  injection H as H. split; [exact El|]. subst tc.
  assert (Hlen : length (t0 :: r) = length T) by (rewrite <- Es; apply sort_list_length).
  rewrite !(nth_indep (t0 :: r) 0 t0) by (rewrite Hlen; destruct n; lia). reflexivity.
Qed.

Lemma sort_list_nth_In : forall (T : list R) i, (i < length T)%nat -> In (nth i (sort_list N T) 0) T.
Proof.
  intros T i Hi. apply (Permutation_in _ (Permutation_sym (sort_list_perm T))). apply nth_In.
  rewrite sort_list_length. exact Hi.
Qed.
End TBnds.
