(* Lemmas about stored CalTRACK hourly models (Model/CalTrackDoc.v), for the CalTRACK part of Properties/C01.v.
   [reloaded_of r s] is what from_dict makes of to_dict's document of a fitted state s ([ct_from_doc_to_doc_gen]): warnings and
   metrics come back untyped, every key of the uncertainty map as what [read_ukey r] makes of its text.  The rest says
   what that does: the regression inputs are the same; the keys come back under the repaired reader when they are
   [canonical], and are lost under the old one unless the key is "all"; [relax] undoes the untyping, so the reloaded
   state writes the same document ([ct_roundtrip_canonical]). *)
From Coq Require Import ZArith List Bool String PrimFloat Lia.
From V Require Import Model.Json Model.DailyDoc Model.CalTrackDoc Proofs.DailyDocProofs Proofs.HourlyDocProofs.
Import ListNotations.
Open Scope string_scope.

Definition raw_of (w : warns) : warns :=
  match w with WTyped l => WRaw (map warning_doc l) | WRaw l => WRaw l end.

Definition reload_seg (g : seg_model) : seg_model :=
  {| sg_name := sg_name g; sg_formula := sg_formula g; sg_params := sg_params g; sg_warnings := raw_of (sg_warnings g) |}.

Definition reload_metrics (m : metrics) : metrics :=
  match m with MNone => MNone | MNative [] => MNone | MNative l => MReloaded l | MReloaded [] => MNone | MReloaded l => MReloaded l end.

Definition reloaded_of (repaired : bool) (s : ct_state) : ct_state :=
  {| ct_status := ct_status s; ct_method := ct_method s; ct_segments := map reload_seg (ct_segments s);
     ct_pred_type := ct_pred_type s; ct_mapping := ct_mapping s; ct_processor := ct_processor s;
     ct_occupancy := ct_occupancy s; ct_occ_bins := ct_occ_bins s; ct_unocc_bins := ct_unocc_bins s;
     ct_segment_type := ct_segment_type s;
     ct_unc := map (fun kv => (read_ukey repaired (ukey_string (fst kv)), snd kv)) (ct_unc s);
     ct_warnings := raw_of (ct_warnings s); ct_metadata := ct_metadata s; ct_settings := ct_settings s;
     ct_totals := reload_metrics (ct_totals s); ct_avgs := reload_metrics (ct_avgs s) |}.

Definition typed_wf (w : warns) : Prop := match w with WTyped l => Forall wf_warning l | WRaw _ => False end.
Definition native_metrics (m : metrics) : Prop :=
  match m with MNone => True | MNative (_ :: _) => True | _ => False end.

(* a fitted CalTRACK state, as the fit produces it: typed warnings, metrics objects, the prediction type and month mapping
   that go with its segment type *)
Definition wf_ct (s : ct_state) : Prop :=
  typed_wf (ct_warnings s) /\ Forall (fun g => typed_wf (sg_warnings g)) (ct_segments s) /\
  native_metrics (ct_totals s) /\ native_metrics (ct_avgs s) /\
  segment_info (ct_segment_type s) = Some (ct_pred_type s, ct_mapping s) /\
  ct_processor s = "caltrack_hourly_prediction_feature_processor".

Lemma warns_doc_raw : forall w j, typed_wf w -> warns_doc w = Some j -> raw_warns (Some j) = Some (raw_of w).
Proof. intros [l|l] j H Hj; [|contradiction]. cbn in Hj. injection Hj as <-. reflexivity. Qed.

(* [parse_param] is the hourly [parse_coeff_entry] under another name *)
Lemma parse_params_doc : forall ps : list (string * float),
  opt_all (map parse_param (map (fun p => (fst p, JNum (snd p))) ps)) = Some ps.
Proof. exact parse_edge_coeff_entries_doc. Qed.

Lemma parse_seg_doc : forall g j, typed_wf (sg_warnings g) -> seg_doc g = Some j -> parse_seg j = Some (reload_seg g).
Proof.
  intros [name f ps w] j Hw Hj. unfold seg_doc in Hj. cbn [sg_warnings sg_name sg_formula sg_params] in *.
  destruct (warns_doc w) as [wj|] eqn:Ew; [|discriminate]. injection Hj as <-.
  unfold parse_seg. cbn [field get String.eqb Ascii.eqb Bool.eqb bind as_string as_obj].
  rewrite parse_params_doc. cbn [bind]. rewrite (warns_doc_raw w wj Hw Ew). cbn [bind].
  unfold reload_seg. cbn. destruct f; reflexivity.
Qed.

Lemma parse_metrics_doc : forall m j, native_metrics m -> metrics_doc m = Some j ->
  parse_metrics (Some j) = Some (reload_metrics m).
Proof.
  intros [|l|l] j H Hj; cbn in *; try contradiction.
  - injection Hj as <-. reflexivity.
  - destruct l; [contradiction|]. injection Hj as <-. reflexivity.
Qed.

(* an uncertainty entry -- NaN included -- is read back as it was written *)
Lemma parse_uentry_doc : forall e, parse_uentry (uentry_doc e) = Some e.
Proof.
  intros e. unfold parse_uentry, uentry_doc. apply opt_all_map_inv. intros [k v] _. destruct v; reflexivity.
Qed.

Lemma parse_unc_doc : forall (u : list (ukey * uentry)),
  opt_all (map (fun kv : string * json => option_map (fun e => (fst kv, e)) (parse_uentry (snd kv)))
               (map (fun kv : ukey * uentry => (ukey_string (fst kv), uentry_doc (snd kv))) u))
  = Some (map (fun kv => (ukey_string (fst kv), snd kv)) u).
Proof.
  intros u. apply opt_all_map_map. intros [k e] _. cbn [fst snd]. rewrite parse_uentry_doc. reflexivity.
Qed.

Lemma ct_from_doc_to_doc_gen : forall repaired s d, wf_ct s -> ct_to_doc_objects s = Some d ->
  ct_from_doc_gen repaired d = Some (reloaded_of repaired s).
Proof.
  intros repaired s d (Hw & Hsegs & Htm & Ham & Hsi & Hproc) Hd. unfold ct_to_doc_objects in Hd.
  (* the five parts of the document that can fail to be written were written *)
  apply bind_some in Hd. destruct Hd as (segs & Esegs & Hd).
  apply bind_some in Hd. destruct Hd as (lk & _ & Hd).
  apply bind_some in Hd. destruct Hd as (ws & Ews & Hd).
  apply bind_some in Hd. destruct Hd as (tm & Etm & Hd).
  apply bind_some in Hd. destruct Hd as (am & Eam & Hd).
  injection Hd as <-. unfold ct_from_doc_gen.
  cbn [field get String.eqb Ascii.eqb Bool.eqb bind as_string as_arr as_obj].
  rewrite (opt_all_map_compose seg_doc parse_seg reload_seg (ct_segments s) segs); [|
    intros g j Hin Hj; apply parse_seg_doc; [rewrite Forall_forall in Hsegs; apply Hsegs; exact Hin | exact Hj] | exact Esegs].
  cbn [bind]. rewrite Hsi. cbn [bind fst snd]. rewrite parse_unc_doc. cbn [bind].
  rewrite (warns_doc_raw _ _ Hw Ews). cbn [bind].
  rewrite (parse_metrics_doc _ _ Htm Etm). cbn [bind]. rewrite (parse_metrics_doc _ _ Ham Eam). cbn [bind].
  unfold reloaded_of. rewrite Hproc. rewrite map_map. reflexivity.
Qed.

Lemma ct_inputs_restored : forall r s, ct_inputs_of (reloaded_of r s) = ct_inputs_of s.
Proof. intros r s. unfold ct_inputs_of, reloaded_of. cbn. rewrite map_map. reflexivity. Qed.

(* the keys the statements admit: "all" and month numbers; the bound 1000 is a choice of the statement, [canonical] below
   is what the proofs need *)
Definition month_keys (u : list (ukey * uentry)) : Prop :=
  Forall (fun kv => match fst kv with KAll => True | KMonth n => (0 <= n < 1000)%Z | KText _ => False end) u.

(* keys whose text the repaired reader turns back into the key: "all", the month numbers, any text that is neither
   "all" nor a number (to_dict writes only the first two) *)
Definition canonical (k : ukey) : Prop :=
  match k with KAll => True | KMonth n => (0 <= n < 10 ^ 20)%Z | KText t => t <> "all" /\ Z_of_string t = None end.

Definition canonical_keys (u : list (ukey * uentry)) : Prop := Forall (fun kv => canonical (fst kv)) u.

Lemma month_keys_canonical : forall u, month_keys u -> canonical_keys u.
Proof.
  intros u H. unfold month_keys in H. revert H. apply Forall_impl. intros [k e]. cbn [fst].
  destruct k; unfold canonical; [trivial | lia | contradiction].
Qed.

Lemma read_ukey_canonical : forall k, canonical k -> read_ukey true (ukey_string k) = k.
Proof.
  intros [|n|t] H; unfold canonical in H; [reflexivity | |]; unfold read_ukey; cbn [ukey_string].
  - rewrite key_not_all, key_roundtrip by lia. reflexivity.
  - destruct H as [H1 H2]. apply String.eqb_neq in H1. rewrite H1, H2. reflexivity.
Qed.

(* the uncertainty map comes back when each key is what the reader makes of its own text *)
Lemma unc_restored : forall r s, Forall (fun kv => read_ukey r (ukey_string (fst kv)) = fst kv) (ct_unc s) ->
  ct_unc (reloaded_of r s) = ct_unc s.
Proof.
  intros r s H. unfold reloaded_of. cbn [ct_unc]. apply map_id_Forall. revert H. apply Forall_impl.
  intros [k e] Hk. cbn [fst snd] in *. rewrite Hk. reflexivity.
Qed.

Lemma unc_restored_repaired : forall s, canonical_keys (ct_unc s) -> ct_unc (reloaded_of true s) = ct_unc s.
Proof. intros s H. apply unc_restored. revert H. apply Forall_impl. intros kv. apply read_ukey_canonical. Qed.

(* a model keyed by month numbers loses every entry under the old reader: the reader that keeps the strings never yields a
   month key, so only the text "all" applies to a month *)
Lemma raw_key_applies : forall t m, key_applies (read_ukey false t) m = String.eqb t "all".
Proof. intros t m. unfold read_ukey. destruct (String.eqb t "all"); reflexivity. Qed.

Lemma unc_lookup_none : forall (u : list (ukey * uentry)) m,
  Forall (fun kv => key_applies (fst kv) m = false) u -> unc_lookup u m = None.
Proof.
  unfold unc_lookup. induction u as [|kv u IH]; intros m H; [reflexivity|].
  inversion H as [|? ? Hk Hu]; subst. cbn [fold_left]. rewrite Hk. apply IH. exact Hu.
Qed.

Lemma unc_lost_months : forall s m,
  Forall (fun kv => match fst kv with KMonth n => (0 <= n)%Z | _ => False end) (ct_unc s) ->
  unc_lookup (ct_unc (reloaded_of false s)) m = None.
Proof.
  intros s m H. unfold reloaded_of. cbn [ct_unc]. apply unc_lookup_none.
  rewrite Forall_forall in *. intros kv Hin. apply in_map_iff in Hin. destruct Hin as ([k v] & <- & Hin).
  specialize (H _ Hin). cbn [fst snd] in *. destruct k as [|n|t]; try contradiction.
  rewrite raw_key_applies. cbn [ukey_string]. apply key_not_all. exact H.
Qed.

Lemma relax_raw_of : forall w, typed_wf w -> relax_warns (raw_of w) = w.
Proof.
  intros [l|l] H; [|contradiction]. cbn.
  rewrite (opt_all_map_inv parse_warning warning_doc l); [reflexivity|].
  intros w Hw. apply parse_warning_doc. cbn in H. rewrite Forall_forall in H. apply H. exact Hw.
Qed.

Lemma relax_reload_metrics : forall m, native_metrics m -> relax_metrics (reload_metrics m) = m.
Proof. intros [|[|x l]|l] H; cbn in *; try contradiction; reflexivity. Qed.

(* [relax] undoes the untyping of warnings and metrics: a reloaded state whose uncertainty keys came back is the fitted one again *)
Lemma relax_reloaded : forall r s, wf_ct s -> ct_unc (reloaded_of r s) = ct_unc s -> relax (reloaded_of r s) = s.
Proof.
  intros r s (Hw & Hsegs & Htm & Ham & _ & _) Hu. destruct s as [st me segs pt mp pr oc ob ub sty unc ws md se tm am].
  unfold relax, reloaded_of in *. cbn in *.
  rewrite (relax_raw_of _ Hw), (relax_reload_metrics _ Htm), (relax_reload_metrics _ Ham), Hu.
  rewrite map_map, map_id_Forall; [reflexivity|]. revert Hsegs. apply Forall_impl.
  intros [n f p w] Hg. cbn in *. rewrite (relax_raw_of w Hg). reflexivity.
Qed.

(* on a fitted state the two serialisers agree (nothing to relax) *)
Lemma relax_native : forall s, wf_ct s -> relax s = s.
Proof.
  intros s (Hw & Hsegs & Htm & Ham & _ & _). destruct s as [st me segs pt mp pr oc ob ub sty unc ws md se tm am].
  unfold relax. cbn in *. rewrite map_id_Forall.
  - destruct ws; [|contradiction].
    destruct tm as [|[|x1 l1]|l1]; try contradiction; destruct am as [|[|x2 l2]|l2]; try contradiction; reflexivity.
  - revert Hsegs. apply Forall_impl. intros [n f p [w|w]] Hg; [reflexivity | contradiction].
Qed.

Lemma ct_to_doc_native : forall s, wf_ct s -> ct_to_doc s = ct_to_doc_objects s.
Proof. intros s H. unfold ct_to_doc. rewrite (relax_native s H). reflexivity. Qed.

(* the round trip of the code as it is, for every key set the repaired reader turns back (months below 10^20, "all",
   texts that are neither): the reloaded state, its regression inputs, its uncertainty map, its document *)
Lemma ct_roundtrip_canonical : forall s d, wf_ct s -> canonical_keys (ct_unc s) -> ct_to_doc s = Some d ->
  ct_from_doc d = Some (reloaded_of true s) /\ ct_inputs_of (reloaded_of true s) = ct_inputs_of s /\
  ct_unc (reloaded_of true s) = ct_unc s /\ ct_to_doc (reloaded_of true s) = Some d.
Proof.
  intros s d Hwf Hk Hd. pose proof (unc_restored_repaired s Hk) as Hu. rewrite (ct_to_doc_native s Hwf) in Hd.
  split; [exact (ct_from_doc_to_doc_gen true s d Hwf Hd)|]. split; [apply ct_inputs_restored|]. split; [exact Hu|].
  (* to_dict relaxes the reloaded state back into s *)
  unfold ct_to_doc. rewrite (relax_reloaded true s Hwf Hu). exact Hd.
Qed.
