(* The occupancy rule of Model/CalTrackFit.v at the regenerated default threshold (property C18): the
   binary64 evaluation (what the correspondence executes) and the exact rule (what the theorems are about) give the same
   flag for every count of residuals up to 250 per hour of week (C18_ex_occupancy_float_rule_agrees). *)
From Coq Require Import ZArith QArith List Bool String PrimFloat Lia.
From V Require Import Generated.CalTrackTables Model.CalTrack Model.CalTrackFit Proofs.ArithFacts Proofs.ListFacts Proofs.CalTrackFitProofs.
Import ListNotations.

(* The exact side needs no evaluation: the default threshold, the double nearest 0.65, lies above 13/20 by 1/(5*2^53),
   and no ratio p/n with n < 2^51 falls strictly between the two. *)
Lemma flag_q_default : forall p n, (0 < n)%nat -> (Z.of_nat n < 2 ^ 51)%Z ->
  flag_q default_occupancy_threshold p n = (13 * Z.of_nat n <? 20 * Z.of_nat p)%Z.
Proof.
  intros p n Hn Hb. destruct n as [ | m ]; [ lia | ].
  change (flag_q default_occupancy_threshold p (S m)) with (negb (Qle_bool (ratio p (S m)) default_occupancy_threshold)).
  apply eq_iff_eq_true. rewrite Qltb_true, (ratio_gt_iff _ p (S m) Hn), Z.ltb_lt.
  unfold Qlt, Qmult, inject_Z, default_occupancy_threshold. cbn [Qnum Qden]. rewrite Pos.mul_1_r. lia.
Qed.

(* The binary64 side can only be evaluated (nothing is assumed about primitive floats). The sweep runs over Z counters
   ([all_from len z f] checks f z, f (z + 1), ..., f (z + len - 1)): row n = 1 .. 250, in it p = 0 .. n *)
Definition float_rule_at (n p : Z) : bool :=
  Bool.eqb (fltb default_occupancy_threshold_f (fdiv (Z2F p) (Z2F n))) (13 * n <? 20 * p)%Z.

Lemma float_rule_upto_250 : all_from 250 1 (fun n => all_from (Z.to_nat (n + 1)) 0 (float_rule_at n)) = true.
Proof. vm_compute. reflexivity. Qed.

(* the regenerated candidate endpoints are sorted and distinct (one evaluated check; increasing follows) *)
Lemma default_bins_strict : strictly_increasing default_bins.
Proof. cbn. repeat split; repeat constructor. Qed.
