(* Lemmas about Model/Windows.v (C20).
   Both functions have the same shape: check the arguments, cut the index at the requested bound, compute the
   other bound, and return [blank_last] of [window lo hi data].  The shape is treated once ([window],
   [window_result], [warn_end], [warn_start]).  Which bound is requested and how the other is computed differs:
   those lemmas come in a baseline / reporting pair (end / start, [last_ts] / [first_ts], [pad] / [backfill]),
   the second proved like the first.  Names: [X_inv] inverts [... = Ok rows we ws]; [X_args_ok] is the model's
   argument check. *)
From Coq Require Import ZArith List Bool Lia Sorted.
From V Require Import Model.Windows Proofs.ListFacts.
Import ListNotations.
Open Scope Z_scope.

Definition sorted (d : list row) : Prop := StronglySorted (fun a b => ts a < ts b) d.

Lemma blank_last_ts : forall d, map ts (blank_last d) = map ts d.
Proof.
  induction d as [|a [|b d'] IH]; [reflexivity | reflexivity |].
  change (blank_last (a :: b :: d')) with (a :: blank_last (b :: d')).
  cbn [map]. f_equal. exact IH.
Qed.

Lemma In_blank_last_ts : forall d r, In r (blank_last d) -> exists r', In r' d /\ ts r' = ts r.
Proof.
  intros d r H.
  assert (Hin : In (ts r) (map ts (blank_last d))) by (apply in_map; exact H).
  rewrite blank_last_ts in Hin. apply in_map_iff in Hin.
  destruct Hin as [r' [E I]]. exists r'. split; assumption.
Qed.

Lemma blank_last_length : forall d, length (blank_last d) = length d.
Proof. intros d. rewrite <- (map_length ts), blank_last_ts, map_length. reflexivity. Qed.

Lemma blank_last_app : forall d r, blank_last (d ++ [r]) = d ++ [blank r].
Proof.
  induction d as [|a d IH]; intros r; [reflexivity|].
  cbn [app]. destruct d as [|b d']; [reflexivity|].
  change (blank_last (a :: (b :: d') ++ [r])) with (a :: blank_last ((b :: d') ++ [r])).
  rewrite IH. reflexivity.
Qed.

Lemma In_slice_to : forall e d r, In r (slice_to e d) <-> In r d /\ ts r <= e.
Proof. intros. unfold slice_to. rewrite filter_In, Z.leb_le. tauto. Qed.

Lemma In_slice_from : forall s d r, In r (slice_from s d) <-> In r d /\ s <= ts r.
Proof. intros. unfold slice_from. rewrite filter_In, Z.leb_le. tauto. Qed.

Lemma sorted_cut : forall t d, sorted d -> d = slice_to t d ++ slice_from (t + 1) d.
Proof.
  intros t. induction d as [|a d IH]; intros Hs; [reflexivity|].
  apply StronglySorted_inv in Hs. destruct Hs as [Hs Ha].
  unfold slice_to, slice_from in *. cbn [filter].
  destruct (Z.leb_spec (ts a) t) as [Hle|Hgt]; destruct (Z.leb_spec (t + 1) (ts a)) as [Hle'|Hgt']; try lia.
  - cbn [app]. f_equal. exact (IH Hs).
  - (* [a] comes after [t], and so does everything behind it *)
    assert (E : filter (fun r => ts r <=? t) d = []).
    { apply filter_none. intros b Hb. rewrite Forall_forall in Ha. specialize (Ha b Hb). apply Z.leb_gt. lia. }
    specialize (IH Hs). rewrite E in IH |- *. cbn [app] in *. f_equal. exact IH.
Qed.

Lemma last_ts_row : forall d dflt, d <> [] -> exists r, In r d /\ ts r = last_ts d dflt.
Proof.
  induction d as [|a d IH]; intros dflt Hne; [congruence|]. cbn [last_ts].
  destruct d as [|b d']; [exists a; split; [left; reflexivity | reflexivity]|].
  destruct (IH (ts a)) as [r [Hr E]]; [discriminate|]. exists r. split; [right; exact Hr | exact E].
Qed.

Lemma last_ts_max : forall d dflt r, sorted d -> In r d -> ts r <= last_ts d dflt.
Proof.
  induction d as [|a d IH]; intros dflt r Hs Hr; [destruct Hr|].
  apply StronglySorted_inv in Hs. destruct Hs as [Hs Ha]. cbn [last_ts].
  destruct Hr as [<-|Hr]; [|exact (IH (ts a) r Hs Hr)].
  destruct d as [|b d']; [cbn; lia|].
  (* the last label is a label of the tail, and the tail comes after [a] *)
  destruct (last_ts_row (b :: d') (ts a)) as [r0 [Hr0 E]]; [discriminate|].
  rewrite Forall_forall in Ha. specialize (Ha r0 Hr0). lia.
Qed.

Lemma first_ts_row : forall d dflt, d <> [] -> exists r, In r d /\ ts r = first_ts d dflt.
Proof. intros [|a d] dflt Hne; [congruence | exists a; split; [left; reflexivity | reflexivity]]. Qed.

Lemma first_ts_min : forall d dflt r, sorted d -> In r d -> first_ts d dflt <= ts r.
Proof.
  intros [|a d] dflt r Hs Hr; [destruct Hr|]. cbn [first_ts].
  apply StronglySorted_inv in Hs. destruct Hs as [_ Ha].
  destruct Hr as [<-|Hr]; [lia|]. rewrite Forall_forall in Ha. specialize (Ha r Hr). lia.
Qed.

(* the last label at or before [e] and the first label at or after [s]: what [pad] / [backfill] return and what
   the ignore-gap option moves a limit onto (the default plays no role once the slice is non-empty) *)
Lemma last_before_spec : forall d e dflt, sorted d -> slice_to e d <> [] ->
  last_ts (slice_to e d) dflt <= e /\ In (last_ts (slice_to e d) dflt) (map ts d) /\
  (forall r, In r d -> ts r <= e -> ts r <= last_ts (slice_to e d) dflt).
Proof.
  intros d e dflt Hs Hne.
  assert (Hss : sorted (slice_to e d)) by (apply StronglySorted_filter; exact Hs).
  destruct (last_ts_row _ dflt Hne) as [r0 [Hr0 E0]].
  apply In_slice_to in Hr0. destruct Hr0 as [Hr0 Hle0].
  split; [lia|]. split.
  - rewrite <- E0. apply in_map. exact Hr0.
  - intros r Hr Hle. apply last_ts_max; [exact Hss | apply In_slice_to; tauto].
Qed.

Lemma first_after_spec : forall d s dflt, sorted d -> slice_from s d <> [] ->
  s <= first_ts (slice_from s d) dflt /\ In (first_ts (slice_from s d) dflt) (map ts d) /\
  (forall r, In r d -> s <= ts r -> first_ts (slice_from s d) dflt <= ts r).
Proof.
  intros d s dflt Hs Hne.
  assert (Hss : sorted (slice_from s d)) by (apply StronglySorted_filter; exact Hs).
  destruct (first_ts_row _ dflt Hne) as [r0 [Hr0 E0]].
  apply In_slice_from in Hr0. destruct Hr0 as [Hr0 Hle0].
  split; [lia|]. split.
  - rewrite <- E0. apply in_map. exact Hr0.
  - intros r Hr Hle. apply first_ts_min; [exact Hss | apply In_slice_from; tauto].
Qed.

Lemma pad_spec : forall d t l, sorted d -> pad d t = Some l ->
  l <= t /\ In l (map ts d) /\ (forall r, In r d -> ts r <= t -> ts r <= l).
Proof.
  intros d t l Hs H. unfold pad in H.
  destruct (slice_to t d) as [|a sl] eqn:E; [discriminate|].
  change (Some (last_ts (a :: sl) 0) = Some l) in H. rewrite <- E in H. injection H as <-.
  apply last_before_spec; [exact Hs | rewrite E; discriminate].
Qed.

Lemma pad_none : forall d t, pad d t = None -> forall r, In r d -> t < ts r.
Proof.
  intros d t H r Hr. unfold pad in H.
  destruct (slice_to t d) as [|a sl] eqn:E; [|discriminate].
  destruct (Z.ltb_spec t (ts r)) as [Hlt|Hge]; [exact Hlt|].
  assert (Hin : In r (slice_to t d)) by (apply In_slice_to; split; [exact Hr | lia]).
  rewrite E in Hin. destruct Hin.
Qed.

Lemma backfill_spec : forall d t x, sorted d -> backfill d t = Some x ->
  t <= x /\ In x (map ts d) /\ (forall r, In r d -> t <= ts r -> x <= ts r).
Proof.
  intros d t x Hs H. unfold backfill in H.
  destruct (slice_from t d) as [|a sl] eqn:E; [discriminate|].
  injection H as <-. change (ts a) with (first_ts (a :: sl) 0). rewrite <- E.
  apply first_after_spec; [exact Hs | rewrite E; discriminate].
Qed.

Lemma backfill_none : forall d t, backfill d t = None -> forall r, In r d -> ts r < t.
Proof.
  intros d t H r Hr. unfold backfill in H.
  destruct (slice_from t d) as [|a sl] eqn:E; [|discriminate].
  destruct (Z.ltb_spec (ts r) t) as [Hlt|Hge]; [exact Hlt|].
  assert (Hin : In r (slice_from t d)) by (apply In_slice_from; split; [exact Hr | lia]).
  rewrite E in Hin. destruct Hin.
Qed.

(* third clause: on a tie the later label is chosen *)
Lemma nearest_spec : forall d t n, sorted d -> nearest d t = Some n ->
  In n (map ts d) /\
  (forall r, In r d -> Z.abs (n - t) <= Z.abs (ts r - t)) /\
  (forall r, In r d -> Z.abs (n - t) = Z.abs (ts r - t) -> ts r <= n).
Proof.
  intros d t n Hs H. unfold nearest in H.
  destruct (pad d t) as [l|] eqn:El; destruct (backfill d t) as [x|] eqn:Ex; [| | |discriminate].
  - destruct (pad_spec d t l Hs El) as [L1 [L2 L3]].
    destruct (backfill_spec d t x Hs Ex) as [R1 [R2 R3]].
    (* no label lies strictly between the two candidates *)
    assert (Hcov : forall r, In r d -> ts r <= l \/ x <= ts r).
    { intros r Hr. specialize (L3 r Hr). specialize (R3 r Hr). lia. }
    destruct (t - l <? x - t) eqn:C; injection H as <-.
    + apply Z.ltb_lt in C. split; [exact L2|]. split; intros r Hr; destruct (Hcov r Hr); lia.
    + apply Z.ltb_ge in C. split; [exact R2|]. split; intros r Hr; destruct (Hcov r Hr); lia.
  - (* nothing at or after [t]: every label is at or before the left candidate *)
    destruct (pad_spec d t l Hs El) as [L1 [L2 L3]]. injection H as <-.
    pose proof (backfill_none d t Ex) as RN.
    split; [exact L2|]. split; intros r Hr; specialize (RN r Hr); specialize (L3 r Hr); lia.
  - destruct (backfill_spec d t x Hs Ex) as [R1 [R2 R3]]. injection H as <-.
    pose proof (pad_none d t El) as LN.
    split; [exact R2|]. split; intros r Hr; specialize (LN r Hr); specialize (R3 r Hr); lia.
Qed.

Lemma nearest_none : forall d t, nearest d t = None -> d = [].
Proof.
  intros [|a d] t H; [reflexivity|]. exfalso. unfold nearest in H.
  destruct (pad (a :: d) t) eqn:El; destruct (backfill (a :: d) t) eqn:Ex;
    try discriminate; [destruct (_ <? _); discriminate|].
  pose proof (pad_none _ _ El a (or_introl eq_refl)).
  pose proof (backfill_none _ _ Ex a (or_introl eq_refl)). lia.
Qed.

Lemma nearest_filter : forall p d t, sorted d -> filter p d <> [] ->
  exists rn, nearest (filter p d) t = Some (ts rn) /\ In rn d /\ p rn = true /\
    forall r, In r d -> p r = true -> Z.abs (ts rn - t) <= Z.abs (ts r - t).
Proof.
  intros p d t Hs Hne.
  destruct (nearest (filter p d) t) as [n|] eqn:En; [|apply nearest_none in En; contradiction].
  destruct (nearest_spec _ _ _ (StronglySorted_filter _ _ p d Hs) En) as [N1 [N2 _]].
  apply in_map_iff in N1. destruct N1 as [rn [<- Hrn]]. apply filter_In in Hrn. destruct Hrn as [Hrn Hp].
  exists rn. split; [reflexivity|]. split; [exact Hrn|]. split; [exact Hp|].
  intros r Hr Hpr. apply N2. apply filter_In. split; assumption.
Qed.

Lemma nearest_slice_to : forall e d t, sorted d -> slice_to e d <> [] ->
  exists rn, nearest (slice_to e d) t = Some (ts rn) /\ In rn d /\ ts rn <= e /\
    forall r, In r d -> ts r <= e -> Z.abs (ts rn - t) <= Z.abs (ts r - t).
Proof.
  intros e d t Hs Hne. destruct (nearest_filter (fun r => ts r <=? e) d t Hs Hne) as (rn & En & Hrn & Hp & Hmin).
  exists rn. split; [exact En|]. split; [exact Hrn|]. split; [apply Z.leb_le; exact Hp|].
  intros r Hr Hle. apply Hmin; [exact Hr | apply Z.leb_le; exact Hle].
Qed.

Lemma nearest_slice_from : forall s d t, sorted d -> slice_from s d <> [] ->
  exists rn, nearest (slice_from s d) t = Some (ts rn) /\ In rn d /\ s <= ts rn /\
    forall r, In r d -> s <= ts r -> Z.abs (ts rn - t) <= Z.abs (ts r - t).
Proof.
  intros s d t Hs Hne. destruct (nearest_filter (fun r => s <=? ts r) d t Hs Hne) as (rn & En & Hrn & Hp & Hmin).
  exists rn. split; [exact En|]. split; [exact Hrn|]. split; [apply Z.leb_le; exact Hp|].
  intros r Hr Hle. apply Hmin; [exact Hr | apply Z.leb_le; exact Hle].
Qed.

Definition slice_to_opt (hi : option Z) (d : list row) : list row :=
  match hi with Some e => slice_to e d | None => d end.
Definition slice_from_opt (lo : option Z) (d : list row) : list row :=
  match lo with Some s => slice_from s d | None => d end.
Definition window (lo hi : option Z) (d : list row) : list row := slice_from_opt lo (slice_to_opt hi d).

Lemma slice_from_opt_incl : forall lo d, incl (slice_from_opt lo d) d.
Proof. intros [s|] d; [apply incl_filter | apply incl_refl]. Qed.

Lemma slice_to_opt_sorted : forall hi d, sorted d -> sorted (slice_to_opt hi d).
Proof. intros [e|] d Hs; [apply StronglySorted_filter|]; exact Hs. Qed.

Lemma window_incl : forall lo hi d, incl (window lo hi d) d.
Proof.
  intros lo hi d. apply (incl_tran (slice_from_opt_incl lo _)). destruct hi; [apply incl_filter | apply incl_refl].
Qed.

Lemma window_sorted : forall lo hi d, sorted d -> sorted (window lo hi d).
Proof.
  intros lo hi d Hs. apply (slice_to_opt_sorted hi) in Hs. destruct lo; [apply StronglySorted_filter|]; exact Hs.
Qed.

Lemma slice_to_opt_prefix : forall hi d, sorted d -> exists post, d = slice_to_opt hi d ++ post.
Proof.
  intros [e|] d Hs.
  - exists (slice_from (e + 1) d). apply sorted_cut. exact Hs.
  - exists []. symmetry. apply app_nil_r.
Qed.

Lemma slice_from_opt_suffix : forall lo d, sorted d -> exists pre, d = pre ++ slice_from_opt lo d.
Proof.
  intros [s|] d Hs.
  - exists (slice_to (s - 1) d). replace s with (s - 1 + 1) at 2 by lia. apply sorted_cut. exact Hs.
  - exists []. reflexivity.
Qed.

Lemma window_nonempty_data : forall lo hi d, window lo hi d <> [] -> d <> [].
Proof. intros lo hi d H ->. apply H. destruct lo; destruct hi; reflexivity. Qed.

Lemma blank_window_lo : forall lo hi d r s, In r (blank_last (window lo hi d)) -> lo = Some s -> s <= ts r.
Proof.
  intros lo hi d r s Hr ->. apply In_blank_last_ts in Hr. destruct Hr as [r' [Hr' <-]].
  apply In_slice_from in Hr'. tauto.
Qed.

Lemma blank_window_hi : forall lo hi d r e, In r (blank_last (window lo hi d)) -> hi = Some e -> ts r <= e.
Proof.
  intros lo hi d r e Hr ->. apply In_blank_last_ts in Hr. destruct Hr as [r' [Hr' <-]].
  apply slice_from_opt_incl, In_slice_to in Hr'. tauto.
Qed.

Lemma blank_window_contiguous : forall lo hi d, sorted d -> window lo hi d <> [] ->
  exists pre body l post, d = pre ++ (body ++ [l]) ++ post /\ blank_last (window lo hi d) = body ++ [blank l].
Proof.
  intros lo hi d Hs Hne. destruct (slice_to_opt_prefix hi d Hs) as [post E].
  destruct (slice_from_opt_suffix lo _ (slice_to_opt_sorted hi d Hs)) as [pre E']. fold (window lo hi d) in E'.
  destruct (exists_last Hne) as [body [l El]]. rewrite El in E' |- *.
  exists pre, body, l, post. split; [rewrite app_assoc, <- E'; exact E | apply blank_last_app].
Qed.

Lemma all_missing_false_nonempty : forall d, all_missing d = false -> d <> [].
Proof. intros [|a d] H; discriminate. Qed.

Lemma all_missing_existsb : forall d, all_missing d = negb (existsb complete d).
Proof.
  induction d as [|a d IH]; [reflexivity|]. cbn [all_missing forallb existsb].
  change (forallb (fun r => negb (complete r)) d) with (all_missing d). rewrite IH, negb_orb. reflexivity.
Qed.

Lemma all_missing_false_complete : forall d, all_missing d = false <-> exists r, In r d /\ complete r = true.
Proof. intros d. rewrite all_missing_existsb, negb_false_iff, existsb_exists. reflexivity. Qed.

Lemma all_missing_true_iff : forall d, all_missing d = true <-> forall r, In r d -> complete r = false.
Proof.
  intros d. unfold all_missing. rewrite forallb_forall. split; intros H r Hr; specialize (H r Hr).
  - destruct (complete r); [discriminate | reflexivity].
  - rewrite H. reflexivity.
Qed.

(* the two gap tests, for a requested limit [req] and the limit [lim] the options have moved it to *)
Definition warn_end (req lim : option Z) (data : list row) : bool :=
  match req, lim with Some e, Some el => last_ts data e <? el | _, _ => false end.
Definition warn_start (req lim : option Z) (data : list row) : bool :=
  match req, lim with Some s, Some sl => sl <? first_ts data s | _, _ => false end.

(* the shell both functions share.  [ok]: the argument check; [outer]: the index cut at the requested bound;
   [sel]: the selection; [we], [ws]: the two gap warnings *)
Definition window_result (ok : bool) (outer sel : list row) (we ws : bool) : result :=
  if ok then
    match outer with
    | [] => ErrNoData
    | _ => if all_missing sel then ErrNoData else Ok (blank_last sel) we ws
    end
  else ErrValue.

Lemma window_result_inv : forall ok outer sel we ws rows we' ws',
  window_result ok outer sel we ws = Ok rows we' ws' ->
  ok = true /\ outer <> [] /\ all_missing sel = false /\ rows = blank_last sel /\ we' = we /\ ws' = ws.
Proof.
  intros ok outer sel we ws rows we' ws' H. unfold window_result in H.
  destruct ok; [|discriminate]. destruct outer; [discriminate|].
  destruct (all_missing sel); [discriminate|]. injection H as <- <- <-.
  split; [reflexivity|]. split; [discriminate|]. repeat split.
Qed.

(* the dedicated error is raised exactly on a selection without a complete row; nothing else can go wrong *)
Lemma window_result_outcome : forall ok outer sel we ws, (outer = [] -> sel = []) ->
  match window_result ok outer sel we ws with
  | ErrValue => ok = false
  | ErrNoData => ok = true /\ forall r, In r sel -> complete r = false
  | Ok _ _ _ => ok = true /\ exists r, In r sel /\ complete r = true
  end.
Proof.
  intros ok outer sel we ws Hsel. unfold window_result. destruct ok; [|reflexivity].
  destruct (all_missing sel) eqn:Em.
  - destruct outer; (split; [reflexivity | apply all_missing_true_iff; exact Em]).
  - destruct outer; [rewrite (Hsel eq_refl) in Em; discriminate|].
    split; [reflexivity | apply all_missing_false_complete; exact Em].
Qed.

Definition b_args_ok (o : bopts) : bool :=
  match b_max_days o, b_start o with Some _, Some _ => false | _, _ => true end.

Definition baseline_before (o : bopts) (data : list row) : list row :=
  match b_end o with Some e => slice_to e data | None => data end.

Definition baseline_start_limit (o : bopts) (data : list row) : option Z :=
  let before := baseline_before o data in
  match baseline_start_target o before with
  | None => None
  | Some t => if b_overshoot o then nearest before t else Some t
  end.

Definition baseline_selection (o : bopts) (data : list row) : list row :=
  match baseline_start_limit o data with
  | Some s => slice_from s (baseline_before o data)
  | None => baseline_before o data
  end.

Lemma get_baseline_data_unfold : forall o data,
  get_baseline_data o data =
  window_result (b_args_ok o) (baseline_before o data) (baseline_selection o data)
                (warn_end (b_end o) (baseline_end_limit o (baseline_before o data)) data)
                (warn_start (b_start o) (baseline_start_limit o data) data).
Proof.
  intros o data. unfold get_baseline_data, b_args_ok, window_result, warn_end, warn_start,
    baseline_selection, baseline_start_limit, baseline_before.
  destruct (b_max_days o); destruct (b_start o); reflexivity.
Qed.

Section BaselineOk.
  Variables (o : bopts) (data rows : list row) (we ws : bool).
  Hypothesis Hok : get_baseline_data o data = Ok rows we ws.

  Lemma baseline_inv :
    b_args_ok o = true /\ baseline_before o data <> [] /\
    all_missing (window (baseline_start_limit o data) (b_end o) data) = false /\
    rows = blank_last (window (baseline_start_limit o data) (b_end o) data) /\
    we = warn_end (b_end o) (baseline_end_limit o (baseline_before o data)) data /\
    ws = warn_start (b_start o) (baseline_start_limit o data) data.
  Proof.
    pose proof Hok as H. rewrite get_baseline_data_unfold in H.
    (* [baseline_selection o data] unfolds to this window: the end is cut first there too *)
    change (baseline_selection o data) with (window (baseline_start_limit o data) (b_end o) data) in H.
    exact (window_result_inv _ _ _ _ _ _ _ _ H).
  Qed.

  Lemma baseline_args : b_args_ok o = true.
  Proof. destruct baseline_inv as (Hargs & _). exact Hargs. Qed.

  Lemma baseline_before_nonempty : baseline_before o data <> [].
  Proof. destruct baseline_inv as (_ & Hbefore & _). exact Hbefore. Qed.

  Lemma baseline_window_nonempty : window (baseline_start_limit o data) (b_end o) data <> [].
  Proof. destruct baseline_inv as (_ & _ & Hmiss & _). apply all_missing_false_nonempty. exact Hmiss. Qed.

  Lemma baseline_rows : rows = blank_last (window (baseline_start_limit o data) (b_end o) data).
  Proof. destruct baseline_inv as (_ & _ & _ & Hrows & _). exact Hrows. Qed.

  Lemma baseline_warnings :
    we = warn_end (b_end o) (baseline_end_limit o (baseline_before o data)) data /\
    ws = warn_start (b_start o) (baseline_start_limit o data) data.
  Proof. destruct baseline_inv as (_ & _ & _ & _ & Hwarn). exact Hwarn. Qed.
End BaselineOk.

Lemma baseline_end_limit_some : forall o before e, b_end o = Some e ->
  exists eff, baseline_end_limit o before = Some eff /\
    (eff = e \/ b_ignore_gap o = true /\ eff = last_ts before e).
Proof.
  intros o before e He. unfold baseline_end_limit. rewrite He.
  destruct (b_ignore_gap o); [|exists e; split; [reflexivity | left; reflexivity]].
  destruct (true && _).
  - exists (last_ts before e). split; [reflexivity | right; split; reflexivity].
  - exists e. split; [reflexivity | left; reflexivity].
Qed.

Lemma baseline_start_limit_max_days : forall o data eff m,
  baseline_end_limit o (baseline_before o data) = Some eff -> b_max_days o = Some m ->
  baseline_start_limit o data =
  if b_overshoot o then nearest (baseline_before o data) (eff - m * DAY) else Some (eff - m * DAY).
Proof.
  intros o data eff m E Hm. unfold baseline_start_limit, baseline_start_target. rewrite E, Hm. reflexivity.
Qed.

Lemma baseline_start_limit_given : forall o data s, b_args_ok o = true -> b_start o = Some s ->
  baseline_start_limit o data = if b_overshoot o then nearest (baseline_before o data) s else Some s.
Proof.
  intros o data s Ha Hs. unfold b_args_ok in Ha. rewrite Hs in Ha.
  unfold baseline_start_limit, baseline_start_target. destruct (b_max_days o); [discriminate|].
  destruct (baseline_end_limit o (baseline_before o data)); rewrite Hs; reflexivity.
Qed.

Definition r_args_ok (o : ropts) : bool :=
  match r_max_days o, r_end o with Some _, Some _ => false | _, _ => true end.

Definition reporting_after (o : ropts) (data : list row) : list row :=
  match r_start o with Some s => slice_from s data | None => data end.

Definition reporting_end_limit (o : ropts) (data : list row) : option Z :=
  let after := reporting_after o data in
  match reporting_end_target o after with
  | None => None
  | Some t => if r_overshoot o then nearest after t else Some t
  end.

Definition reporting_selection (o : ropts) (data : list row) : list row :=
  match reporting_end_limit o data with
  | Some e => slice_to e (reporting_after o data)
  | None => reporting_after o data
  end.

Lemma get_reporting_data_unfold : forall o data,
  get_reporting_data o data =
  window_result (r_args_ok o) (reporting_after o data) (reporting_selection o data)
                (warn_end (r_end o) (reporting_end_limit o data) data)
                (warn_start (r_start o) (reporting_start_limit o (reporting_after o data)) data).
Proof.
  intros o data. unfold get_reporting_data, r_args_ok, window_result, warn_end, warn_start,
    reporting_selection, reporting_end_limit, reporting_after.
  destruct (r_max_days o); destruct (r_end o); reflexivity.
Qed.

(* here the index is cut at the start first and at the end second; the order does not matter *)
Lemma reporting_selection_window : forall o data,
  reporting_selection o data = window (r_start o) (reporting_end_limit o data) data.
Proof.
  intros o data. unfold reporting_selection, reporting_after, window.
  destruct (reporting_end_limit o data), (r_start o); try reflexivity. apply filter_comm.
Qed.

Section ReportingOk.
  Variables (o : ropts) (data rows : list row) (we ws : bool).
  Hypothesis Hok : get_reporting_data o data = Ok rows we ws.

  Lemma reporting_inv :
    r_args_ok o = true /\ reporting_after o data <> [] /\
    all_missing (window (r_start o) (reporting_end_limit o data) data) = false /\
    rows = blank_last (window (r_start o) (reporting_end_limit o data) data) /\
    we = warn_end (r_end o) (reporting_end_limit o data) data /\
    ws = warn_start (r_start o) (reporting_start_limit o (reporting_after o data)) data.
  Proof.
    pose proof Hok as H. rewrite get_reporting_data_unfold, reporting_selection_window in H.
    exact (window_result_inv _ _ _ _ _ _ _ _ H).
  Qed.

  Lemma reporting_args : r_args_ok o = true.
  Proof. destruct reporting_inv as (Hargs & _). exact Hargs. Qed.

  Lemma reporting_after_nonempty : reporting_after o data <> [].
  Proof. destruct reporting_inv as (_ & Hafter & _). exact Hafter. Qed.

  Lemma reporting_window_nonempty : window (r_start o) (reporting_end_limit o data) data <> [].
  Proof. destruct reporting_inv as (_ & _ & Hmiss & _). apply all_missing_false_nonempty. exact Hmiss. Qed.

  Lemma reporting_rows : rows = blank_last (window (r_start o) (reporting_end_limit o data) data).
  Proof. destruct reporting_inv as (_ & _ & _ & Hrows & _). exact Hrows. Qed.

  Lemma reporting_warnings :
    we = warn_end (r_end o) (reporting_end_limit o data) data /\
    ws = warn_start (r_start o) (reporting_start_limit o (reporting_after o data)) data.
  Proof. destruct reporting_inv as (_ & _ & _ & _ & Hwarn). exact Hwarn. Qed.
End ReportingOk.

Lemma reporting_start_limit_some : forall o after s, r_start o = Some s ->
  exists eff, reporting_start_limit o after = Some eff /\
    (eff = s \/ r_ignore_gap o = true /\ eff = first_ts after s).
Proof.
  intros o after s Hs. unfold reporting_start_limit. rewrite Hs. destruct (r_ignore_gap o).
  - exists (first_ts after s). split; [reflexivity | right; split; reflexivity].
  - exists s. split; [reflexivity | left; reflexivity].
Qed.

Lemma reporting_end_limit_max_days : forall o data eff m,
  reporting_start_limit o (reporting_after o data) = Some eff -> r_max_days o = Some m ->
  reporting_end_limit o data =
  if r_overshoot o then nearest (reporting_after o data) (eff + m * DAY) else Some (eff + m * DAY).
Proof.
  intros o data eff m E Hm. unfold reporting_end_limit, reporting_end_target. rewrite E, Hm. reflexivity.
Qed.

Lemma reporting_end_limit_given : forall o data e, r_args_ok o = true -> r_end o = Some e ->
  reporting_end_limit o data = if r_overshoot o then nearest (reporting_after o data) e else Some e.
Proof.
  intros o data e Ha He. unfold r_args_ok in Ha. rewrite He in Ha.
  unfold reporting_end_limit, reporting_end_target. destruct (r_max_days o); [discriminate|].
  destruct (reporting_start_limit o (reporting_after o data)); rewrite He; reflexivity.
Qed.

(* a gap: the requested limit lies strictly beyond every label of the data *)
Definition gap_end (e : option Z) (data : list row) : Prop :=
  exists x, e = Some x /\ forall r, In r data -> ts r < x.
Definition gap_start (s : option Z) (data : list row) : Prop :=
  exists x, s = Some x /\ forall r, In r data -> x < ts r.

(* every option moves a limit towards the data or onto a label, and a label never passes the test *)
Lemma warn_end_sound : forall req lim data, sorted data ->
  (forall e el, req = Some e -> lim = Some el -> el <= e \/ In el (map ts data)) ->
  warn_end req lim data = true -> gap_end req data.
Proof.
  intros [e|] [el|] data Hs Hlim W; try discriminate. apply Z.ltb_lt in W.
  exists e. split; [reflexivity|]. intros r Hr. pose proof (last_ts_max data e r Hs Hr).
  destruct (Hlim e el eq_refl eq_refl) as [Hle|Hin]; [lia|].
  apply in_map_iff in Hin. destruct Hin as [r0 [<- Hr0]].
  pose proof (last_ts_max data e r0 Hs Hr0). lia.
Qed.

Lemma warn_start_sound : forall req lim data, sorted data ->
  (forall s sl, req = Some s -> lim = Some sl -> s <= sl \/ In sl (map ts data)) ->
  warn_start req lim data = true -> gap_start req data.
Proof.
  intros [s|] [sl|] data Hs Hlim W; try discriminate. apply Z.ltb_lt in W.
  exists s. split; [reflexivity|]. intros r Hr. pose proof (first_ts_min data s r Hs Hr).
  destruct (Hlim s sl eq_refl eq_refl) as [Hle|Hin]; [lia|].
  apply in_map_iff in Hin. destruct Hin as [r0 [<- Hr0]].
  pose proof (first_ts_min data s r0 Hs Hr0). lia.
Qed.

(* against the requested limit itself the test decides the gap *)
Lemma warn_end_iff : forall req lim data, sorted data -> data <> [] ->
  (forall e, req = Some e -> lim = Some e) -> (warn_end req lim data = true <-> gap_end req data).
Proof.
  intros [e|] lim data Hs Hne Hlim; [|split; [discriminate | intros [x [E _]]; discriminate]].
  rewrite (Hlim e eq_refl). unfold warn_end. rewrite Z.ltb_lt. split.
  - intros H. exists e. split; [reflexivity|].
    intros r Hr. pose proof (last_ts_max data e r Hs Hr). lia.
  - intros [x [[= <-] H]]. destruct (last_ts_row data e Hne) as [r [Hr <-]]. apply H. exact Hr.
Qed.

Lemma warn_start_iff : forall req lim data, sorted data -> data <> [] ->
  (forall s, req = Some s -> lim = Some s) -> (warn_start req lim data = true <-> gap_start req data).
Proof.
  intros [s|] lim data Hs Hne Hlim; [|split; [discriminate | intros [x [E _]]; discriminate]].
  rewrite (Hlim s eq_refl). unfold warn_start. rewrite Z.ltb_lt. split.
  - intros H. exists s. split; [reflexivity|].
    intros r Hr. pose proof (first_ts_min data s r Hs Hr). lia.
  - intros [x [[= <-] H]]. destruct (first_ts_row data s Hne) as [r [Hr <-]]. apply H. exact Hr.
Qed.

(* where an explicitly requested start of a baseline / end of a reporting period ends up: on itself, or with the
   overshoot option on a label.  [window lo hi data] is the index cut at the other, near bound:
   [baseline_before o data] is [window None (b_end o) data], [reporting_after o data] is [window (r_start o) None data] *)
Lemma moved_limit_target_or_label : forall (ov : bool) lo hi data x lim, sorted data ->
  (if ov then nearest (window lo hi data) x else Some x) = Some lim -> lim = x \/ In lim (map ts data).
Proof.
  intros [|] lo hi data x lim Hs H.
  - right. apply (incl_map ts (window_incl lo hi data)). apply (nearest_spec _ _ _ (window_sorted lo hi data Hs) H).
  - left. congruence.
Qed.
