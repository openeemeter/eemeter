(* Facts about lists that mention no definition of the models: used by the proof files of several properties. *)
From Coq Require Import ZArith List Bool Lia Permutation Sorted.
Import ListNotations.

(* two lists with the same view [v]: a column that is determined by the view is the same in both *)
Lemma map_eq_of_view : forall (A B X : Type) (v : A -> B) (g g' : A -> X) (l l' : list A),
  map v l = map v l' ->
  (forall a a', In a l -> In a' l' -> v a = v a' -> g a = g' a') ->
  map g l = map g' l'.
Proof.
  intros A B X v g g'. induction l as [|a l IH]; intros [|a' l'] E H; try discriminate; [reflexivity|].
  cbn [map] in *. injection E as Ea El. f_equal.
  - apply H; [left; reflexivity | left; reflexivity | exact Ea].
  - apply IH; [exact El|]. intros x x' Hx Hx'. apply H; right; assumption.
Qed.
Arguments map_eq_of_view {A B X} v {g g' l l'} _ _.

(* a key without duplicates identifies the element *)
Lemma NoDup_map_In_inj : forall (B C : Type) (key : B -> C) (l : list B) a b,
  NoDup (map key l) -> In a l -> In b l -> key a = key b -> a = b.
Proof.
  intros B C key. induction l as [|x l IH]; intros a b Hnd Ha Hb E; [destruct Ha|].
  cbn [map] in Hnd. inversion Hnd as [|? ? Hx Hnd']; subst.
  destruct Ha as [Ha|Ha], Hb as [Hb|Hb]; subst.
  - reflexivity.
  - exfalso. apply Hx. rewrite E. apply in_map. exact Hb.
  - exfalso. apply Hx. rewrite <- E. apply in_map. exact Ha.
  - apply IH; assumption.
Qed.

Lemma Forall2_len : forall (A B : Type) (R : A -> B -> Prop) l1 l2, Forall2 R l1 l2 -> length l1 = length l2.
Proof. intros A B R l1 l2 H. induction H; cbn; [reflexivity | f_equal; assumption]. Qed.

Lemma existsb_ext : forall (A : Type) (p q : A -> bool) l, (forall x, p x = q x) -> existsb p l = existsb q l.
Proof. intros A p q l H. induction l as [|x l IH]; cbn; [reflexivity|]. rewrite H, IH. reflexivity. Qed.

Lemma map_fst_combine : forall (A B : Type) (l : list A) (l' : list B),
  length l <= length l' -> map fst (combine l l') = l.
Proof.
  intros A B. induction l as [|x l IH]; intros l' H; [reflexivity|].
  destruct l' as [|y l']; cbn in *; [lia|]. f_equal. apply IH. lia.
Qed.

Lemma map_snd_combine : forall (A B : Type) (l : list A) (l' : list B),
  length l' <= length l -> map snd (combine l l') = l'.
Proof.
  intros A B. induction l as [|x l IH]; intros [|y l'] H; cbn in *; try reflexivity; [lia|].
  f_equal. apply IH. lia.
Qed.

Lemma filter_all : forall (A : Type) (p : A -> bool) l, (forall x, In x l -> p x = true) -> filter p l = l.
Proof.
  intros A p. induction l as [|x l IH]; intros H; cbn; [reflexivity|].
  rewrite (H x (or_introl eq_refl)), IH; [reflexivity|]. intros y Hy. apply H. right. exact Hy.
Qed.

Lemma filter_none : forall (A : Type) (p : A -> bool) l, (forall x, In x l -> p x = false) -> filter p l = [].
Proof.
  intros A p. induction l as [|x l IH]; intros H; cbn; [reflexivity|].
  rewrite (H x (or_introl eq_refl)). apply IH. intros y Hy. apply H. right. exact Hy.
Qed.

Lemma filter_comm : forall (A : Type) (p q : A -> bool) l, filter p (filter q l) = filter q (filter p l).
Proof.
  intros A p q. induction l as [|x l IH]; [reflexivity|]. cbn [filter].
  destruct (q x) eqn:Eq, (p x) eqn:Ep; cbn [filter]; rewrite ?Eq, ?Ep, IH; reflexivity.
Qed.

Lemma filter_split_perm : forall (B : Type) (p : B -> bool) l,
  Permutation (filter p l ++ filter (fun x => negb (p x)) l) l.
Proof.
  intros B p. induction l as [|x l IH]; cbn [filter]; [apply Permutation_refl|].
  destruct (p x); cbn [negb app].
  - apply perm_skip. exact IH.
  - eapply Permutation_trans; [apply Permutation_sym; apply Permutation_middle|]. apply perm_skip. exact IH.
Qed.

Lemma nth_error_app_some : forall (A : Type) (l m : list A) k (x : A),
  nth_error l k = Some x -> nth_error (l ++ m) k = Some x.
Proof.
  intros A l m k x H. rewrite nth_error_app1; [exact H|]. apply nth_error_Some. congruence.
Qed.

Lemma nth_error_middle : forall (A : Type) (l : list A) x m, nth_error (l ++ x :: m) (length l) = Some x.
Proof. intros A l x m. rewrite nth_error_app2, Nat.sub_diag; [reflexivity | apply Nat.le_refl]. Qed.

Lemma last_cons_in : forall (A : Type) (l : list A) a d, In (last (a :: l) d) (a :: l).
Proof.
  intros A. induction l as [|b l IH]; intros a d; [left; reflexivity|].
  change (last (a :: b :: l) d) with (last (b :: l) d). right. apply IH.
Qed.

Lemma last_in : forall (A : Type) (l : list A) d, In (last l d) (d :: l).
Proof. intros A [|a l] d; [left; reflexivity | right; apply last_cons_in]. Qed.

Lemma StronglySorted_nth : forall (A : Type) (R : A -> A -> Prop), (forall x, R x x) ->
  forall l d i j, StronglySorted R l -> i <= j -> j < length l -> R (nth i l d) (nth j l d).
Proof.
  intros A R Hrefl l d i j H. revert i j.
  induction H as [|x l Hl IH Hx]; intros i j Hij Hj; cbn [length] in Hj; [lia|].
  destruct i as [|i], j as [|j]; cbn [nth]; try lia.
  - apply Hrefl.
  - rewrite Forall_forall in Hx. apply Hx. apply nth_In. lia.
  - apply IH; lia.
Qed.

Lemma StronglySorted_map_filter : forall (A B : Type) (R : B -> B -> Prop) (f : A -> B) (p : A -> bool) l,
  StronglySorted R (map f l) -> StronglySorted R (map f (filter p l)).
Proof.
  intros A B R f p. induction l as [|x l IH]; intros H; [constructor|].
  cbn [map] in H. inversion H as [|? ? Hs Hf]; subst. cbn [filter].
  destruct (p x); [|apply IH; exact Hs]. cbn [map]. constructor; [apply IH; exact Hs|].
  rewrite Forall_forall in *. intros y Hy. apply Hf.
  apply in_map_iff in Hy. destruct Hy as [z [<- Hz]]. apply filter_In in Hz. apply in_map. tauto.
Qed.

Lemma StronglySorted_filter : forall (A : Type) (R : A -> A -> Prop) (p : A -> bool) l,
  StronglySorted R l -> StronglySorted R (filter p l).
Proof.
  intros A R p l H. rewrite <- (map_id (filter p l)). apply StronglySorted_map_filter. rewrite map_id. exact H.
Qed.

(* Insertion sort.  The models define it several times (Model/Rows.v and Model/PredictRows.v on a Z key, Model/Recovery.v
   and Model/Refine.v on reals); the facts are proved here for any insertion function [ins] with the two defining
   equations over a boolean test [leb], which each of those satisfies by [eq_refl]. *)
Section InsertionSortBy.
  Variables (B : Type) (leb : B -> B -> bool) (ins : B -> list B -> list B).
  Hypothesis ins_nil : forall x, ins x [] = [x].
  Hypothesis ins_cons : forall x y l, ins x (y :: l) = if leb x y then x :: y :: l else y :: ins x l.

  Lemma ins_by_perm : forall x l, Permutation (ins x l) (x :: l).
  Proof.
    intros x. induction l as [|y l IH]; [rewrite ins_nil; apply Permutation_refl|].
    rewrite ins_cons. destruct (leb x y); [apply Permutation_refl|].
    eapply Permutation_trans; [apply perm_skip; exact IH | apply perm_swap].
  Qed.

  Lemma isort_by_perm : forall l, Permutation (fold_right ins [] l) l.
  Proof.
    induction l as [|x l IH]; [apply Permutation_refl|]. cbn [fold_right].
    eapply Permutation_trans; [apply ins_by_perm | apply perm_skip; exact IH].
  Qed.

  Lemma isort_by_In : forall l x, In x (fold_right ins [] l) <-> In x l.
  Proof.
    intros l x. split; intros H.
    - eapply Permutation_in; [apply isort_by_perm | exact H].
    - eapply Permutation_in; [apply Permutation_sym; apply isort_by_perm | exact H].
  Qed.

  (* sortedness for any relation the test decides in this sense (a total order's <=, for instance) *)
  Variable le : B -> B -> Prop.
  Hypothesis leb_le : forall x y, leb x y = true -> le x y.
  Hypothesis leb_ge : forall x y, leb x y = false -> le y x.

  Lemma ins_by_sorted : forall x l, LocallySorted le l -> LocallySorted le (ins x l).
  Proof.
    intros x l H. induction H as [|y|y z l H IH Hyz].
    - rewrite ins_nil. constructor.
    - rewrite ins_cons, ins_nil. destruct (leb x y) eqn:E.
      + constructor; [constructor | exact (leb_le x y E)].
      + constructor; [constructor | exact (leb_ge x y E)].
    - rewrite ins_cons. destruct (leb x y) eqn:E.
      + constructor; [constructor; assumption | exact (leb_le x y E)].
      + rewrite ins_cons in IH |- *. destruct (leb x z) eqn:E2.
        * constructor; [exact IH | exact (leb_ge x y E)].
        * constructor; [exact IH | exact Hyz].
  Qed.

  Lemma isort_by_sorted : forall l, LocallySorted le (fold_right ins [] l).
  Proof. induction l as [|x l IH]; [constructor|]. cbn [fold_right]. apply ins_by_sorted. exact IH. Qed.
End InsertionSortBy.

(* the instance for a Z key, test [key x <=? key y] *)
Section InsertionSort.
  Variables (B : Type) (key : B -> Z) (ins : B -> list B -> list B).
  Hypothesis ins_nil : forall x, ins x [] = [x].
  Hypothesis ins_cons : forall x y l,
    ins x (y :: l) = if (key x <=? key y)%Z then x :: y :: l else y :: ins x l.
  Local Notation leb_key := (fun a b : B => (key a <=? key b)%Z).
  Local Notation le_key := (fun a b : B => (key a <= key b)%Z).

  Lemma ins_perm : forall x l, Permutation (ins x l) (x :: l).
  Proof. exact (ins_by_perm B leb_key ins ins_nil ins_cons). Qed.

  Lemma isort_perm : forall l, Permutation (fold_right ins [] l) l.
  Proof. exact (isort_by_perm B leb_key ins ins_nil ins_cons). Qed.

  Lemma isort_In : forall l x, In x (fold_right ins [] l) <-> In x l.
  Proof. exact (isort_by_In B leb_key ins ins_nil ins_cons). Qed.

  Lemma leb_key_le : forall x y, (key x <=? key y)%Z = true -> (key x <= key y)%Z.
  Proof. intros x y H. apply Z.leb_le. exact H. Qed.

  Lemma leb_key_ge : forall x y, (key x <=? key y)%Z = false -> (key y <= key x)%Z.
  Proof. intros x y H. apply Z.leb_gt in H. lia. Qed.

  Lemma ins_sorted : forall x l, LocallySorted le_key l -> LocallySorted le_key (ins x l).
  Proof. exact (ins_by_sorted B leb_key ins ins_nil ins_cons le_key leb_key_le leb_key_ge). Qed.

  Lemma isort_sorted : forall l, LocallySorted le_key (fold_right ins [] l).
  Proof. exact (isort_by_sorted B leb_key ins ins_nil ins_cons le_key leb_key_le leb_key_ge). Qed.
End InsertionSort.

(* A bounded universal quantifier over z, z+1, ..., z+n-1.  Model/SplitsCal.v defines the same function under the same
   name; this file may not import a model, and proof files of other properties run their sweeps with it, so it is defined
   here as well, with the same body: the two constants are convertible and [all_from_spec] applies to both. *)
Fixpoint all_from (n : nat) (z : Z) (p : Z -> bool) : bool :=
  match n with
  | O => true
  | S k => if p z then all_from k (z + 1)%Z p else false
  end.

Lemma all_from_spec : forall n z p, all_from n z p = true ->
  forall x, (z <= x < z + Z.of_nat n)%Z -> p x = true.
Proof.
  induction n as [|n IH]; intros z p H x Hx; [lia|].
  cbn [all_from] in H. destruct (p z) eqn:E; [|discriminate].
  destruct (Z.eq_dec x z) as [->|Hne]; [exact E|]. apply (IH (z + 1)%Z p H). lia.
Qed.
