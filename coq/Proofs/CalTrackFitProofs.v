(* Lemmas about Model/CalTrackFit.v (property C18): temperature bin selection and the hour-of-week
   occupancy rule. Nothing here looks inside the regenerated tables: every statement is for arbitrary temperatures,
   candidate lists, minimum counts, thresholds and residual tables. *)
From Coq Require Import ZArith QArith List Bool String Lia Lqa.
From V Require Import Model.CalTrack Model.CalTrackFit Proofs.ArithFacts Proofs.ListFacts Proofs.CalTrackProofs.
Import ListNotations.

Lemma filter_filter : forall (A : Type) (p q : A -> bool) l, filter q (filter p l) = filter (fun x => p x && q x) l.
Proof.
  induction l as [ | x l IH ]; [ reflexivity | ]. cbn [filter]. destruct (p x); cbn [filter andb]; [ | exact IH ].
  destruct (q x); rewrite IH; reflexivity.
Qed.

Lemma filter_select : forall (A : Type) (p : A -> bool) l, filter p l = select (map p l) l.
Proof. induction l as [ | x l IH ]; [ reflexivity | ]. cbn [filter map select]. destruct (p x); rewrite IH; reflexivity. Qed.

Lemma filter_length_le : forall (A : Type) (p : A -> bool) l, (List.length (filter p l) <= List.length l)%nat.
Proof. induction l as [ | x l IH ]; [ apply le_n | ]. cbn [filter List.length]. destruct (p x); cbn [List.length]; lia. Qed.

Lemma filter_shorter : forall (A : Type) (p : A -> bool) l x, In x l -> p x = false ->
  (List.length (filter p l) < List.length l)%nat.
Proof.
  induction l as [ | y l IH ]; intros x Hin Hp; [ destruct Hin | ].
  cbn [filter List.length]. destruct Hin as [-> | Hin].
  - rewrite Hp. pose proof (filter_length_le A p l). lia.
  - specialize (IH x Hin Hp). destruct (p y); cbn [List.length]; lia.
Qed.

Lemma in_if_singleton : forall (A : Type) (b : bool) (y x : A), In x (if b then [y] else []) -> y = x.
Proof. intros A [ | ] y x H; [ destruct H as [H | []]; exact H | destruct H ]. Qed.

Section FitBinsProofs.
  Variable temps : list Q.
  Variable minc : nat.

  (* every round of the loop only filters: the result is the candidates under one predicate *)
  Lemma fit_loop_is_filter : forall fuel e, exists p, fit_loop temps minc fuel e = filter p e.
  Proof.
    induction fuel as [ | fuel IH ]; intros e.
    - exists (fun _ => true). cbn. symmetry. apply filter_all. reflexivity.
    - cbn [fit_loop]. destruct (removals temps minc e) as [ | q rm ].
      + exists (fun _ => true). symmetry. apply filter_all. reflexivity.
      + destruct (IH (filter (keeps (q :: rm)) e)) as [p Hp]. eexists. rewrite Hp. apply filter_filter.
  Qed.

  Lemma fit_bins_is_filter : forall e, exists p, fit_bins temps minc e = filter p e.
  Proof. intros e. apply fit_loop_is_filter. Qed.

  Lemma fit_bins_sublist : forall e, exists flags, fit_bins temps minc e = select flags e.
  Proof. intros e. destruct (fit_bins_is_filter e) as [p Hp]. exists (map p e). rewrite Hp. apply filter_select. Qed.

  Lemma fit_bins_subset : forall e x, In x (fit_bins temps minc e) -> In x e.
  Proof. intros e x. destruct (fit_bins_is_filter e) as [p Hp]. rewrite Hp. intros H. apply filter_In in H. tauto. Qed.

  Lemma fit_bins_increasing : forall e, increasing e -> increasing (fit_bins temps minc e).
  Proof. intros e He. destruct (fit_bins_sublist e) as [flags Hf]. rewrite Hf. apply sublist_increasing. exact He. Qed.

  Lemma mid_removals_in : forall rest l x, In x (mid_removals temps minc l rest) -> In x rest.
  Proof.
    induction rest as [ | r rest IH ]; intros l x H; [ destruct H | ].
    cbn [mid_removals] in H. apply in_app_or in H. destruct H as [H | H].
    - left. exact (in_if_singleton _ _ _ _ H).
    - right. eapply IH. exact H.
  Qed.

  Lemma removals_in : forall e x, In x (removals temps minc e) -> In x e.
  Proof.
    intros [ | e0 rest ] x H; [ destruct H | ]. cbn [removals] in H.
    destruct (sparse temps minc None (Some e0) || sparse temps minc (Some (last rest e0)) None).
    - apply in_app_or in H. destruct H as [H | H].
      + left. exact (in_if_singleton _ _ _ _ H).
      + rewrite <- (in_if_singleton _ _ _ _ H). apply last_in.
    - right. eapply mid_removals_in. exact H.
  Qed.

  Lemma keeps_false : forall rm x, In x rm -> keeps rm x = false.
  Proof.
    intros rm x H. unfold keeps, memQ. apply negb_false_iff. apply existsb_exists. exists x. split; [ exact H | apply Qeq_bool_refl ].
  Qed.

  Lemma fit_loop_stable : forall fuel e, (List.length e < fuel)%nat -> removals temps minc (fit_loop temps minc fuel e) = [].
  Proof.
    induction fuel as [ | fuel IH ]; intros e Hlen; [ lia | ].
    cbn [fit_loop]. destruct (removals temps minc e) as [ | q rm ] eqn:R; [ exact R | ].
    apply IH.
    assert (Hq : In q e) by (apply removals_in; rewrite R; left; reflexivity).
    pose proof (filter_shorter Q (keeps (q :: rm)) e q Hq (keeps_false (q :: rm) q (or_introl eq_refl))). lia.
  Qed.

  Lemma fit_bins_stable : forall e, removals temps minc (fit_bins temps minc e) = [].
  Proof. intros e. apply fit_loop_stable. lia. Qed.

  Lemma sparse_false : forall lo hi, sparse temps minc lo hi = false <-> (minc <= cnt temps lo hi)%nat.
  Proof. intros lo hi. apply Nat.ltb_ge. Qed.

  Lemma mid_removals_nil : forall rest l, mid_removals temps minc l rest = [] <-> Forall (fun c => (minc <= c)%nat) (mid_counts temps l rest).
  Proof.
    induction rest as [ | r rest IH ]; intros l; cbn [mid_removals mid_counts]; [ split; constructor | ].
    rewrite Forall_cons_iff, <- IH, <- sparse_false.
    destruct (sparse temps minc (Some l) (Some r)); cbn [app]; intuition congruence.
  Qed.

  (* nothing to remove exactly when one bin is left (no endpoint) or every bin holds the minimum count: the outer bins are
     looked at first, the inner ones only when both are full *)
  Lemma removals_nil : forall e, removals temps minc e = [] <-> e = [] \/ Forall (fun c => (minc <= c)%nat) (bin_counts temps e).
  Proof.
    intros [ | e0 rest ]; [ split; [ left | ]; reflexivity | ]. cbn [removals bin_counts].
    rewrite Forall_cons_iff, Forall_app, Forall_cons_iff, Forall_nil_iff, <- mid_removals_nil, <- !sparse_false.
    destruct (sparse temps minc None (Some e0)), (sparse temps minc (Some (last rest e0)) None); cbn [orb app];
      intuition congruence.
  Qed.

  Lemma fit_bins_min_count : forall e,
    fit_bins temps minc e = [] \/ Forall (fun c => (minc <= c)%nat) (bin_counts temps (fit_bins temps minc e)).
  Proof. intros e. apply removals_nil. apply fit_bins_stable. Qed.

  Lemma fit_bins_keeps_full_lists : forall e, Forall (fun c => (minc <= c)%nat) (bin_counts temps e) -> fit_bins temps minc e = e.
  Proof.
    intros e H. unfold fit_bins. cbn [fit_loop]. rewrite (proj2 (removals_nil e) (or_intror H)). reflexivity.
  Qed.

  Lemma bin_counts_length : forall e, List.length (bin_counts temps e) = S (List.length e).
  Proof.
    intros [ | e0 rest ]; [ reflexivity | ]. cbn [bin_counts List.length]. f_equal. rewrite app_length. cbn [List.length].
    assert (M : forall r l, List.length (mid_counts temps l r) = List.length r).
    { induction r as [ | x r IH ]; intros l; [ reflexivity | ]. cbn [mid_counts List.length]. f_equal. apply IH. }
    rewrite M. lia.
  Qed.
End FitBinsProofs.

Local Open Scope Q_scope.

Lemma Qeq_bool_lt : forall a b, a < b -> Qeq_bool a b = false.
Proof. intros a b H. apply not_true_iff_false. rewrite Qeq_bool_iff. apply Qlt_not_eq. exact H. Qed.

Lemma memQ_above : forall a l, Forall (fun x => a < x) l -> forall p, memQ a (filter p l) = false.
Proof.
  intros a l H p. unfold memQ. induction l as [ | y l IH ]; [ reflexivity | ].
  inversion H as [ | ? ? Hy Hl ]; subst. cbn [filter]. destruct (p y); [ | apply IH; exact Hl ].
  cbn [existsb]. rewrite (IH Hl). rewrite orb_false_r. apply Qeq_bool_lt. exact Hy.
Qed.

(* the keep-flag column and back: `[endpoint in bins for endpoint in default_bins]`, later `.index[flags].tolist()` *)
Lemma flags_round_trip : forall l (p : Q -> bool), strictly_increasing l ->
  filter (fun c => memQ c (filter p l)) l = filter p l.
Proof.
  induction l as [ | a l IH ]; intros p H; [ reflexivity | ]. destruct H as [Ha Hl].
  cbn [filter]. destruct (p a) eqn:Pa.
  - unfold memQ at 1. cbn [existsb]. rewrite Qeq_bool_refl. cbn [orb].
    f_equal. transitivity (filter (fun c => memQ c (filter p l)) l); [ | apply IH; exact Hl ]. apply filter_ext_in. intros c Hc.
    unfold memQ. cbn [existsb]. rewrite Forall_forall in Ha. rewrite Qeq_bool_comm, (Qeq_bool_lt a c (Ha c Hc)). reflexivity.
  - rewrite (memQ_above a l Ha p). apply IH. exact Hl.
Qed.

Lemma normalize_strictly_increasing : forall l, strictly_increasing l -> normalize l = l.
Proof.
  induction l as [ | a r IH ]; intros H; [ reflexivity | ]. destruct H as [Ha Hr].
  change (normalize (a :: r)) with (insert_sorted a (normalize r)). rewrite (IH Hr).
  destruct r as [ | y r' ]; [ reflexivity | ]. inversion Ha as [ | ? ? Hay _ ]; subst. cbn [insert_sorted].
  rewrite (proj2 (Qltb_true a y) Hay : Qltb a y = true), (Qeq_bool_lt a y Hay). reflexivity.
Qed.

(* what sorted(set(...)) returns for any candidate list: strictly increasing, and nothing that was not a candidate *)
Lemma insert_sorted_above : forall a x l, a < x -> Forall (fun y => a < y) l -> Forall (fun y => a < y) (insert_sorted x l).
Proof.
  intros a x l Hax. induction l as [ | y r IH ]; intros H; cbn [insert_sorted]; [ constructor; [ exact Hax | constructor ] | ].
  inversion H as [ | ? ? Hy Hr ]; subst. destruct (Qeq_bool x y); [ exact H | ].
  destruct (Qltb x y); constructor; [ exact Hax | exact H | exact Hy | apply IH; exact Hr ].
Qed.

Lemma insert_sorted_strict : forall x l, strictly_increasing l -> strictly_increasing (insert_sorted x l).
Proof.
  intros x. induction l as [ | y r IH ]; intros H; cbn [insert_sorted]; [ split; [ constructor | exact I ] | ].
  destruct H as [Hy Hr]. destruct (Qeq_bool x y) eqn:E; [ exact (conj Hy Hr) | ]. apply Qeq_bool_neq in E.
  destruct (Qltb x y) eqn:L.
  - apply Qltb_true in L. split; [ | exact (conj Hy Hr) ]. constructor; [ exact L | ].
    eapply Forall_impl; [ | exact Hy ]. intros z Hz. exact (Qlt_trans _ _ _ L Hz).
  - apply Qltb_false in L. assert (Hyx : y < x) by (destruct (Qle_lt_or_eq _ _ L) as [H | H]; [ exact H | symmetry in H; contradiction ]).
    split; [ apply insert_sorted_above; assumption | apply IH; exact Hr ].
Qed.

Lemma insert_sorted_In : forall x l z, In z (insert_sorted x l) -> z = x \/ In z l.
Proof.
  intros x. induction l as [ | y r IH ]; intros z H; cbn [insert_sorted] in H.
  - destruct H as [<- | []]. left. reflexivity.
  - destruct (Qeq_bool x y); [ right; exact H | ]. destruct (Qltb x y).
    + destruct H as [<- | H]; [ left; reflexivity | right; exact H ].
    + destruct H as [<- | H]; [ right; left; reflexivity | ].
      destruct (IH z H) as [-> | H']; [ left; reflexivity | right; right; exact H' ].
Qed.

Lemma insert_sorted_has : forall x l, exists y, In y (insert_sorted x l) /\ x == y.
Proof.
  intros x. induction l as [ | y r IH ]; cbn [insert_sorted]; [ exists x; split; [ left; reflexivity | reflexivity ] | ].
  destruct (Qeq_bool x y) eqn:E; [ exists y; split; [ left; reflexivity | apply Qeq_bool_iff; exact E ] | ].
  destruct (Qltb x y); [ exists x; split; [ left; reflexivity | reflexivity ] | ].
  destruct IH as [z [Hz Ez]]. exists z. split; [ right; exact Hz | exact Ez ].
Qed.

Lemma insert_sorted_keeps : forall x l z, In z l -> In z (insert_sorted x l).
Proof.
  intros x. induction l as [ | y r IH ]; intros z H; [ destruct H | ]. cbn [insert_sorted].
  destruct (Qeq_bool x y); [ exact H | ]. destruct (Qltb x y); [ right; exact H | ].
  destruct H as [<- | H]; [ left; reflexivity | right; exact (IH z H) ].
Qed.

Lemma normalize_strict : forall l, strictly_increasing (normalize l).
Proof.
  induction l as [ | a l IH ]; [ exact I | ]. change (normalize (a :: l)) with (insert_sorted a (normalize l)).
  apply insert_sorted_strict. exact IH.
Qed.

Lemma normalize_incl : forall l z, In z (normalize l) -> In z l.
Proof.
  induction l as [ | a l IH ]; intros z H; [ destruct H | ]. change (normalize (a :: l)) with (insert_sorted a (normalize l)) in H.
  destruct (insert_sorted_In _ _ _ H) as [-> | H']; [ left; reflexivity | right; exact (IH z H') ].
Qed.

(* up to equality of rationals nothing is lost *)
Lemma normalize_complete : forall l x, In x l -> exists y, In y (normalize l) /\ x == y.
Proof.
  induction l as [ | a l IH ]; intros x H; [ destruct H | ]. change (normalize (a :: l)) with (insert_sorted a (normalize l)).
  destruct H as [<- | H]; [ apply insert_sorted_has | ].
  destruct (IH x H) as [y [Hy Ey]]. exists y. split; [ apply insert_sorted_keeps; exact Hy | exact Ey ].
Qed.

Lemma strictly_increasing_increasing : forall l, strictly_increasing l -> increasing l.
Proof.
  induction l as [ | a l IH ]; intros H; [ exact I | ]. destruct H as [Ha Hl]. apply increasing_cons_iff.
  split; [ | exact (IH Hl) ]. eapply Forall_impl; [ | exact Ha ]. intros x Hx. apply Qlt_le_weak. exact Hx.
Qed.

(* so the endpoints _fit_temperature_bins returns are increasing candidates, whatever candidate list it is given *)
Lemma fit_temperature_bins_list_increasing : forall temps cands minc, increasing (fit_temperature_bins_list temps cands minc).
Proof.
  intros temps cands minc. apply fit_bins_increasing, strictly_increasing_increasing, normalize_strict.
Qed.

Lemma fit_temperature_bins_list_subset : forall temps cands minc x,
  In x (fit_temperature_bins_list temps cands minc) -> In x cands.
Proof. intros temps cands minc x H. apply normalize_incl. exact (fit_bins_subset temps minc _ x H). Qed.

(* with strictly increasing candidates, selecting the candidates by the flag column gives back exactly the fitted
   endpoint list *)
Lemma fit_flags_select : forall temps cands minc, strictly_increasing cands ->
  select (fit_flags temps cands minc) cands = fit_temperature_bins_list temps cands minc.
Proof.
  intros temps cands minc Hs. unfold fit_flags, fit_temperature_bins_list. rewrite (normalize_strictly_increasing cands Hs).
  destruct (fit_bins_is_filter temps minc cands) as [p Hp]. rewrite Hp.
  rewrite <- filter_select. apply flags_round_trip. exact Hs.
Qed.

Lemma hours_length : List.length hours_of_week = 168%nat.
Proof. unfold hours_of_week. rewrite map_length, seq_length. reflexivity. Qed.

Lemma occupancy_lookup_length : forall b thr rows, List.length (occupancy_lookup b thr rows) = 168%nat.
Proof. intros b thr rows. unfold occupancy_lookup. destruct b; rewrite map_length; apply hours_length. Qed.

Lemma hours_nth : forall h, (0 <= h < 168)%Z -> nth_error hours_of_week (Z.to_nat h) = Some h.
Proof.
  intros h Hh. unfold hours_of_week. rewrite nth_error_map. rewrite nth_error_nth' with (d := O) by (rewrite seq_length; lia).
  rewrite seq_nth by lia. cbn [option_map]. f_equal. lia.
Qed.

Lemma occupancy_entry : forall (no_data : bool) thr rows h, (0 <= h < 168)%Z ->
  nth_error (occupancy_lookup no_data thr rows) (Z.to_nat h)
  = Some (if no_data then None else Some (occupied_flag thr rows h)).
Proof.
  intros no_data thr rows h Hh. unfold occupancy_lookup. destruct no_data; rewrite nth_error_map, (hours_nth h Hh); reflexivity.
Qed.

Lemma occupied_iff_ratio : forall thr rows h, (0 < n_residuals rows h)%nat ->
  (occupied_flag thr rows h = true <-> thr < ratio (n_positive rows h) (n_residuals rows h)).
Proof.
  intros thr rows h Hn. unfold occupied_flag, flag_q. destruct (n_residuals rows h) as [ | n ] eqn:E; [ lia | ]. apply Qltb_true.
Qed.

Lemma occupied_without_residuals : forall thr rows h, n_residuals rows h = O -> occupied_flag thr rows h = true.
Proof. intros thr rows h Hn. unfold occupied_flag, flag_q. rewrite Hn. reflexivity. Qed.

(* the same without division: p positive residuals out of n > 0 *)
Lemma ratio_gt_iff : forall thr p n, (0 < n)%nat ->
  (thr < ratio p n <-> thr * inject_Z (Z.of_nat n) < inject_Z (Z.of_nat p)).
Proof.
  intros thr p n Hn. unfold ratio.
  assert (Hpos : 0 < inject_Z (Z.of_nat n)) by (change 0 with (inject_Z 0); rewrite <- Zlt_Qlt; lia).
  rewrite <- (Qmult_lt_r _ _ _ Hpos). rewrite (Qmult_comm (_ / _)), Qmult_div_r by lra. reflexivity.
Qed.

Lemma n_positive_le : forall rows h, (n_positive rows h <= n_residuals rows h)%nat.
Proof. intros rows h. unfold n_positive, n_residuals. apply filter_length_le. Qed.
