(* Lemmas about Model/MetricsUtils.v (exact rationals; no axioms): [qpow10] is Coq's power of 10; the decade search of OoM is
   sound and, within its fuel, complete; what every OoM method reads off the decade; RoundToSigFigs as coded; np_clip;
   fast_std with a given mean; the median absolute deviation about any centre; the rows MAPE averages over ([mape_rows]). *)
From Coq Require Import ZArith QArith Qabs Qround Qminmax Qpower List Bool Lia Lqa.
From V Require Import Model.Metrics Model.MetricsUtils Proofs.ArithFacts Proofs.MetricsProofs Proofs.MetricsQuantileProofs.
Import ListNotations.
Open Scope Q_scope.

Lemma qpow10_Qpower : forall k, qpow10 k == 10 ^ k.
Proof.
  intros [|p|p]; cbn [qpow10].
  - reflexivity.
  - apply (Zpower_Qpower 10 (Z.pos p)). lia.
  - rewrite Qpower_decomp_neg_pos, Z.pow_1_l by lia. reflexivity.
Qed.

Lemma qpow10_pos : forall k, 0 < qpow10 k.
Proof. intros k. rewrite qpow10_Qpower. apply Qpower_0_lt. reflexivity. Qed.

Lemma qpow10_opp : forall k, qpow10 (- k) == / qpow10 k.
Proof. intros k. rewrite !qpow10_Qpower. apply Qpower_opp. Qed.

Lemma qpow10_le : forall j k, (j <= k)%Z -> qpow10 j <= qpow10 k.
Proof. intros j k H. rewrite !qpow10_Qpower. apply Qpower_le_compat_l; [exact H|discriminate]. Qed.

Lemma qpow10_lt : forall j k, (j < k)%Z -> qpow10 j < qpow10 k.
Proof. intros j k H. rewrite !qpow10_Qpower. apply Qpower_lt_compat_l; [exact H|reflexivity]. Qed.

Lemma decade_up_sound : forall fuel a k r, qpow10 k <= a -> decade_up fuel a k = Some r ->
  qpow10 r <= a /\ a < qpow10 (r + 1).
Proof.
  induction fuel as [|f IH]; intros a k r Hk H; [discriminate|]. cbn [decade_up] in H.
  destruct (Qltb a (qpow10 (k + 1))) eqn:E.
  - injection H as <-. apply Qltb_true_iff in E. split; assumption.
  - apply Qltb_false_iff in E. apply (IH a (k + 1)%Z r E H).
Qed.

Lemma decade_down_sound : forall fuel a k r, a < qpow10 (k + 1) -> decade_down fuel a k = Some r ->
  qpow10 r <= a /\ a < qpow10 (r + 1).
Proof.
  induction fuel as [|f IH]; intros a k r Hk H; [discriminate|]. cbn [decade_down] in H.
  destruct (Qle_bool (qpow10 k) a) eqn:E.
  - injection H as <-. apply Qle_bool_iff in E. split; assumption.
  - apply Qle_bool_false in E. apply (IH a (k - 1)%Z r); [|exact H].
    replace (k - 1 + 1)%Z with k by lia. exact E.
Qed.

Lemma decade_sound : forall a k, decade a = Some k -> qpow10 k <= a /\ a < qpow10 (k + 1).
Proof.
  intros a k H. unfold decade in H. destruct (Qle_bool 1 a) eqn:E.
  - apply Qle_bool_iff in E. apply (decade_up_sound 400 a 0%Z k); [exact E|exact H].
  - apply Qle_bool_false in E. apply (decade_down_sound 400 a (-1)%Z k); [exact E|exact H].
Qed.

(* conversely the search finds the decade of [a] whenever that lies within reach of the fuel *)
Lemma decade_up_complete : forall fuel a k r, (k <= r < k + Z.of_nat fuel)%Z ->
  qpow10 r <= a -> a < qpow10 (r + 1) -> decade_up fuel a k = Some r.
Proof.
  induction fuel as [|f IH]; intros a k r Hr L U; [lia|]. cbn [decade_up].
  destruct (Z.eq_dec k r) as [->|N].
  - rewrite (proj2 (Qltb_true_iff _ _) U). reflexivity.
  - assert (E : qpow10 (k + 1) <= a) by (eapply Qle_trans; [apply qpow10_le|exact L]; lia).
    rewrite (proj2 (Qltb_false_iff _ _) E). apply IH; [lia|exact L|exact U].
Qed.

Lemma decade_down_complete : forall fuel a k r, (k - Z.of_nat fuel < r <= k)%Z ->
  qpow10 r <= a -> a < qpow10 (r + 1) -> decade_down fuel a k = Some r.
Proof.
  induction fuel as [|f IH]; intros a k r Hr L U; [lia|]. cbn [decade_down].
  destruct (Z.eq_dec k r) as [->|N].
  - rewrite (proj2 (Qle_bool_iff _ _) L). reflexivity.
  - assert (E : a < qpow10 k) by (eapply Qlt_le_trans; [exact U|apply qpow10_le]; lia).
    rewrite (proj2 (Qle_bool_false _ _) E). apply IH; [lia|exact L|exact U].
Qed.

Lemma decade_complete : forall a r, (-400 <= r < 400)%Z -> qpow10 r <= a -> a < qpow10 (r + 1) -> decade a = Some r.
Proof.
  intros a r Hr L U. unfold decade. change 1 with (qpow10 0).
  destruct (Qle_bool (qpow10 0) a) eqn:E.
  - apply Qle_bool_iff in E. apply decade_up_complete; [|exact L|exact U].
    change (Z.of_nat 400) with 400%Z. destruct (Z_lt_le_dec r 0) as [N|N]; [exfalso|lia].
    pose proof (qpow10_le (r + 1) 0 ltac:(lia)). lra.
  - apply Qle_bool_false in E. apply decade_down_complete; [|exact L|exact U].
    change (Z.of_nat 400) with 400%Z. destruct (Z_lt_le_dec r 0) as [N|N]; [lia|exfalso].
    pose proof (qpow10_le 0 r N). lra.
Qed.

Lemma oom_floor_sound : forall x k, ~ x == 0 -> oom OFloor x = Some k ->
  qpow10 k <= Qabs x /\ Qabs x < qpow10 (k + 1).
Proof.
  intros x k Hx H. unfold oom in H. destruct (Qeq_bool x 0) eqn:Z; [apply Qeq_bool_iff in Z; contradiction|].
  destruct (decade (Qabs x)) as [d|] eqn:D; [|discriminate]. injection H as <-. apply decade_sound. exact D.
Qed.

Lemma oom_floor_complete : forall x k, (-400 <= k < 400)%Z ->
  qpow10 k <= Qabs x -> Qabs x < qpow10 (k + 1) -> oom OFloor x = Some k.
Proof.
  intros x k Hk L U. unfold oom. destruct (Qeq_bool x 0) eqn:Z.
  - apply Qeq_bool_iff in Z. rewrite Z in L. pose proof (qpow10_pos k). change (Qabs 0) with 0 in L. lra.
  - rewrite (decade_complete _ k Hk L U). reflexivity.
Qed.

Lemma oom_floor_pow10 : forall k, (-400 <= k < 400)%Z -> oom OFloor (qpow10 k) = Some k.
Proof.
  intros k Hk. pose proof (qpow10_pos k) as P.
  apply oom_floor_complete; [exact Hk| |]; rewrite Qabs_pos by lra; [apply Qle_refl|apply qpow10_lt; lia].
Qed.

(* for x <> 0 every method reads its answer off the decade k of |x| *)
Lemma oom_decade : forall m x r, ~ x == 0 -> oom m x = Some r ->
  exists k, oom OFloor x = Some k /\
    Some r = match m with
             | OFloor => Some k
             | OCeil => if Qeq_bool (Qabs x) (qpow10 k) then Some k else Some (k + 1)%Z
             | ORound => if Qltb (Qabs x * Qabs x) (qpow10 (2 * k + 1)) then Some k else Some (k + 1)%Z
             end.
Proof.
  intros m x r Hx H. unfold oom in *. rewrite (proj2 (Qeq_bool_false x 0) Hx) in *.
  destruct (decade (Qabs x)) as [k|]; [|discriminate]. exists k. split; [reflexivity|]. symmetry. exact H.
Qed.

Lemma round_half_even_close : forall y, Qabs (inject_Z (round_half_even y) - y) <= 1 # 2.
Proof.
  intros y. unfold round_half_even. apply Qabs_Qle_condition.
  pose proof (Qfloor_le y) as F1. pose proof (Qlt_floor y) as F2. set (f := Qfloor y) in *.
  rewrite inject_Z_plus in F2. change (inject_Z 1) with 1 in F2.
  destruct (Qltb (y - inject_Z f) (1 # 2)) eqn:E1; [apply Qltb_true_iff in E1; lra|apply Qltb_false_iff in E1].
  destruct (Qltb (1 # 2) (y - inject_Z f)) eqn:E2; [|apply Qltb_false_iff in E2; destruct (Z.even f)].
  all: rewrite ?inject_Z_plus; change (inject_Z 1) with 1; lra.
Qed.

Lemma sig_mags_pos : forall x p m, sig_mags x p = Some m -> 0 < m.
Proof.
  intros x p m H. unfold sig_mags in H. destruct (Qeq_bool x 0); [injection H as <-; lra|].
  destruct (oom ORound x); [|discriminate]. injection H as <-. apply qpow10_pos.
Qed.

Lemma round_sig_as_coded : forall x p r, round_sig x p = Some r ->
  exists m j, sig_mags x p = Some m /\ 0 < m /\ r * m == inject_Z j /\ Qabs (r - x) <= (1 # 2) / m.
Proof.
  intros x p r H. unfold round_sig in H. destruct (sig_mags x p) as [m|] eqn:M; [|discriminate].
  injection H as <-. pose proof (sig_mags_pos x p m M) as Pm.
  exists m, (round_half_even (x * m)). split; [reflexivity|]. split; [exact Pm|].
  rewrite Qred_correct. split; [field; lra|].
  pose proof (round_half_even_close (x * m)) as C. set (j := inject_Z (round_half_even (x * m))) in *.
  assert (E : j / m - x == (j - x * m) / m) by (field; lra). rewrite E.
  rewrite Qabs_div_pos by exact Pm. apply Qdiv_le_r; [lra|exact C].
Qed.

Lemma clip_nan : forall lo hi, clip None lo hi = None.
Proof. reflexivity. Qed.

Lemma clip_value : forall x lo hi, lo <= hi ->
  exists r, clip (Some x) lo hi = Some r /\ lo <= r /\ r <= hi /\ r == Qmin (Qmax x lo) hi.
Proof.
  intros x lo hi H. unfold clip. destruct (Qltb x lo) eqn:E1.
  - apply Qltb_true_iff in E1. exists lo. split; [reflexivity|]. split; [lra|]. split; [exact H|].
    rewrite (Q.max_r x lo) by lra. rewrite Q.min_l by exact H. reflexivity.
  - apply Qltb_false_iff in E1. destruct (Qltb hi x) eqn:E2.
    + apply Qltb_true_iff in E2. exists hi. split; [reflexivity|]. split; [exact H|]. split; [lra|].
      rewrite (Q.max_l x lo) by exact E1. rewrite Q.min_r by lra. reflexivity.
    + apply Qltb_false_iff in E2. exists x. split; [reflexivity|]. split; [exact E1|]. split; [exact E2|].
      rewrite (Q.max_l x lo) by exact E1. rewrite Q.min_l by exact E2. reflexivity.
Qed.

Lemma fast_var_plain : forall l, fast_var l None None = variance l.
Proof. reflexivity. Qed.

Lemma fast_var_scalar_weight : forall l w m, fast_var l (Some [w]) m = fast_var l None m.
Proof. reflexivity. Qed.

Lemma fast_var_given_mean : forall l mu, l <> [] ->
  fast_var l None (Some mu) == variance l + (mean l - mu) * (mean l - mu).
Proof.
  intros l mu H. pose proof (qlen_pos _ l H) as Hn. cbn [fast_var]. rewrite Qred_correct.
  unfold sum_sq_about. rewrite qsum_rsum, <- (map_map (fun x => x - mu) sqr), rsum_dev_sq.
  rewrite (variance_alt l H). unfold sum_sq. rewrite qsum_rsum, (mean_eq l). field. lra.
Qed.

Lemma mad_is_median_abs_dev : forall k l, median_absolute_deviation k l None == k * mad l.
Proof. intros. reflexivity. Qed.

Lemma abs_dev_le_sum : forall (l : list Q) m x, In x l -> Qabs (x - m) <= rsum (map (fun x0 => Qabs (x0 - m)) l).
Proof.
  intros l m x Hx. induction l as [|z l IH]; [contradiction|]. cbn [map]. rewrite rsum_cons.
  assert (0 <= rsum (map (fun x0 => Qabs (x0 - m)) l)) by (apply rsum_map_nonneg; intros v; apply Qabs_nonneg).
  pose proof (Qabs_nonneg (z - m)) as Pz.
  destruct Hx as [E|Hx]; [subst z; lra|]. specialize (IH Hx). lra.
Qed.

Lemma mad_about_bounds : forall l mu D, l <> [] -> (forall x, In x l -> Qabs (x - mu) <= D) ->
  0 <= mad_about l mu /\ mad_about l mu <= D.
Proof.
  intros l mu D Hl HD. unfold mad_about. apply median_bounds.
  - destruct l; [congruence|discriminate].
  - intros y Hy. apply in_map_iff in Hy. destruct Hy as [x [<- Hx]]. split; [apply Qabs_nonneg|apply HD; exact Hx].
Qed.

(* [median_bounds] wants an upper bound as well: the sum of all deviations is one ([abs_dev_le_sum]) *)
Lemma mad_about_nonneg : forall l mu, l <> [] -> 0 <= mad_about l mu.
Proof.
  intros l mu Hl. apply (mad_about_bounds l mu (rsum (map (fun x => Qabs (x - mu)) l)) Hl). intros x Hx.
  apply abs_dev_le_sum. exact Hx.
Qed.

(* MAPE: the rows [mape_of] averages over, those whose observed value is at least [mn] in absolute value *)
Definition mape_rows (d : list (Q * Q)) (mn : Q) : list (Q * Q) := filter (fun r => Qle_bool mn (Qabs (fst r))) d.

Lemma mape_rows_In : forall d mn r, In r (mape_rows d mn) <-> In r d /\ mn <= Qabs (fst r).
Proof. intros d mn r. unfold mape_rows. rewrite filter_In, Qle_bool_iff. reflexivity. Qed.

Lemma mape_of_rows : forall d mn,
  mape_of d mn = match mape_rows d mn with
                 | [] => Undef
                 | r0 :: nz =>
                     Num (Qred (qsum (map (fun r => Qabs ((fst r - snd r) / fst r)) (r0 :: nz)) / qlen (r0 :: nz)))
                 end.
Proof. intros d mn. unfold mape_of. fold (mape_rows d mn). destruct (mape_rows d mn); reflexivity. Qed.
