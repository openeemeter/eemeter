(* Lemmas about stored hourly models (Model/HourlyDoc.v), for the hourly part of Properties/C01.v.
   Integer keys: the text string_of_Z writes reads back as the integer and is never "all" ([key_roundtrip],
   [key_not_all]; the CalTRACK file uses both).  Settings: [coerce] is idempotent and leaves the fields its paths avoid
   alone.  Read-back: each reader of from_dict gives back what the matching writer of to_dict wrote ([parse_*_doc],
   [scaler_doc_inv]), put together in [hourly_from_doc_to_doc_gen]. *)
From Coq Require Import ZArith List Bool String Ascii PrimFloat Lia.
From V Require Import Model.Json Model.DailyDoc Model.HourlyDoc Proofs.DailyDocProofs.
Import ListNotations.
Open Scope string_scope.

Lemma nat_of_digit : forall d, (0 <= d < 10)%Z -> Z.of_nat (nat_of_ascii (digit d)) = (48 + d)%Z.
Proof. intros d H. unfold digit. rewrite nat_ascii_embedding by lia. lia. Qed.

Lemma digit_not : forall d c, (0 <= d < 10)%Z -> (nat_of_ascii c < 48 \/ 57 < nat_of_ascii c)%nat -> digit d <> c.
Proof. intros d c Hd Hc E. apply (f_equal nat_of_ascii) in E. pose proof (nat_of_digit d Hd). lia. Qed.

Lemma parse_digits_digit : forall d s a, (0 <= d < 10)%Z ->
  parse_digits (String (digit d) s) a = parse_digits s (a * 10 + d).
Proof.
  intros d s a H. cbn [parse_digits]. rewrite (nat_of_digit d H).
  replace ((48 <=? 48 + d)%Z && (48 + d <=? 57)%Z) with true by lia.
  f_equal. lia.
Qed.

(* dec_digits pushes the digits of n in front of acc, most significant first: reading them multiplies what was read
   so far by p = 10^(their number) and adds n *)
Lemma parse_dec_digits : forall fuel n acc, (0 <= n < 10 ^ Z.of_nat fuel)%Z ->
  exists p, forall a, parse_digits (dec_digits fuel n acc) a = parse_digits acc (a * p + n).
Proof.
  induction fuel as [|fuel IH]; intros n acc Hn.
  - exists 1%Z. intros a. cbn. f_equal. cbn in Hn. lia.
  - cbn [dec_digits]. pose proof (Z.mod_pos_bound n 10 eq_refl) as Hd. pose proof (Z.div_mod n 10) as Hdm.
    destruct (n / 10 =? 0)%Z eqn:E.
    + exists 10%Z. intros a. rewrite parse_digits_digit by exact Hd. f_equal. lia.
    + destruct (IH (n / 10)%Z (String (digit (n mod 10)) acc)) as [p Hp].
      { rewrite Nat2Z.inj_succ, Z.pow_succ_r in Hn by lia. lia. }
      exists (p * 10)%Z. intros a. rewrite Hp, parse_digits_digit by exact Hd. f_equal. lia.
Qed.

Lemma dec_digits_head : forall fuel n acc,
  exists d rest, (0 <= d < 10)%Z /\ dec_digits (S fuel) n acc = String (digit d) rest.
Proof.
  induction fuel as [|fuel IH]; intros n acc; cbn [dec_digits].
  - exists (n mod 10)%Z, acc. split; [apply Z.mod_pos_bound; reflexivity|]. destruct (n / 10 =? 0)%Z; reflexivity.
  - destruct (n / 10 =? 0)%Z; [|apply IH]. exists (n mod 10)%Z, acc. split; [apply Z.mod_pos_bound|]; reflexivity.
Qed.

Lemma Z_of_string_unsigned : forall c rest, c <> "-"%char ->
  Z_of_string (String c rest) = parse_digits (String c rest) 0.
Proof. intros c rest H. destruct c as [[] [] [] [] [] [] [] []]; try reflexivity. contradiction. Qed.

(* a text that starts with a digit is read as an unsigned number *)
Lemma Z_of_string_digit_head : forall s d rest, s = String (digit d) rest -> (0 <= d < 10)%Z ->
  Z_of_string s = parse_digits s 0.
Proof. intros s d rest -> Hd. apply Z_of_string_unsigned. apply digit_not; [exact Hd | cbn; lia]. Qed.

(* 20 = the fuel of string_of_Z *)
Lemma key_roundtrip : forall n : Z, (0 <= n < 10 ^ 20)%Z -> Z_of_string (string_of_Z n) = Some n.
Proof.
  intros [|p|p] Hn; [reflexivity | | lia]. unfold string_of_Z.
  destruct (dec_digits_head 19 (Zpos p) "") as (d & rest & Hd & E).
  destruct (parse_dec_digits 20 (Zpos p) "" Hn) as [q Hq].
  rewrite (Z_of_string_digit_head _ d rest E Hd), Hq. reflexivity.
Qed.

Lemma key_not_all : forall n : Z, (0 <= n)%Z -> String.eqb (string_of_Z n) "all" = false.
Proof.
  intros [|p|p] Hn; [reflexivity | | lia]. unfold string_of_Z.
  destruct (dec_digits_head 19 (Zpos p) "") as (d & rest & Hd & E). rewrite E. cbn [String.eqb].
  replace (Ascii.eqb (digit d) "a") with false; [reflexivity|].
  symmetry. apply Ascii.eqb_neq. apply digit_not; [exact Hd | cbn; lia].
Qed.

Lemma map_key_map_key_same : forall k f g o, map_key k f (map_key k g o) = map_key k (fun v => f (g v)) o.
Proof.
  intros k f g o. induction o as [|[k' v] o IH]; cbn; [reflexivity|].
  destruct (String.eqb k k') eqn:E; cbn; rewrite E; [reflexivity | rewrite IH; reflexivity].
Qed.

Lemma map_key_ext : forall k f g o, (forall v, f v = g v) -> map_key k f o = map_key k g o.
Proof.
  intros k f g o H. induction o as [|[k' v] o IH]; cbn; [reflexivity|].
  destruct (String.eqb k k'); [rewrite H | rewrite IH]; reflexivity.
Qed.

Lemma map_key_comm : forall k k' f g o, String.eqb k k' = false ->
  map_key k f (map_key k' g o) = map_key k' g (map_key k f o).
Proof.
  intros k k' f g o Hk. induction o as [|[k0 v] o IH]; cbn; [reflexivity|].
  destruct (String.eqb k' k0) eqn:E1; destruct (String.eqb k k0) eqn:E2; cbn; rewrite ?E1, ?E2; try reflexivity.
  - apply String.eqb_eq in E1, E2. subst. rewrite String.eqb_refl in Hk. discriminate.
  - rewrite IH. reflexivity.
Qed.

Lemma coerce_path_idem : forall p j, coerce_path p (coerce_path p j) = coerce_path p j.
Proof.
  induction p as [|k p IH]; intros j; cbn.
  - destruct j; reflexivity.
  - destruct j; try reflexivity. cbn. rewrite map_key_map_key_same. f_equal. apply map_key_ext. exact IH.
Qed.

Lemma coerce_nil_comm : forall q j, coerce_path [] (coerce_path q j) = coerce_path q (coerce_path [] j).
Proof.
  intros [|k q] j; [reflexivity|]. destruct j; reflexivity.
Qed.

Lemma coerce_path_comm : forall p q j, coerce_path p (coerce_path q j) = coerce_path q (coerce_path p j).
Proof.
  induction p as [|k p IH]; intros q j.
  - apply coerce_nil_comm.
  - destruct q as [|k' q]; [symmetry; apply coerce_nil_comm|].
    destruct j; try reflexivity. cbn [coerce_path]. f_equal.
    destruct (String.eqb k k') eqn:E.
    + apply String.eqb_eq in E. subst k'. rewrite !map_key_map_key_same. apply map_key_ext. intros v. apply IH.
    + apply map_key_comm. exact E.
Qed.

Lemma coerce_path_coerce : forall ps p j, coerce_path p (coerce ps j) = coerce ps (coerce_path p j).
Proof.
  unfold coerce. induction ps as [|q ps IH]; intros p j; cbn; [reflexivity|].
  rewrite IH. rewrite coerce_path_comm. reflexivity.
Qed.

Lemma coerce_idem : forall ps j, coerce ps (coerce ps j) = coerce ps j.
Proof.
  induction ps as [|p ps IH]; intros j; [reflexivity|].
  change (coerce (p :: ps) j) with (coerce ps (coerce_path p j)).
  change (coerce (p :: ps) (coerce ps (coerce_path p j))) with (coerce ps (coerce_path p (coerce ps (coerce_path p j)))).
  rewrite coerce_path_coerce, coerce_path_idem. apply IH.
Qed.

Lemma get_map_key_other : forall k k' f o, String.eqb k' k = false -> get k' (map_key k f o) = get k' o.
Proof.
  intros k k' f o H. induction o as [|[k0 v] o IH]; cbn; [reflexivity|].
  destruct (String.eqb k k0) eqn:E; cbn.
  - apply String.eqb_eq in E. subst k0. rewrite H. reflexivity.
  - destruct (String.eqb k' k0); [reflexivity | exact IH].
Qed.

Definition path_avoids (k : string) (p : list string) : bool :=
  match p with [] => false | k0 :: _ => negb (String.eqb k k0) end.

Lemma field_coerce_path : forall k p j, path_avoids k p = true -> field k (coerce_path p j) = field k j.
Proof.
  intros k [|k0 p] j H; [discriminate|]. cbn in H. apply negb_true_iff in H.
  destruct j; try reflexivity. cbn. apply get_map_key_other. exact H.
Qed.

(* a field that no path starts with survives the coercion (train_features is one: C01.v checks the generated paths) *)
Lemma field_coerce : forall k ps j, forallb (path_avoids k) ps = true -> field k (coerce ps j) = field k j.
Proof.
  unfold coerce. induction ps as [|p ps IH]; intros j H; [reflexivity|]. cbn in *.
  apply andb_true_iff in H. destruct H as [H1 H2]. rewrite IH by exact H2. apply field_coerce_path. exact H1.
Qed.

Lemma parse_floats_doc : forall l, parse_floats (jfloats l) = Some l.
Proof. intros l. unfold parse_floats, jfloats. cbn. apply opt_all_map_inv. reflexivity. Qed.

Lemma parse_strings_doc : forall l, parse_strings (jstrings l) = Some l.
Proof. intros l. unfold parse_strings, jstrings. cbn. apply opt_all_map_inv. reflexivity. Qed.

Lemma parse_triples_doc : forall l : list (Z * Z * Z),
  opt_all (map parse_triple (map (fun r => let '(a, b, c) := r in JArr [JInt a; JInt b; JInt c]) l)) = Some l.
Proof. intros l. apply opt_all_map_inv. intros [[a b] c] _. reflexivity. Qed.

Lemma parse_edge_coeff_entries_doc : forall kv : list (string * float),
  opt_all (map parse_coeff_entry (map (fun p => (fst p, JNum (snd p))) kv)) = Some kv.
Proof. intros kv. apply opt_all_map_inv. intros [k v] _. reflexivity. Qed.

(* the keys the statements admit for the edge-bin map: bin numbers.  The bound 1000 is a choice of the statement (any
   bound up to 10^20, where [key_roundtrip] stops, would do) *)
Definition keys_ok (l : list (Z * list (string * float))) : Prop := Forall (fun kv => (0 <= fst kv < 1000)%Z) l.

Lemma parse_edges_doc : forall l, keys_ok l ->
  opt_all (map parse_edge_entry
             (map (fun kv => (string_of_Z (fst kv), JObj (map (fun p => (fst p, JNum (snd p))) (snd kv)))) l)) = Some l.
Proof.
  intros l H. apply opt_all_map_inv. intros [n kv] Hin. unfold keys_ok in H. rewrite Forall_forall in H.
  specialize (H _ Hin). cbn in H. unfold parse_edge_entry. cbn [fst snd].
  rewrite key_roundtrip by lia. rewrite parse_edge_coeff_entries_doc. reflexivity.
Qed.

(* the stored pairs, read positionally, are the two scaler arrays *)
Lemma scaler_doc_inv : forall ts loc scale fs, scaler_doc ts loc scale = Some fs ->
  List.length loc = List.length ts -> List.length scale = List.length ts ->
  exists pairs,
    opt_all (map (fun kv : string * json =>
                    match snd kv with
                    | JArr (a :: b :: _) => match as_float a, as_float b with Some x, Some y => Some (x, y) | _, _ => None end
                    | _ => None end) fs) = Some pairs /\
    map fst pairs = loc /\ map snd pairs = scale.
Proof.
  induction ts as [|k ts IH]; intros loc scale fs H Hl Hs.
  - destruct loc, scale; try discriminate. cbn in H. injection H as <-. exists []. repeat split.
  - destruct loc as [|a loc], scale as [|b scale]; try discriminate. cbn in H.
    destruct (scaler_doc ts loc scale) as [r|] eqn:E; [|discriminate]. injection H as <-.
    cbn in Hl, Hs. destruct (IH loc scale r E) as (pairs & Hp & Hfst & Hsnd); [lia | lia |].
    exists ((a, b) :: pairs). cbn. rewrite Hp, Hfst, Hsnd. repeat split.
Qed.

Lemma parse_coefficients_doc : forall l : list (list float), opt_all (map parse_floats (map jfloats l)) = Some l.
Proof. intros l. apply opt_all_map_inv. intros x _. apply parse_floats_doc. Qed.

Lemma scaler_doc_keys : forall ts loc scale fs, scaler_doc ts loc scale = Some fs -> map fst fs = map str_config ts.
Proof.
  induction ts as [|k ts IH]; intros loc scale fs H; cbn in H.
  - injection H as <-. reflexivity.
  - destruct loc as [|a loc], scale as [|b scale]; try discriminate.
    destruct (scaler_doc ts loc scale) as [r|] eqn:E; [|discriminate]. injection H as <-. cbn. rewrite (IH _ _ _ E). reflexivity.
Qed.

(* a fitted hourly state as to_dict finds it: warnings that warning_doc can write, one (location, scale) per time-series
   feature, metrics that are an object and a settings tree with a train_features list of strings (from_dict reads both and
   raises otherwise), bin numbers as edge-bin keys *)
Definition wf_hourly (s : hourly_state) : Prop :=
  Forall wf_warning (hs_warnings s) /\ Forall wf_warning (hs_dq s) /\
  List.length (hs_loc s) = List.length (hs_ts_features s) /\ List.length (hs_scale s) = List.length (hs_ts_features s) /\
  (exists o, hs_metrics s = JObj o) /\
  (exists tf, field "train_features" (hs_settings s) = Some (jstrings tf)) /\
  match hs_edge_coeffs s with Some l => keys_ok l | None => True end.

Definition with_hsettings (s : hourly_state) (st : json) : hourly_state :=
  {| hs_settings := st; hs_clusters := hs_clusters s; hs_bin_edges := hs_bin_edges s; hs_edge_coeffs := hs_edge_coeffs s;
     hs_ts_features := hs_ts_features s; hs_cat_features := hs_cat_features s; hs_loc := hs_loc s; hs_scale := hs_scale s;
     hs_y := hs_y s; hs_coef := hs_coef s; hs_intercept := hs_intercept s; hs_metrics := hs_metrics s;
     hs_warnings := hs_warnings s; hs_dq := hs_dq s; hs_error := hs_error s; hs_tz := hs_tz s; hs_version := hs_version s |}.

Lemma hourly_to_doc_settings : forall s d, hourly_to_doc s = Some d -> field "settings" d = Some (hs_settings s).
Proof.
  intros s d H. unfold hourly_to_doc in H.
  destruct (scaler_doc (hs_ts_features s) (hs_loc s) (hs_scale s)); [|discriminate]. injection H as <-. reflexivity.
Qed.

Lemma reorder_cons : forall k names fs,
  reorder (k :: names) fs =
  match get k fs, reorder names fs with Some v, Some r => Some ((k, v) :: r) | _, _ => None end.
Proof. intros k names fs. unfold reorder. cbn [map opt_all]. destruct (get k fs); reflexivity. Qed.

(* an entry whose key is not asked for does not matter to the lookup by name *)
Lemma reorder_cons_notin : forall names k v fs, ~ In k names -> reorder names ((k, v) :: fs) = reorder names fs.
Proof.
  intros names k v fs H. unfold reorder. f_equal. apply map_ext_in. intros k0 Hin. cbn [get].
  destruct (String.eqb_spec k0 k) as [->|_]; [contradiction | reflexivity].
Qed.

(* self._T_edge_bin_coeffs[n] on a model that may have been fitted without edge bins *)
Definition edge_lookup_opt (n : Z) (e : option (list (Z * list (string * float)))) : option (list (string * float)) :=
  match e with Some l => edge_lookup n l | None => None end.

Section RoundTrip.
Variable paths : list (list string).

Lemma hourly_from_doc_to_doc_gen : forall null_ok s d, wf_hourly s -> hourly_to_doc s = Some d ->
  hourly_from_doc_gen paths null_ok false d =
  match hs_edge_coeffs s with
  | None => if null_ok then Some (with_hsettings s (coerce paths (hs_settings s))) else None
  | Some _ => Some (with_hsettings s (coerce paths (hs_settings s)))
  end.
Proof.
  intros null_ok [st cl be ec ts cat loc sc [y1 y2] coef ic bm ws dq er tz ver] d.
  unfold wf_hourly, hourly_to_doc, with_hsettings.
  cbn [hs_settings hs_clusters hs_bin_edges hs_edge_coeffs hs_ts_features hs_cat_features hs_loc hs_scale hs_y hs_coef
       hs_intercept hs_metrics hs_warnings hs_dq hs_error hs_tz hs_version].
  intros (Hw & Hdq & Hl & Hs & [mo Hm] & [tf Htf] & Hk) Hd. subst bm.
  destruct (scaler_doc ts loc sc) as [fs|] eqn:Efs; [|discriminate].
  injection Hd as <-. unfold hourly_from_doc_gen.
  cbn [field get String.eqb Ascii.eqb Bool.eqb bind fst snd].
  rewrite Htf. cbn [bind]. rewrite parse_strings_doc. cbn [bind as_arr].
  rewrite parse_triples_doc. cbn [bind]. rewrite parse_floats_doc. cbn [bind].
  destruct (scaler_doc_inv _ _ _ _ Efs Hl Hs) as (pairs & Hpairs & Hfst & Hsnd).
  (* nothing after the edge-bin map looks at it: read the rest first, for whatever it turns out to be *)
  erewrite bind_ext.
  2:{ intros ec'. rewrite !parse_strings_doc. cbn [bind as_obj].
      rewrite Hpairs. cbn [bind as_float]. rewrite parse_coefficients_doc. cbn [bind]. rewrite parse_floats_doc. cbn [bind as_obj].
      rewrite (parse_warnings_doc _ Hw). cbn [bind]. rewrite (parse_warnings_doc _ Hdq). cbn [bind as_string].
      rewrite Hfst, Hsnd. reflexivity. }
  destruct ec as [l|]; cbn [edge_doc]; [rewrite (parse_edges_doc l Hk) | destruct null_ok]; reflexivity.
Qed.

(* what the prediction path reads from the reloaded state: the fields of s, the settings coerced *)
Lemma inputs_restored : forall s, inputs_of (with_hsettings s (coerce paths (hs_settings s))) =
  {| hi_settings := coerce paths (hs_settings s); hi_clusters := hs_clusters s; hi_bin_edges := hs_bin_edges s;
     hi_edge_coeffs := hs_edge_coeffs s; hi_ts_features := hs_ts_features s; hi_cat_features := hs_cat_features s;
     hi_loc := hs_loc s; hi_scale := hs_scale s; hi_y := hs_y s; hi_coef := hs_coef s;
     hi_intercept := hs_intercept s; hi_tz := hs_tz s; hi_dq := hs_dq s |}.
Proof. reflexivity. Qed.

Lemma with_hsettings_same : forall s, with_hsettings s (hs_settings s) = s.
Proof. intros []. reflexivity. Qed.

Lemma to_doc_with_hsettings : forall s st d, hourly_to_doc s = Some d ->
  exists d', hourly_to_doc (with_hsettings s st) = Some d'.
Proof.
  intros s st d H. unfold hourly_to_doc in *. cbn [with_hsettings hs_ts_features hs_loc hs_scale].
  destruct (scaler_doc (hs_ts_features s) (hs_loc s) (hs_scale s)); [eexists; reflexivity | discriminate].
Qed.

Lemma wf_with_hsettings : forall s, forallb (path_avoids "train_features") paths = true -> wf_hourly s ->
  wf_hourly (with_hsettings s (coerce paths (hs_settings s))).
Proof.
  intros s Hp (Hw & Hdq & Hl & Hs & Hm & [tf Htf] & Hk). unfold wf_hourly, with_hsettings. cbn.
  repeat split; try assumption. exists tf. rewrite field_coerce by exact Hp. exact Htf.
Qed.

End RoundTrip.

Section Predict.
Variable paths : list (list string).
Variable data result : Type.
(* the numerical prediction path of HourlyModel: an uninterpreted function of exactly the fields it reads *)
Variable predict_fn : hourly_inputs -> data -> result.
(* oracle contract: the path reads the *values* of the settings; an int and the float of the same value (what
   pydantic's re-validation changes) are the same input to it *)
Definition reads_values : Prop :=
  forall i d, predict_fn i d =
              predict_fn {| hi_settings := coerce paths (hi_settings i); hi_clusters := hi_clusters i;
                            hi_bin_edges := hi_bin_edges i; hi_edge_coeffs := hi_edge_coeffs i;
                            hi_ts_features := hi_ts_features i; hi_cat_features := hi_cat_features i;
                            hi_loc := hi_loc i; hi_scale := hi_scale i; hi_y := hi_y i; hi_coef := hi_coef i;
                            hi_intercept := hi_intercept i; hi_tz := hi_tz i; hi_dq := hi_dq i |} d.
End Predict.
