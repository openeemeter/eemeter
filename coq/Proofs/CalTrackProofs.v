(* Lemmas about Model/CalTrack.v (property C18) that hold for every input: temperature bin features, occupancy split,
   hour of week, endpoint lists selected by keep-flags, dropped zero-weight columns. Nothing here looks inside the
   regenerated tables (those facts are in Proofs/CalTrackTableProofs.v), so this file keeps checking when a table changes. *)
From Coq Require Import ZArith QArith Qminmax List Bool String Lia Lqa.
From V Require Import Model.CalTrack Proofs.ArithFacts.
Import ListNotations.

Local Open Scope Q_scope.

Ltac qcase_lt a b :=
  let E := fresh "E" in destruct (Qltb a b) eqn:E; [ apply Qltb_true in E | apply Qltb_false in E ].
Ltac qcase_le a b :=
  let E := fresh "E" in destruct (Qle_bool a b) eqn:E; [ apply Qle_bool_iff in E | apply Qle_bool_false in E ].

Lemma mid_bin_value T l r : l <= r ->
  mid_bin QOps T l r == Qclamp (T - l) 0 (r - l).
Proof.
  intros Hlr. unfold mid_bin, Qclamp. cbn [nadd nsub nltb nleb nzero QOps].
  qcase_lt l T; qcase_le T r; qcase_lt r T; cbn [andb];
    try (exfalso; lra).
  - rewrite Q.min_l by lra. rewrite Q.max_r by lra. lra.
  - rewrite Q.min_r by lra. rewrite Q.max_r by lra. lra.
  - rewrite Q.min_l by lra. rewrite Q.max_l by lra. lra.
Qed.

Lemma last_bin_value T l : last_bin QOps T l == Qmax 0 (T - l).
Proof.
  unfold last_bin. cbn [nadd nsub nltb nleb nzero QOps].
  qcase_lt l T.
  - rewrite Q.max_r by lra. lra.
  - rewrite Q.max_l by lra. lra.
Qed.

Lemma first_bin_value T e1 : first_bin QOps T e1 == Qmin T e1.
Proof.
  unfold first_bin. cbn [nadd nsub nltb nleb nzero QOps].
  qcase_le T e1.
  - rewrite Q.min_l by lra. lra.
  - rewrite Q.min_r by lra. lra.
Qed.

Lemma later_closed_form : forall rest T l, increasing (l :: rest) ->
  Forall2 Qeq (later_bins QOps T l rest) (later_spec T l rest).
Proof.
  induction rest as [ | r rest IH ]; intros T l Hinc; cbn [later_bins later_spec].
  - constructor; [ apply last_bin_value | constructor ].
  - destruct Hinc as [Hlr Hinc]. constructor; [ apply mid_bin_value; exact Hlr | apply IH; exact Hinc ].
Qed.

Lemma bins_closed_form : forall T e, increasing e -> Forall2 Qeq (bin_features QOps T e) (bin_spec T e).
Proof.
  intros T [ | e1 rest ] Hinc; cbn [bin_features bin_spec].
  - constructor; [ cbn; lra | constructor ].
  - constructor; [ apply first_bin_value | apply later_closed_form; exact Hinc ].
Qed.

(* what a bin of width w holds of an excess x, plus what flows on to the next bins, is the excess *)
Lemma clamp_split : forall x w, 0 <= w -> Qclamp x 0 w + Qmax 0 (x - w) == Qmax 0 x.
Proof.
  intros x w Hw. unfold Qclamp.
  destruct (Qlt_le_dec x 0) as [H1 | H1]; [ | destruct (Qlt_le_dec x w) as [H2 | H2] ].
  - rewrite (Q.min_l x w), (Q.max_l 0 x), (Q.max_l 0 (x - w)) by lra. lra.
  - rewrite (Q.min_l x w), (Q.max_r 0 x), (Q.max_l 0 (x - w)) by lra. lra.
  - rewrite (Q.min_r x w), (Q.max_r 0 w), (Q.max_r 0 (x - w)), (Q.max_r 0 x) by lra. lra.
Qed.

Lemma min_split : forall T e, Qmin T e + Qmax 0 (T - e) == T.
Proof.
  intros T e. destruct (Qlt_le_dec T e) as [H | H].
  - rewrite Q.min_l, Q.max_l by lra. lra.
  - rewrite Q.min_r, Q.max_r by lra. lra.
Qed.

Lemma sum_cons x l : sum QOps (x :: l) = x + sum QOps l.
Proof. reflexivity. Qed.

(* everything above the left edge l is accounted for by the bins to the right of l *)
Lemma later_sum : forall rest T l, increasing (l :: rest) ->
  sum QOps (later_bins QOps T l rest) == Qmax 0 (T - l).
Proof.
  induction rest as [ | r rest IH ]; intros T l Hinc; cbn [later_bins].
  - rewrite sum_cons. rewrite last_bin_value. cbn. lra.
  - destruct Hinc as [Hlr Hinc]. rewrite sum_cons.
    rewrite (IH T r Hinc), (mid_bin_value T l r Hlr).
    assert (E : T - r == (T - l) - (r - l)) by ring. rewrite E. apply clamp_split. lra.
Qed.

Lemma bins_sum_to_T : forall T e, increasing e -> sum QOps (bin_features QOps T e) == T.
Proof.
  intros T [ | e1 rest ] Hinc; cbn [bin_features].
  - cbn. lra.
  - rewrite sum_cons. rewrite (later_sum rest T e1 Hinc), first_bin_value. apply min_split.
Qed.

Lemma bins_count : forall (N : numops) (T : num N) e, List.length (bin_features N T e) = S (List.length e).
Proof.
  intros N T [ | e1 rest ]; [ reflexivity | ]. cbn [bin_features List.length]. f_equal.
  revert e1. induction rest as [ | r rest IH ]; intros l; [ reflexivity | ]. cbn [later_bins List.length]. f_equal. apply IH.
Qed.

(* there is a bin right of l, and it holds something only when T is beyond l *)
Lemma later_head_pos : forall rest T l, increasing (l :: rest) ->
  exists b tl, later_bins QOps T l rest = b :: tl /\ (0 < b -> l < T).
Proof.
  intros [ | r rest ] T l Hinc; cbn [later_bins]; eexists; eexists; (split; [ reflexivity | ]).
  - rewrite last_bin_value. intros H.
    destruct (Qlt_le_dec l T) as [H1 | H1]; [ exact H1 | ]. rewrite Q.max_l in H by lra. lra.
  - destruct Hinc as [Hlr _]. rewrite (mid_bin_value T l r Hlr). unfold Qclamp. intros H.
    destruct (Qlt_le_dec l T) as [H1 | H1]; [ exact H1 | ].
    rewrite (Q.min_l (T - l)) in H by lra. rewrite Q.max_l in H by lra. lra.
Qed.

(* one step of "filled in order": a bin b of capacity c, followed by the bins right of r, is within its capacity and is
   full as soon as the next bin holds anything, that is, as soon as r < T *)
Lemma fill_step : forall c b T r rest, increasing (r :: rest) -> b <= c -> (r < T -> b == c) ->
  filled_in_order (widths r rest) (later_bins QOps T r rest) -> filled_in_order (c :: widths r rest) (b :: later_bins QOps T r rest).
Proof.
  intros c b T r rest Hinc Hle Hfull Hrest. destruct (later_head_pos rest T r Hinc) as [b' [tl [E Hh]]].
  rewrite E in Hrest |- *.
  cbn [filled_in_order]. repeat split; [ exact Hle | intros Hpos; exact (Hfull (Hh Hpos)) | exact Hrest ].
Qed.

Lemma later_fill : forall rest T l, increasing (l :: rest) ->
  filled_in_order (widths l rest) (later_bins QOps T l rest) /\ Forall (fun b => 0 <= b) (later_bins QOps T l rest).
Proof.
  induction rest as [ | r rest IH ]; intros T l Hinc; cbn [later_bins widths].
  - split; [ exact I | ]. constructor; [ rewrite last_bin_value; apply Q.le_max_l | constructor ].
  - destruct Hinc as [Hlr Hinc]. destruct (IH T r Hinc) as [IH1 IH2].
    pose proof (mid_bin_value T l r Hlr) as Hm. unfold Qclamp in Hm.
    split; [ apply fill_step; [ exact Hinc | | | exact IH1 ] | constructor; [ | exact IH2 ] ].
    + rewrite Hm. apply Q.max_lub; [ lra | apply Q.le_min_r ].
    + intros HrT. rewrite Hm. rewrite Q.min_r by lra. rewrite Q.max_r by lra. reflexivity.
    + rewrite Hm. apply Q.le_max_l.
Qed.

Lemma bins_fill_in_order : forall T e, increasing e ->
  filled_in_order (capacities e) (bin_features QOps T e) /\ Forall (fun b => 0 <= b) (tl (bin_features QOps T e)).
Proof.
  intros T [ | e1 rest ] Hinc; cbn [bin_features capacities tl].
  - split; [ exact I | constructor ].
  - destruct (later_fill rest T e1 Hinc) as [H1 H2]. split; [ apply fill_step; [ exact Hinc | | | exact H1 ] | exact H2 ].
    + rewrite first_bin_value. apply Q.le_min_r.
    + intros H. rewrite first_bin_value. rewrite Q.min_r by lra. reflexivity.
Qed.

Lemma bins_nan : forall (N : numops) e,
  bin_features_opt N None e = repeat None (S (List.length e)).
Proof.
  intros N e. unfold bin_features_opt. rewrite <- (bins_count N (nzero N) e).
  induction (bin_features N (nzero N) e) as [ | x l IH ]; [ reflexivity | ]. cbn [map List.length repeat]. f_equal. exact IH.
Qed.

Lemma Forall_map_const : forall (A B : Type) (c : B) (l : list A), Forall (fun x => x = c) (map (fun _ => c) l).
Proof. intros A B c l. apply Forall_map, Forall_forall. reflexivity. Qed.

Lemma occupied_xor_unoccupied : forall (N : numops) (b : bool) T eo eu,
  let ou := occupancy_split N (Some b) T eo eu in
  (b = true -> fst ou = bin_features_opt N T eo /\ Forall (fun x => x = Some (nzero N)) (snd ou)) /\
  (b = false -> snd ou = bin_features_opt N T eu /\ Forall (fun x => x = Some (nzero N)) (fst ou)).
Proof.
  intros N b T eo eu. unfold occupancy_split, zeros. destruct b; cbn [fst snd]; split; intros Hb; try discriminate Hb;
    (split; [ reflexivity | apply Forall_map_const ]).
Qed.

Lemma occupancy_split_lengths : forall (N : numops) occ T eo eu,
  List.length (fst (occupancy_split N occ T eo eu)) = S (List.length eo) /\
  List.length (snd (occupancy_split N occ T eo eu)) = S (List.length eu).
Proof.
  intros N occ T eo eu.
  assert (L : forall e, List.length (bin_features_opt N T e) = S (List.length e)).
  { intros e. unfold bin_features_opt. destruct T; rewrite map_length; apply bins_count. }
  unfold occupancy_split, zeros. destruct occ as [ [ | ] | ]; cbn [fst snd]; rewrite ?map_length; split; apply L.
Qed.

Lemma feature_row_cases : forall (N : numops) others occ T eo eu,
  let r := feature_row N others occ T eo eu in
  r = occupancy_split N occ T eo eu \/
  (Forall (fun x => x = None) (fst r) /\ Forall (fun x => x = None) (snd r)).
Proof.
  intros N others occ T eo eu. unfold feature_row.
  destruct (others && forallb (present N) (fst (occupancy_split N occ T eo eu))
                   && forallb (present N) (snd (occupancy_split N occ T eo eu))); [ left; reflexivity | right ].
  cbn [fst snd]. split; apply Forall_map_const.
Qed.

(* a NaN occupancy feature leaves both feature groups in place *)
Lemma occupancy_nan_keeps_both : forall (N : numops) T eo eu,
  occupancy_split N None T eo eu = (bin_features_opt N T eo, bin_features_opt N T eu).
Proof. reflexivity. Qed.

Local Open Scope Z_scope.

Lemma how_formula : forall dow hour, 0 <= dow < 7 -> 0 <= hour < 24 ->
  hour_of_week dow hour = 24 * dow + hour /\ 0 <= hour_of_week dow hour < 168.
Proof. intros dow hour Hd Hh. unfold hour_of_week. lia. Qed.

Lemma how_injective : forall d h d' h', 0 <= d < 7 -> 0 <= h < 24 -> 0 <= d' < 7 -> 0 <= h' < 24 ->
  hour_of_week d h = hour_of_week d' h' -> d = d' /\ h = h'.
Proof. intros d h d' h' Hd Hh Hd' Hh'. unfold hour_of_week. lia. Qed.

Lemma how_onto : forall k, 0 <= k < 168 ->
  exists d h, 0 <= d < 7 /\ 0 <= h < 24 /\ hour_of_week d h = k.
Proof.
  intros k Hk. exists (k / 24), (k mod 24). unfold hour_of_week.
  pose proof (Z.div_mod k 24 ltac:(lia)) as E. pose proof (Z.mod_pos_bound k 24 ltac:(lia)) as B.
  assert (0 <= k / 24 < 7) by (split; [ apply Z.div_pos; lia | apply Z.div_lt_upper_bound; lia ]).
  lia.
Qed.

Local Open Scope Q_scope.

(* adjacent comparisons or every element against all later ones: the same *)
Lemma increasing_cons_iff : forall l a, increasing (a :: l) <-> Forall (fun x => a <= x) l /\ increasing l.
Proof.
  induction l as [ | b l IH ]; intros a; [ cbn; intuition constructor | ].
  change (increasing (a :: b :: l)) with (a <= b /\ increasing (b :: l)). rewrite Forall_cons_iff.
  split; [ intros [Hab Hinc] | tauto ]. split; [ split; [ exact Hab | ] | exact Hinc ].
  apply IH in Hinc. destruct Hinc as [Hb _]. eapply Forall_impl; [ | exact Hb ]. intros x Hx. apply (Qle_trans _ b); assumption.
Qed.

Lemma select_Forall : forall (A : Type) (P : A -> Prop) flags (l : list A), Forall P l -> Forall P (select flags l).
Proof.
  intros A P flags l. revert flags. induction l as [ | x l IH ]; intros [ | b flags ] H; cbn [select]; try constructor.
  inversion H as [ | ? ? Hx Hl ]; subst. destruct b; [ constructor; [ exact Hx | apply IH; exact Hl ] | apply IH; exact Hl ].
Qed.

Lemma sublist_increasing : forall flags l, increasing l -> increasing (select flags l).
Proof.
  intros flags l. revert flags. induction l as [ | x l IH ]; intros [ | b flags ] H; cbn [select]; try exact I.
  apply increasing_cons_iff in H. destruct H as [Hx Hl]. destruct b; [ | apply IH; exact Hl ].
  apply increasing_cons_iff. split; [ apply select_Forall; exact Hx | apply IH; exact Hl ].
Qed.

Lemma sum_zeros : forall (l : list Q), sum QOps (map (fun _ => 0) l) == 0.
Proof. induction l as [ | x l IH ]; [ reflexivity | ]. cbn [map]. rewrite sum_cons. rewrite IH. lra. Qed.

Lemma occupancy_features_sum_to_T : forall (b : bool) (t : Q) eo eu, increasing eo -> increasing eu ->
  let ou := occupancy_split QOps (Some b) (Some t) eo eu in
  exists o u, fst ou = map Some o /\ snd ou = map Some u /\ sum QOps o + sum QOps u == t /\
              (if b then Forall (fun x => x = 0) u else Forall (fun x => x = 0) o).
Proof.
  intros b t eo eu Ho Hu. unfold occupancy_split, zeros, bin_features_opt. destruct b; cbn [fst snd].
  - exists (bin_features QOps t eo), (map (fun _ => 0) (bin_features QOps t eu)). repeat split.
    + rewrite !map_map. reflexivity.
    + rewrite sum_zeros. rewrite (bins_sum_to_T t eo Ho). lra.
    + apply Forall_map_const.
  - exists (map (fun _ => 0) (bin_features QOps t eo)), (bin_features QOps t eu). repeat split.
    + rewrite !map_map. reflexivity.
    + rewrite sum_zeros. rewrite (bins_sum_to_T t eu Hu). lra.
    + apply Forall_map_const.
Qed.

Lemma drop_keeps_positive : forall present t s m, In s t -> In m present -> Qle_bool (seg_weight s m) 0 = false ->
  In s (dropped_table present t).
Proof.
  intros present t s m Hs Hm Hw. unfold dropped_table. apply filter_In. split; [ exact Hs | ].
  unfold kept_segment. apply existsb_exists. exists m. split; [ exact Hm | ]. rewrite Hw. reflexivity.
Qed.

Lemma dropped_nowhere_positive : forall present s m, kept_segment present s = false -> In m present ->
  seg_weight s m <= 0.
Proof.
  intros present s m Hk Hm. apply Qle_bool_iff. destruct (Qle_bool (seg_weight s m) 0) eqn:E; [ reflexivity | ].
  rewrite <- Hk. unfold kept_segment. apply existsb_exists. exists m. split; [ exact Hm | rewrite E; reflexivity ].
Qed.

Lemma drop_preserves_positive_row : forall present t m, In m present ->
  positive_row (dropped_table present t) m = positive_row t m.
Proof.
  intros present t m Hm. unfold positive_row, dropped_table, row_weights.
  induction t as [ | s t IH ]; [ reflexivity | ]. cbn [filter map].
  destruct (kept_segment present s) eqn:K.
  - cbn [map filter snd]. destruct (negb (Qle_bool (seg_weight s m) 0)); rewrite IH; reflexivity.
  - cbn [snd]. pose proof (dropped_nowhere_positive present s m K Hm) as Hle. apply Qle_bool_iff in Hle. rewrite Hle. cbn [negb]. exact IH.
Qed.
