(* Lemmas about Model/SelCrit.v at the real-number instance (property C13): the coded selection
   criterion and the monotonicity of its default type (BIC) in closed form.  The instance is over Coq's
   axiomatic real numbers: what is proved here, in Proofs/SelectRProofs.v and in Properties/C13.v from it, rests on
   the axioms of the library's Reals (SplitsProofs.v and SelectProofs.v rest on none).  ln_pos, ln_nonneg, div_le_r,
   div_lt_r, ln_ratio_lt, ln_ratio_le are plain facts about R that the library does not have in this form. *)
From Coq Require Import Reals Lra List Bool String.
From V Require Import Model.Num Model.NumR Model.SelCrit.
Import ListNotations.
Local Open Scope R_scope.

(* ** for a non-negative base: y = 0 -> 1, otherwise exp(y ln x), and 0 ** y = 0.  For y > 0 that is what numpy
   computes; for y < 0 numpy gives inf and the model keeps 0 (the settings have penalty_power >= 1) *)
Definition Rpow (x y : R) : R :=
  if Req_EM_T y 0 then 1 else if Req_EM_T x 0 then 0 else Rpower x y.

Definition R_two_pi : R := 2 * PI.
Definition R_tiny : R := / 1000000.
Definition R_absorb (_ : R) : ext R := NInf.

Definition R_selection_criteria : crit_type -> R -> R -> R -> R -> R -> R -> ext R :=
  selection_criteria RNum ln sqrt Rpow R_two_pi R_tiny R_absorb.
Definition R_combo_criterion : crit_type -> R -> R -> list (cfit R) -> list (cfit R) -> ext R :=
  combo_criterion RNum ln sqrt Rpow R_two_pi R_tiny R_absorb.
Definition R_combo_loss : list (cfit R) -> list (cfit R) -> R := combo_loss RNum sqrt.
Definition R_sum_n (l : list (cfit R)) : R := sum_of RNum f_n l.
Definition R_count (l : list (cfit R)) : R := count_of RNum l.

Definition R_ext_ltb : ext R -> ext R -> bool := ext_ltb Rltb.

Lemma R_ext_irrefl : forall a, R_ext_ltb a a = false.
Proof.
  intros [x| |]; cbn; try reflexivity. apply Rltb_false. apply Rle_refl.
Qed.

Lemma R_ext_chain : forall a b x, R_ext_ltb a b = true -> R_ext_ltb x b = false -> R_ext_ltb x a = false.
Proof.
  intros [p| |] [q| |] [r| |]; cbn; intros H1 H2; try discriminate; try reflexivity.
  apply Rltb_true in H1. apply Rltb_false in H2. apply Rltb_false. lra.
Qed.

Lemma Rpow_nonneg : forall x y, 0 <= x -> 0 <= Rpow x y.
Proof.
  intros x y Hx. unfold Rpow. destruct (Req_EM_T y 0); [lra|].
  destruct (Req_EM_T x 0); [lra|]. unfold Rpower. left. apply exp_pos.
Qed.

Lemma Rpow_pos : forall x y, 0 < x -> 0 < Rpow x y.
Proof.
  intros x y Hx. unfold Rpow. destruct (Req_EM_T y 0); [lra|].
  destruct (Req_EM_T x 0); [lra|]. unfold Rpower. apply exp_pos.
Qed.

Lemma ln_pos : forall n, 1 < n -> 0 < ln n.
Proof. intros n H. rewrite <- ln_1. apply ln_increasing; lra. Qed.

Lemma ln_nonneg : forall n, 1 <= n -> 0 <= ln n.
Proof. intros n [H|<-]; [left; apply ln_pos; exact H|rewrite ln_1; apply Rle_refl]. Qed.

(* an information criterion (AIC, AICc, CAIC, BIC, SABIC) as coded, whatever its penalty term:
   (-2 * neg_log_likelihood(loss, N) + penalty) / N *)
Definition R_info (loss n pen : R) : ext R :=
  normalise RNum n (info_criterion RNum ln R_two_pi R_absorb loss n pen).

(* (-2 * (-N/2 * (ln 2pi + ln(loss/N) + 1)) + penalty) / N, simplified *)
Lemma info_value : forall loss n pen, 0 < loss -> 0 < n ->
  R_info loss n pen = Fin (ln R_two_pi + ln (loss / n) + 1 + pen / n).
Proof.
  intros loss n pen Hl Hn. unfold R_info, normalise, info_criterion, neg_log_likelihood.
  cbn [RNum RNumOf n_leb n_zero n_one n_add n_sub n_mul n_div n_opp carrier].
  rewrite (proj2 (Rleb_false loss 0) Hl), (proj2 (Rleb_false n 0) Hn). cbn [orb].
  f_equal. unfold n_two. cbn [RNum RNumOf n_add n_one carrier]. field. lra.
Qed.

(* neg_log_likelihood returns +inf, the criterion is -inf *)
Lemma info_nonpositive_loss : forall loss n pen, loss <= 0 -> R_info loss n pen = NInf.
Proof.
  intros loss n pen Hl. unfold R_info, normalise, info_criterion, neg_log_likelihood.
  cbn [RNum RNumOf n_leb n_zero carrier]. rewrite (proj2 (Rleb_true loss 0) Hl). reflexivity.
Qed.

Lemma div_le_r : forall n p1 p2, 0 < n -> p1 <= p2 -> p1 / n <= p2 / n.
Proof.
  intros n p1 p2 Hn Hp. apply Rmult_le_compat_r; [|exact Hp]. left. apply Rinv_0_lt_compat. exact Hn.
Qed.

Lemma div_lt_r : forall n p1 p2, 0 < n -> p1 < p2 -> p1 / n < p2 / n.
Proof. intros n p1 p2 Hn Hp. apply Rmult_lt_compat_r; [apply Rinv_0_lt_compat; exact Hn|exact Hp]. Qed.

Lemma ln_ratio_lt : forall n l1 l2, 0 < n -> 0 < l1 -> l1 < l2 -> ln (l1 / n) < ln (l2 / n).
Proof.
  intros n l1 l2 Hn H1 Hlt. apply ln_increasing; [apply Rdiv_lt_0_compat; assumption|apply div_lt_r; assumption].
Qed.

Lemma ln_ratio_le : forall n l1 l2, 0 < n -> 0 < l1 -> l1 <= l2 -> ln (l1 / n) <= ln (l2 / n).
Proof. intros n l1 l2 Hn H1 [Hlt|<-]; [left; apply ln_ratio_lt; assumption|apply Rle_refl]. Qed.

(* N fixed: strictly increasing in the loss when the penalty does not decrease, and in the penalty when
   the (positive) loss does not decrease *)
Lemma info_lt_loss : forall n l1 l2 p1 p2, 0 < n -> l1 < l2 -> 0 < l2 -> p1 <= p2 ->
  R_ext_ltb (R_info l1 n p1) (R_info l2 n p2) = true.
Proof.
  intros n l1 l2 p1 p2 Hn Hlt Hl2 Hp. rewrite (info_value l2 n p2 Hl2 Hn).
  destruct (Rle_lt_dec l1 0) as [H1|H1].
  - rewrite (info_nonpositive_loss l1 n p1 H1). reflexivity.
  - rewrite (info_value l1 n p1 H1 Hn). apply Rltb_true.
    pose proof (ln_ratio_lt n l1 l2 Hn H1 Hlt). pose proof (div_le_r n p1 p2 Hn Hp). lra.
Qed.

Lemma info_lt_pen : forall n l1 l2 p1 p2, 0 < n -> 0 < l1 -> l1 <= l2 -> p1 < p2 ->
  R_ext_ltb (R_info l1 n p1) (R_info l2 n p2) = true.
Proof.
  intros n l1 l2 p1 p2 Hn H1 Hle Hp. assert (H2 : 0 < l2) by lra.
  rewrite (info_value l1 n p1 H1 Hn), (info_value l2 n p2 H2 Hn). apply Rltb_true.
  pose proof (ln_ratio_le n l1 l2 Hn H1 Hle). pose proof (div_lt_r n p1 p2 Hn Hp). lra.
Qed.

(* not decreasing in the penalty, stated as "the larger penalty is not <": the order on [ext R] is given by its
   Boolean "<" only *)
Lemma info_le_pen : forall n loss p1 p2, 0 < n -> p1 <= p2 ->
  R_ext_ltb (R_info loss n p2) (R_info loss n p1) = false.
Proof.
  intros n loss p1 p2 Hn Hp. destruct (Rle_lt_dec loss 0) as [H1|H1].
  - rewrite !(info_nonpositive_loss loss n _ H1). reflexivity.
  - rewrite !(info_value loss n _ H1 Hn). apply Rltb_false. pose proof (div_le_r n p1 p2 Hn Hp). lra.
Qed.

(* the default criterion: BIC, penalty c0 * K * ln(N) ** d0 *)
Definition bic_closed (c0 d0 loss n k : R) : R :=
  ln R_two_pi + ln (loss / n) + 1 + (c0 * k * Rpow (ln n) d0) / n.

Lemma bic_info : forall c0 d0 loss tss n k,
  R_selection_criteria C_BIC c0 d0 loss tss n k = R_info loss n (c0 * k * Rpow (ln n) d0).
Proof. reflexivity. Qed.

(* for N >= 1 and a multiplier >= 0 the penalty grows with the number of coefficients, strictly when
   N > 1 and the multiplier is positive *)
Lemma bic_pen_le : forall c0 d0 n k1 k2, 1 <= n -> 0 <= c0 -> k1 <= k2 ->
  c0 * k1 * Rpow (ln n) d0 <= c0 * k2 * Rpow (ln n) d0.
Proof.
  intros c0 d0 n k1 k2 Hn Hc Hk. apply Rmult_le_compat_r; [apply Rpow_nonneg, ln_nonneg; exact Hn|].
  apply Rmult_le_compat_l; assumption.
Qed.

Lemma bic_pen_lt : forall c0 d0 n k1 k2, 1 < n -> 0 < c0 -> k1 < k2 ->
  c0 * k1 * Rpow (ln n) d0 < c0 * k2 * Rpow (ln n) d0.
Proof.
  intros c0 d0 n k1 k2 Hn Hc Hk. apply Rmult_lt_compat_r; [apply Rpow_pos, ln_pos; exact Hn|].
  apply Rmult_lt_compat_l; assumption.
Qed.

(* the coded criterion of every candidate (Properties/C13.v: the selected split minimises it) *)
Section Selected.
  Variable ty : crit_type.
  Variable c0 d0 : R.
  Variable base : list (cfit R).                 (* components of the unsplit model *)
  Variable fits : string -> list (cfit R).       (* components of each candidate *)

  Definition crit_of (s : string) : ext R := R_combo_criterion ty c0 d0 base (fits s).
  Definition table (combos : list string) : list (string * ext R) := map (fun s => (s, crit_of s)) combos.
End Selected.

Lemma crit_of_eq : forall ty c0 d0 base fits s,
  crit_of ty c0 d0 base fits s
  = R_selection_criteria ty c0 d0 (R_combo_loss base (fits s)) (sum_of RNum f_tss (fits s))
                         (R_sum_n (fits s)) (R_count (fits s)).
Proof. reflexivity. Qed.
