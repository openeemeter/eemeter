(* Order statistics of Model/Metrics.v: the quantile with linear interpolation lies within any bounds of the values and
   is monotone in p along one grid a/b, so the spread between two such quantiles is not negative (IQR and the 5-95 % range
   are instances, Properties/C16.v).  No axioms. *)
From Coq Require Import ZArith QArith Qabs List Bool Lia Lqa Permutation Sorting.Sorted RelationClasses.
From V Require Import Model.Metrics Proofs.ListFacts Proofs.MetricsProofs.
Import ListNotations.
Open Scope Q_scope.

Lemma qleb_le : forall a b, qleb a b = true <-> a <= b.
Proof.
  intros [na da] [nb db]. unfold qleb. cbn [Qnum Qden].
  destruct (Pos.eqb da db) eqn:E.
  - apply Pos.eqb_eq in E. subst db. unfold Qle. cbn [Qnum Qden]. rewrite Z.leb_le.
    split; intros H; [apply Z.mul_le_mono_nonneg_r; lia|apply Z.mul_le_mono_pos_r in H; lia].
  - apply Qle_bool_iff.
Qed.

Definition qle_rel (x y : Q) : Prop := is_true (QOrder.leb x y).

Lemma qle_rel_trans : Transitive qle_rel.
Proof.
  intros x y z H1 H2. unfold qle_rel, is_true, QOrder.leb in *.
  apply qleb_le in H1. apply qleb_le in H2. apply qleb_le. eapply Qle_trans; eassumption.
Qed.

Lemma sort_strongly_sorted : forall l, StronglySorted qle_rel (QSort.sort l).
Proof. intros l. apply QSort.StronglySorted_sort. exact qle_rel_trans. Qed.

Lemma sort_length : forall l, length (QSort.sort l) = length l.
Proof. intros l. symmetry. apply Permutation_length. apply QSort.Permuted_sort. Qed.

Lemma sort_in : forall l x, In x (QSort.sort l) -> In x l.
Proof. intros l x H. eapply Permutation_in; [apply Permutation_sym; apply QSort.Permuted_sort|exact H]. Qed.

Lemma qle_rel_refl : forall x, qle_rel x x.
Proof. intros x. apply qleb_le. apply Qle_refl. Qed.

(* Once the section is closed its lemmas and [q_lo], [q_hi], [q_fr] take the sorted list, then the denominator [b], then the
   numerator [a] (e.g. [quantile_sorted_mono s Hs Hne b Hb a1 a2]); the model's [quantile_sorted s a b] has [a] before [b]. *)
Section Quantile.
  Variable s : list Q.
  Hypothesis Hs : StronglySorted qle_rel s.
  Hypothesis Hne : s <> [].

  Let n := zlen s.
  Lemma q_n_pos : (0 < n)%Z.
  Proof. apply zlen_pos. exact Hne. Qed.

  Lemma nthq_le : forall i j, (0 <= i <= j)%Z -> (j < n)%Z -> nthq s i <= nthq s j.
  Proof.
    intros i j Hij Hj. unfold nthq. apply qleb_le. apply (StronglySorted_nth Q qle_rel qle_rel_refl s 0 _ _ Hs).
    - apply Z2Nat.inj_le; lia.
    - unfold n, zlen in Hj. lia.
  Qed.

  Lemma nthq_in : forall i, (0 <= i < n)%Z -> In (nthq s i) s.
  Proof. intros i Hi. unfold nthq. apply nth_In. unfold n, zlen in Hi. lia. Qed.

  Variable b : Z.
  Hypothesis Hb : (0 < b)%Z.

  Definition q_lo (a : Z) : Z := ((n - 1) * a / b)%Z.
  Definition q_hi (a : Z) : Z := Z.min (q_lo a + 1) (n - 1).
  Definition q_fr (a : Z) : Q := inject_Z (((n - 1) * a) mod b) / inject_Z b.

  (* the interpolation weight is in [0, 1) *)
  Lemma q_fr_range : forall a, 0 <= q_fr a /\ q_fr a < 1.
  Proof.
    intros a. unfold q_fr. set (h := ((n - 1) * a)%Z).
    assert (Hm : (0 <= h mod b < b)%Z) by (apply Z.mod_pos_bound; exact Hb).
    pose proof (inject_Z_pos b Hb) as Pb.
    split.
    - apply Qle_shift_div_l; [exact Pb|]. rewrite Qmult_0_l. replace 0 with (inject_Z 0) by reflexivity. rewrite <- Zle_Qle. lia.
    - apply Qlt_shift_div_r; [exact Pb|]. rewrite Qmult_1_l. rewrite <- Zlt_Qlt. lia.
  Qed.

  Lemma quantile_sorted_eq : forall a,
    quantile_sorted s a b == nthq s (q_lo a) + q_fr a * (nthq s (q_hi a) - nthq s (q_lo a)).
  Proof. intros a. unfold quantile_sorted. rewrite Qred_correct. reflexivity. Qed.

  Lemma q_lo_range : forall a, (0 <= a <= b)%Z -> (0 <= q_lo a <= n - 1)%Z.
  Proof.
    intros a Ha. pose proof q_n_pos as Hn. unfold q_lo. split.
    - apply Z.div_pos; [nia|lia].
    - apply Z.div_le_upper_bound; [lia|]. nia.
  Qed.

  Lemma q_hi_range : forall a, (0 <= a <= b)%Z -> (q_lo a <= q_hi a <= n - 1)%Z.
  Proof. intros a Ha. pose proof (q_lo_range a Ha). unfold q_hi. lia. Qed.

  Lemma quantile_between : forall a, (0 <= a <= b)%Z ->
    nthq s (q_lo a) <= quantile_sorted s a b /\ quantile_sorted s a b <= nthq s (q_hi a).
  Proof.
    intros a Ha. rewrite quantile_sorted_eq.
    pose proof (q_lo_range a Ha) as Hl. pose proof (q_hi_range a Ha) as Hh.
    assert (Hx : nthq s (q_lo a) <= nthq s (q_hi a)) by (apply nthq_le; lia).
    destruct (q_fr_range a) as [F0 F1].
    split; nra.
  Qed.

  Lemma quantile_sorted_bounds : forall a L U, (0 <= a <= b)%Z ->
    (forall x, In x s -> L <= x /\ x <= U) -> L <= quantile_sorted s a b /\ quantile_sorted s a b <= U.
  Proof.
    intros a L U Ha Hall. destruct (quantile_between a Ha) as [A B].
    pose proof (q_lo_range a Ha) as Hl. pose proof (q_hi_range a Ha) as Hh.
    destruct (Hall _ (nthq_in (q_lo a) ltac:(lia))) as [L1 _].
    destruct (Hall _ (nthq_in (q_hi a) ltac:(lia))) as [_ U1].
    split; [eapply Qle_trans; eassumption|eapply Qle_trans; eassumption].
  Qed.

  Lemma quantile_sorted_mono : forall a1 a2, (0 <= a1 <= a2)%Z -> (a2 <= b)%Z ->
    quantile_sorted s a1 b <= quantile_sorted s a2 b.
  Proof.
    intros a1 a2 H12 H2b. pose proof q_n_pos as Hn.
    assert (Ha1 : (0 <= a1 <= b)%Z) by lia. assert (Ha2 : (0 <= a2 <= b)%Z) by lia.
    pose proof (q_lo_range a1 Ha1) as L1. pose proof (q_lo_range a2 Ha2) as L2.
    assert (Hh : ((n - 1) * a1 <= (n - 1) * a2)%Z) by nia.
    assert (Hlo : (q_lo a1 <= q_lo a2)%Z) by (unfold q_lo; apply Z.div_le_mono; lia).
    destruct (Z.eq_dec (q_lo a1) (q_lo a2)) as [E|NE].
    - (* same bracket: the weight grows *)
      rewrite !quantile_sorted_eq. unfold q_hi. rewrite E.
      assert (Hx : nthq s (q_lo a2) <= nthq s (Z.min (q_lo a2 + 1) (n - 1))) by (apply nthq_le; lia).
      assert (Hf : q_fr a1 <= q_fr a2).
      { unfold q_fr. apply Qdiv_le_r; [apply Qlt_le_weak, inject_Z_pos, Hb|].
        rewrite <- Zle_Qle. unfold q_lo in E.
        pose proof (Z.div_mod ((n - 1) * a1) b ltac:(lia)). pose proof (Z.div_mod ((n - 1) * a2) b ltac:(lia)). nia. }
      nra.
    - (* different brackets *)
      destruct (quantile_between a1 Ha1) as [_ B1]. destruct (quantile_between a2 Ha2) as [A2 _].
      assert (Hm : nthq s (q_hi a1) <= nthq s (q_lo a2)) by (apply nthq_le; unfold q_hi; lia).
      eapply Qle_trans; [exact B1|]. eapply Qle_trans; [exact Hm|exact A2].
  Qed.
End Quantile.

(* ------------------------------------------------------------------ on arbitrary (unsorted) lists *)

Lemma sort_ne : forall l, l <> [] -> QSort.sort l <> [].
Proof.
  intros l H E. apply H. apply length_zero_iff_nil. rewrite <- sort_length, E. reflexivity.
Qed.

Theorem quantile_bounds : forall l a b L U, l <> [] -> (0 < b)%Z -> (0 <= a <= b)%Z ->
  (forall x, In x l -> L <= x /\ x <= U) -> L <= quantile l a b /\ quantile l a b <= U.
Proof.
  intros l a b L U Hl Hb Ha Hall. unfold quantile.
  apply quantile_sorted_bounds; [apply sort_strongly_sorted|apply sort_ne; exact Hl|exact Hb|exact Ha|].
  intros x Hx. apply Hall. apply sort_in. exact Hx.
Qed.

Theorem quantile_mono : forall l a1 a2 b, l <> [] -> (0 < b)%Z -> (0 <= a1 <= a2)%Z -> (a2 <= b)%Z ->
  quantile l a1 b <= quantile l a2 b.
Proof.
  intros l a1 a2 b Hl Hb H12 H2. unfold quantile.
  apply quantile_sorted_mono; [apply sort_strongly_sorted|apply sort_ne; exact Hl|exact Hb|exact H12|exact H2].
Qed.

(* stated on the unfolded bodies of [iqr] and [range_5_95], which are its instances by conversion *)
Lemma quantile_spread_nonneg : forall l a1 a2 b, l <> [] -> (0 < b)%Z -> (0 <= a1 <= a2)%Z -> (a2 <= b)%Z ->
  0 <= Qred (quantile_sorted (QSort.sort l) a2 b - quantile_sorted (QSort.sort l) a1 b).
Proof.
  intros l a1 a2 b Hl Hb H12 H2. pose proof (quantile_mono l a1 a2 b Hl Hb H12 H2) as M. unfold quantile in M.
  rewrite Qred_correct. lra.
Qed.

Theorem median_bounds : forall l L U, l <> [] -> (forall x, In x l -> L <= x /\ x <= U) -> L <= median l /\ median l <= U.
Proof. intros l L U Hl Hall. unfold median. apply quantile_bounds; [exact Hl|lia|lia|exact Hall]. Qed.
