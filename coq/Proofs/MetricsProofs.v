(* Lemmas about Model/Metrics.v (exact rationals; no axioms), in this order: comparisons and quotients in Q; [qsum] is the
   plain sum [rsum]; variance identity and non-negativity; Cauchy-Schwarz over lists of pairs, hence 0 <= r^2 <= 1 for
   Pearson / lag-1 autocorrelation and MAE^2 <= MSE; ddof; rows with a non-finite cell or an interpolated flag add nothing
   ([finite_pairs], [nonfinite], [measured_rows]); the identities of BaselineMetrics (Section Baseline; [b_x_...] is about
   the field [b_x] of the record);
   _safe_divide and the ratios whose numerator is a root ([root_div], [sdiv_root]) under both division policies; n';
   comparisons of a root with a threshold; the hourly and daily gates.
   Names: a lemma quantified over [pl] holds for either policy ([sdiv_...], Section Baseline, [hourly_gate_p], which carries
   the suffix of the model's [baseline_p]); [safe_divide_...] lemmas are about [AsCoded] alone; [x_root_inv] reads off what
   [x = Root neg s] means. *)
From Coq Require Import ZArith QArith Qabs List Bool Lia Lqa.
From V Require Import Model.Metrics Proofs.ListFacts Proofs.ArithFacts.
Import ListNotations.
Open Scope Q_scope.
(* [Qred] only normalises a fraction: proofs remove it with [Qred_correct] and nothing should unfold it on the way
   (this holds in every file that imports this one) *)
Global Opaque Qred.

(* the library's facts on the folded [Qltb] of Model/Metrics.v, for [rewrite] *)
Lemma Qltb_true_iff : forall a b, Qltb a b = true <-> a < b.
Proof. exact ArithFacts.Qltb_true. Qed.

Lemma Qltb_false_iff : forall a b, Qltb a b = false <-> b <= a.
Proof. exact ArithFacts.Qltb_false. Qed.

Lemma Qeq_bool_false : forall a b, Qeq_bool a b = false <-> ~ a == b.
Proof. intros a b. rewrite <- not_true_iff_false, Qeq_bool_iff. reflexivity. Qed.

Lemma inject_Z_pos : forall z, (0 < z)%Z -> 0 < inject_Z z.
Proof. intros z H. rewrite Zlt_Qlt in H. exact H. Qed.

Lemma Qnonneg_neq_pos : forall x, 0 <= x -> ~ x == 0 -> 0 < x.
Proof. intros x H N. destruct (Qle_lt_or_eq _ _ H) as [L|E]; [exact L|]. symmetry in E. contradiction. Qed.

Lemma Qsqr_pos : forall x, ~ x == 0 -> 0 < x * x.
Proof. intros x N. destruct (Q_dec x 0) as [[L|L]|E]; [nra|nra|contradiction]. Qed.

Lemma Qdiv_nonneg : forall a b, 0 <= a -> 0 <= b -> 0 <= a / b.
Proof. intros a b Ha Hb. apply Qmult_le_0_compat; [exact Ha|apply Qinv_le_0_compat; exact Hb]. Qed.

Lemma Qdiv_le_r : forall a b n, 0 <= n -> a <= b -> a / n <= b / n.
Proof. intros a b n Hn H. apply Qmult_le_compat_r; [exact H|apply Qinv_le_0_compat; exact Hn]. Qed.

Lemma Qlt_div_l : forall a x d, 0 < d -> (a < x / d <-> a * d < x).
Proof.
  intros a x d P. rewrite <- (Qmult_lt_r a (x / d) d P).
  assert (E : x / d * d == x) by (field; lra). rewrite E. reflexivity.
Qed.

Lemma Qlt_div_r : forall a x d, 0 < d -> (x / d < a <-> x < a * d).
Proof.
  intros a x d P. rewrite <- (Qmult_lt_r (x / d) a d P).
  assert (E : x / d * d == x) by (field; lra). rewrite E. reflexivity.
Qed.

Lemma Qabs_div_pos : forall a n, 0 < n -> Qabs (a / n) == Qabs a / n.
Proof.
  intros a n Hn. unfold Qdiv. rewrite Qabs_Qmult. rewrite (Qabs_pos (/ n)); [reflexivity|].
  apply Qinv_le_0_compat. lra.
Qed.

Lemma Qabs_sq : forall x, Qabs x * Qabs x == x * x.
Proof. intros x. rewrite <- Qabs_Qmult. apply Qabs_pos. nra. Qed.

(* sums: [qsum] reduces as it goes, [rsum] is the plain sum it equals *)

Definition rsum (l : list Q) : Q := fold_right Qplus 0 l.

Lemma rsum_nil : rsum [] = 0.
Proof. reflexivity. Qed.
Lemma rsum_cons : forall x l, rsum (x :: l) = x + rsum l.
Proof. reflexivity. Qed.

Lemma qadd_correct : forall a b, qadd a b == a + b.
Proof.
  intros [na da] [nb db]. unfold qadd. cbn [Qnum Qden].
  destruct (nb =? 0)%Z eqn:Z0.
  - apply Z.eqb_eq in Z0. subst nb. unfold Qeq, Qplus. cbn [Qnum Qden]. rewrite Pos2Z.inj_mul. ring.
  - destruct (Pos.eqb da db) eqn:E.
    + apply Pos.eqb_eq in E. subst db. unfold Qeq, Qplus. cbn [Qnum Qden]. rewrite Pos2Z.inj_mul. ring.
    + apply Qred_correct.
Qed.

Lemma psum_cons : forall x l, psum (x :: l) = qadd x (psum l).
Proof. reflexivity. Qed.

Lemma qsum_rsum : forall l, qsum l == rsum l.
Proof.
  intros l. unfold qsum. rewrite Qred_correct.
  induction l as [|x l IH]; [reflexivity|].
  rewrite psum_cons, rsum_cons, qadd_correct, IH. reflexivity.
Qed.

Lemma rsum_app : forall a b, rsum (a ++ b) == rsum a + rsum b.
Proof.
  induction a as [|x a IH]; intros b.
  - rewrite rsum_nil. cbn [app]. ring.
  - cbn [app]. rewrite !rsum_cons, IH. ring.
Qed.

Lemma rsum_map_ext : forall (A : Type) (f g : A -> Q) l, (forall x, f x == g x) -> rsum (map f l) == rsum (map g l).
Proof.
  intros A f g l H. induction l as [|x l IH]; [reflexivity|]. cbn [map]. rewrite !rsum_cons, IH, H. reflexivity.
Qed.

Lemma rsum_map_nonneg : forall (A : Type) (f : A -> Q) l, (forall x, 0 <= f x) -> 0 <= rsum (map f l).
Proof.
  intros A f l H. induction l as [|x l IH]; cbn [map]; [rewrite rsum_nil; lra|].
  rewrite rsum_cons. pose proof (H x). lra.
Qed.

Lemma sqr_nonneg : forall x, 0 <= sqr x.
Proof. intros x. unfold sqr. nra. Qed.

Lemma sum_sq_nonneg : forall l, 0 <= sum_sq l.
Proof. intros l. unfold sum_sq. rewrite qsum_rsum. apply rsum_map_nonneg. exact sqr_nonneg. Qed.

Lemma zlen_nonneg : forall A (l : list A), (0 <= zlen l)%Z.
Proof. intros. unfold zlen. lia. Qed.

Lemma zlen_pos : forall A (l : list A), l <> [] -> (0 < zlen l)%Z.
Proof. intros A [|x l] H; [congruence|]. unfold zlen. cbn [length]. lia. Qed.

Lemma qlen_nonneg : forall A (l : list A), 0 <= qlen l.
Proof. intros A l. pose proof (zlen_nonneg A l) as H. rewrite Zle_Qle in H. exact H. Qed.

Lemma qlen_pos : forall A (l : list A), l <> [] -> 0 < qlen l.
Proof. intros A l H. apply inject_Z_pos. apply zlen_pos. exact H. Qed.

Lemma qlen_cons : forall A (x : A) l, qlen (x :: l) == 1 + qlen l.
Proof.
  intros. unfold qlen, zlen. cbn [length]. rewrite Nat2Z.inj_succ. unfold Z.succ.
  rewrite inject_Z_plus. ring.
Qed.

Lemma rsum_const : forall (l : list Q) c, rsum (map (fun _ => c) l) == qlen l * c.
Proof.
  induction l as [|x l IH]; intros c.
  - cbn [map]. rewrite rsum_nil. unfold qlen, zlen. cbn. ring.
  - cbn [map]. rewrite rsum_cons, IH, qlen_cons. ring.
Qed.

Lemma rsum_dev_sq : forall l m,
  rsum (map sqr (map (fun x => x - m) l)) == rsum (map sqr l) - 2 * m * rsum l + qlen l * (m * m).
Proof.
  induction l as [|x l IH]; intros m.
  - cbn [map]. rewrite !rsum_nil. unfold qlen, zlen. cbn. ring.
  - cbn [map]. rewrite !rsum_cons, IH, qlen_cons. unfold sqr. ring.
Qed.

Lemma mean_eq : forall l, mean l == rsum l / qlen l.
Proof. intros l. unfold mean. rewrite Qred_correct, qsum_rsum. reflexivity. Qed.

Lemma variance_alt : forall l, l <> [] ->
  variance l == sum_sq l / qlen l - mean l * mean l.
Proof.
  intros l H. pose proof (qlen_pos _ l H) as Hn.
  unfold variance, sum_sq, dev. rewrite Qred_correct, !qsum_rsum, rsum_dev_sq.
  rewrite (mean_eq l). field. lra.
Qed.

(* the variance as the record [column] reports it *)
Lemma column_variance : forall l, l <> [] ->
  c_var (column l) == c_sum_sq (column l) / qlen l - c_mean (column l) * c_mean (column l).
Proof. intros l H. unfold column. cbn [c_var c_sum_sq c_mean]. apply variance_alt. exact H. Qed.

(* a sum of squares over the length of any list ([x / 0 = 0]); this is the shape of [variance l], of [b_mse] and of
   [d_mse], which it proves non-negative by conversion *)
Lemma sum_sq_div_len_nonneg : forall l A (d : list A), 0 <= Qred (sum_sq l / qlen d).
Proof. intros l A d. rewrite Qred_correct. apply Qdiv_nonneg; [apply sum_sq_nonneg|apply qlen_nonneg]. Qed.

Lemma variance_nonneg : forall l, 0 <= variance l.
Proof. intros l. apply sum_sq_div_len_nonneg. Qed.

Definition sA (l : list (Q * Q)) := rsum (map (fun p => fst p * fst p) l).
Definition sB (l : list (Q * Q)) := rsum (map (fun p => fst p * snd p) l).
Definition sC (l : list (Q * Q)) := rsum (map (fun p => snd p * snd p) l).

Lemma sA_cons : forall x y l, sA ((x, y) :: l) = x * x + sA l.
Proof. reflexivity. Qed.
Lemma sB_cons : forall x y l, sB ((x, y) :: l) = x * y + sB l.
Proof. reflexivity. Qed.
Lemma sC_cons : forall x y l, sC ((x, y) :: l) = y * y + sC l.
Proof. reflexivity. Qed.

(* sum_i (a_i b - b_i a)^2 >= 0 *)
Lemma quad_nonneg : forall l a b, 0 <= b * b * sA l - 2 * a * b * sB l + a * a * sC l.
Proof.
  induction l as [|[x y] l IH]; intros a b.
  - unfold sA, sB, sC. cbn. lra.
  - rewrite sA_cons, sB_cons, sC_cons. specialize (IH a b).
    pose proof (sqr_nonneg (x * b - y * a)) as Hs. unfold sqr in Hs. lra.
Qed.

Lemma sA_nonneg : forall l, 0 <= sA l.
Proof. intros l. apply rsum_map_nonneg. intros p. nra. Qed.
Lemma sC_nonneg : forall l, 0 <= sC l.
Proof. intros l. apply rsum_map_nonneg. intros p. nra. Qed.

(* one more pair (x, y): the new terms are those of [quad_nonneg l x y], the rest is the induction hypothesis *)
Theorem cauchy_schwarz : forall l, sB l * sB l <= sA l * sC l.
Proof.
  induction l as [|[x y] l IH].
  - unfold sA, sB, sC. cbn. lra.
  - rewrite sA_cons, sB_cons, sC_cons. pose proof (quad_nonneg l x y) as Hq. nra.
Qed.

(* two lists of equal length as a list of pairs *)
Lemma sum_sq_sA : forall xs ys, length xs = length ys -> sum_sq xs == sA (combine xs ys).
Proof.
  intros xs ys H. unfold sum_sq, sA. rewrite qsum_rsum.
  rewrite <- (map_fst_combine Q Q xs ys (Nat.eq_le_incl _ _ H)) at 1. rewrite map_map. reflexivity.
Qed.
Lemma sum_sq_sC : forall xs ys, length xs = length ys -> sum_sq ys == sC (combine xs ys).
Proof.
  intros xs ys H. unfold sum_sq, sC. rewrite qsum_rsum.
  rewrite <- (map_snd_combine Q Q xs ys (Nat.eq_le_incl _ _ (eq_sym H))) at 1. rewrite map_map. reflexivity.
Qed.
Lemma sum_prod_sB : forall xs ys, sum_prod xs ys == sB (combine xs ys).
Proof. intros. unfold sum_prod, sB. rewrite qsum_rsum. reflexivity. Qed.

Lemma dev_length : forall l, length (dev l) = length l.
Proof. intros. unfold dev. apply map_length. Qed.

Theorem pearson_bounds : forall xs ys neg r2, length xs = length ys ->
  pearson xs ys = Some (neg, r2) -> 0 <= r2 /\ r2 <= 1.
Proof.
  intros xs ys neg r2 Hlen H. unfold pearson in H.
  destruct (Qeq_bool (sum_sq (dev xs)) 0) eqn:Ex; [discriminate|].
  destruct (Qeq_bool (sum_sq (dev ys)) 0) eqn:Ey; [discriminate|].
  cbn [orb] in H. injection H as _ <-. rewrite Qred_correct.
  pose proof (Qnonneg_neq_pos _ (sum_sq_nonneg (dev xs)) (Qeq_bool_neq _ _ Ex)) as Hvx.
  pose proof (Qnonneg_neq_pos _ (sum_sq_nonneg (dev ys)) (Qeq_bool_neq _ _ Ey)) as Hvy.
  assert (Hl : length (dev xs) = length (dev ys)) by (rewrite !dev_length; exact Hlen).
  pose proof (cauchy_schwarz (combine (dev xs) (dev ys))) as CS.
  rewrite <- (sum_sq_sA _ _ Hl), <- (sum_sq_sC _ _ Hl), <- sum_prod_sB in CS.
  assert (Hp : 0 < sum_sq (dev xs) * sum_sq (dev ys)) by nra.
  set (c := sum_prod (dev xs) (dev ys)) in *.
  split.
  - apply Qle_shift_div_l; [exact Hp|]. nra.
  - apply Qle_shift_div_r; [exact Hp|]. lra.
Qed.

Lemma tl_removelast_length : forall (l : list Q), length (tl l) = length (removelast l).
Proof.
  induction l as [|x l IH]; [reflexivity|].
  destruct l as [|y l]; [reflexivity|].
  cbn [tl] in *. change (removelast (x :: y :: l)) with (x :: removelast (y :: l)).
  cbn [length]. rewrite <- IH. reflexivity.
Qed.

Theorem autocorr_bounds : forall l neg r2, autocorr1 l = Some (neg, r2) -> 0 <= r2 /\ r2 <= 1.
Proof. intros l neg r2 H. eapply pearson_bounds; [apply tl_removelast_length|exact H]. Qed.

Lemma Qabs_rsum : forall l, Qabs (rsum l) <= rsum (map Qabs l).
Proof.
  induction l as [|x l IH].
  - cbn. lra.
  - cbn [map]. rewrite !rsum_cons. pose proof (Qabs_triangle x (rsum l)). lra.
Qed.

Lemma sum_abs_rsum : forall l, sum_abs l == rsum (map Qabs l).
Proof. intros. unfold sum_abs. apply qsum_rsum. Qed.

Lemma sum_abs_nonneg : forall l, 0 <= sum_abs l.
Proof. intros l. rewrite sum_abs_rsum. apply rsum_map_nonneg. exact Qabs_nonneg. Qed.

Lemma abs_mean_le : forall l, l <> [] -> Qabs (mean l) <= sum_abs l / qlen l.
Proof.
  intros l H. pose proof (qlen_pos _ l H) as Hn.
  rewrite mean_eq, Qabs_div_pos by exact Hn. rewrite sum_abs_rsum.
  apply Qdiv_le_r; [lra|apply Qabs_rsum].
Qed.

(* (sum |r|)^2 <= n * sum r^2 : Cauchy-Schwarz against the constant 1 *)
Lemma sum_abs_sq_le : forall l, rsum (map Qabs l) * rsum (map Qabs l) <= qlen l * rsum (map sqr l).
Proof.
  intros l. pose proof (cauchy_schwarz (map (fun x => (Qabs x, 1)) l)) as CS.
  unfold sA, sB, sC in CS. rewrite !map_map in CS. cbn [fst snd] in CS.
  rewrite (rsum_map_ext _ _ Qabs l (fun x => Qmult_1_r (Qabs x))) in CS.
  rewrite (rsum_map_ext _ _ sqr l Qabs_sq), (rsum_const l (1 * 1)) in CS. lra.
Qed.

Lemma mae_sq_le_mse : forall l, l <> [] ->
  (sum_abs l / qlen l) * (sum_abs l / qlen l) <= sum_sq l / qlen l.
Proof.
  intros l H. pose proof (qlen_pos _ l H) as Hn. pose proof (sum_abs_sq_le l) as CS.
  rewrite sum_abs_rsum. unfold sum_sq. rewrite qsum_rsum.
  set (a := rsum (map Qabs l)) in *. set (s := rsum (map sqr l)) in *. set (n := qlen l) in *.
  assert (E : a / n * (a / n) == (a * a / n) / n) by (field; lra).
  rewrite E. apply Qdiv_le_r; [lra|]. apply Qle_shift_div_r; [exact Hn|]. lra.
Qed.

Lemma ddof_is_max : forall n p, ddof_of n p = Z.max 1 (n - p).
Proof. intros. unfold ddof_of. destruct (n - p <? 1)%Z eqn:E; lia. Qed.

Lemma ddof_ge_1 : forall n p, (1 <= ddof_of n p)%Z.
Proof. intros. rewrite ddof_is_max. lia. Qed.

Lemma finite_pairs_app : forall a b, finite_pairs (a ++ b) = finite_pairs a ++ finite_pairs b.
Proof.
  induction a as [|[[x|] [y|]] a IH]; intros b; cbn [app finite_pairs]; rewrite ?IH; reflexivity.
Qed.

Definition nonfinite (r : cell * cell) : Prop := fst r = None \/ snd r = None.

Lemma finite_pairs_nonfinite_cons : forall r b, nonfinite r -> finite_pairs (r :: b) = finite_pairs b.
Proof. intros [o q] b H. cbn [finite_pairs]. destruct H as [H|H]; cbn in H; subst; [reflexivity|destruct o; reflexivity]. Qed.

Lemma finite_pairs_nonfinite : forall a r b, nonfinite r -> finite_pairs (a ++ r :: b) = finite_pairs (a ++ b).
Proof. intros a r b H. rewrite !finite_pairs_app, (finite_pairs_nonfinite_cons r b H). reflexivity. Qed.

Lemma measured_rows_app : forall a b, measured_rows (a ++ b) = measured_rows a ++ measured_rows b.
Proof. intros. unfold measured_rows. rewrite filter_app, map_app. reflexivity. Qed.

Section Baseline.
  Variable pl : policy.
  Variable d : list (Q * Q).
  Variable p : Z.
  Variable mn : Q.
  Let m := baseline_p pl d p mn.

  Lemma b_n_mse_sse : d <> [] -> inject_Z (b_n m) * b_mse m == b_sse m.
  Proof.
    intros Hd. assert (Hn : 0 < inject_Z (b_n m)) by (apply inject_Z_pos, zlen_pos; exact Hd).
    unfold m, baseline_p in *. cbn [b_n b_mse b_sse] in *. rewrite Qred_correct. field. lra.
  Qed.

  Lemma ddof_rmse_adj_sse : inject_Z (b_ddof m) * b_rmse_adj_sq m == b_sse m.
  Proof.
    pose proof (ddof_ge_1 (zlen d) p) as H1.
    assert (Hn : 0 < inject_Z (ddof_of (zlen d) p)) by (apply inject_Z_pos; lia).
    unfold m, baseline_p. cbn [b_ddof b_rmse_adj_sq b_sse]. rewrite Qred_correct. field. lra.
  Qed.

  Lemma b_n_length : b_n m = Z.of_nat (length d).
  Proof. reflexivity. Qed.

  Lemma rmse_is_root_mse : b_rmse m = Root false (b_mse m) /\ b_rmse_adj m = Root false (b_rmse_adj_sq m).
  Proof. split; reflexivity. Qed.

  Lemma b_mse_nonneg : 0 <= b_mse m.
  Proof. apply sum_sq_div_len_nonneg. Qed.

  Lemma residuals_of_ne : d <> [] -> residuals_of d <> [].
  Proof. intros Hd. unfold residuals_of. destruct d; [congruence|discriminate]. Qed.

  Lemma qlen_residuals_of : qlen (residuals_of d) == inject_Z (b_n m).
  Proof. unfold qlen, zlen, residuals_of. rewrite map_length. reflexivity. Qed.

  Lemma b_abs_mbe_le_mae : d <> [] -> Qabs (b_mbe m) <= b_mae m.
  Proof.
    intros Hd. pose proof (abs_mean_le (residuals_of d) (residuals_of_ne Hd)) as H.
    unfold m, baseline_p. cbn [b_mbe b_mae column c_mean]. rewrite Qred_correct.
    rewrite qlen_residuals_of in H. exact H.
  Qed.

  Lemma b_mae_sq_le_mse : d <> [] -> b_mae m * b_mae m <= b_mse m.
  Proof.
    intros Hd. pose proof (mae_sq_le_mse (residuals_of d) (residuals_of_ne Hd)) as H.
    unfold m, baseline_p. cbn [b_mae b_mse column c_sum_sq]. rewrite !Qred_correct.
    rewrite qlen_residuals_of in H. exact H.
  Qed.

  (* a quotient of two non-negatives, 0 / 0 = 0 included *)
  Lemma b_mae_nonneg : 0 <= b_mae m.
  Proof.
    unfold m, baseline_p. cbn [b_mae]. rewrite Qred_correct.
    apply Qdiv_nonneg; [apply sum_abs_nonneg|apply (qlen_nonneg _ d)].
  Qed.

  Lemma b_r2_bounds : forall r, b_r2 m = Some r -> 0 <= r /\ r <= 1.
  Proof.
    intros r H. unfold m, baseline_p in H. cbn [b_r2] in H.
    destruct (pearson (predicted_of d) (observed_of d)) as [[neg r2]|] eqn:E; [|discriminate].
    injection H as <-. eapply pearson_bounds; [|exact E].
    unfold predicted_of, observed_of. rewrite !map_length. reflexivity.
  Qed.
End Baseline.

Lemma safe_divide_none_iff : forall num den mn,
  safe_divide num den mn = RNone <-> (den <= mn /\ 10 * mn < num).
Proof.
  intros num den mn. rewrite <- Qle_bool_iff, <- Qltb_true_iff, <- andb_true_iff. unfold safe_divide.
  destruct (Qle_bool den mn && Qltb (10 * mn) num); [tauto|].
  destruct (Qeq_bool den 0); split; discriminate.
Qed.

(* the three answers of _safe_divide, each with what is known in its branch *)
Lemma safe_divide_cases : forall num den mn,
  (safe_divide num den mn = RNone /\ den <= mn /\ 10 * mn < num) \/
  ((mn < den \/ num <= 10 * mn) /\
   ((den == 0 /\ safe_divide num den mn = RDivZero (zsgn num)) \/
    (~ den == 0 /\ safe_divide num den mn = RNum (Qred (num / den))))).
Proof.
  intros num den mn. unfold safe_divide. destruct (Qle_bool den mn && Qltb (10 * mn) num) eqn:G.
  - left. rewrite andb_true_iff, Qle_bool_iff, Qltb_true_iff in G. split; [reflexivity|exact G].
  - right. rewrite andb_false_iff, Qle_bool_false, Qltb_false_iff in G. split; [exact G|].
    destruct (Qeq_bool den 0) eqn:Z.
    + left. split; [apply Qeq_bool_iff; exact Z|reflexivity].
    + right. split; [apply Qeq_bool_neq; exact Z|reflexivity].
Qed.

Lemma safe_divide_divzero : forall num den mn s,
  safe_divide num den mn = RDivZero s -> den == 0 /\ (mn < 0 \/ num <= 10 * mn).
Proof.
  intros num den mn s H. destruct (safe_divide_cases num den mn) as [[E _]|[G [[Z _]|[_ E]]]].
  - rewrite E in H. discriminate H.
  - split; [exact Z|]. destruct G as [G|G]; [left; lra|right; exact G].
  - rewrite E in H. discriminate H.
Qed.

Lemma root_gtb_true : forall msq t, root_gtb msq t = true <-> (t < 0 \/ t * t < msq).
Proof.
  intros msq t. unfold root_gtb. destruct (Qltb t 0) eqn:E.
  - apply Qltb_true_iff in E. tauto.
  - apply Qltb_false_iff in E. unfold sqr. rewrite Qltb_true_iff. split; [tauto|]. intros [F|F]; [lra|exact F].
Qed.

Lemma root_div_root_inv : forall msq den neg s, root_div msq den = Root neg s ->
  ~ den == 0 /\ s * (den * den) == msq /\ neg = Qltb den 0.
Proof.
  intros msq den neg s H. unfold root_div in H. destruct (Qeq_bool den 0) eqn:Z.
  - destruct (Qeq_bool msq 0); discriminate.
  - injection H as <- <-. apply Qeq_bool_neq in Z. split; [exact Z|]. split; [|reflexivity].
    rewrite Qred_correct. unfold sqr. field. exact Z.
Qed.

Lemma root_div_nonzero : forall msq den, ~ den == 0 ->
  root_div msq den = Root (Qltb den 0) (Qred (msq / sqr den)).
Proof. intros msq den H. unfold root_div. rewrite (proj2 (Qeq_bool_false den 0) H). reflexivity. Qed.

Lemma root_div_sq_nonneg : forall msq den neg s, 0 <= msq -> root_div msq den = Root neg s -> 0 <= s.
Proof.
  intros msq den neg s Hm H. destruct (root_div_root_inv _ _ _ _ H) as [Z [E _]]. pose proof (Qsqr_pos _ Z). nra.
Qed.

Lemma root_div_not_undef : forall msq den, root_div msq den <> Undef.
Proof. intros msq den. unfold root_div. destruct (Qeq_bool den 0); [destruct (Qeq_bool msq 0)|]; discriminate. Qed.

Lemma sdiv_root_safe : forall pl msq den mn, mn < den -> sdiv_root pl msq den mn = root_div msq den.
Proof.
  intros pl msq den mn H. apply Qle_bool_false in H.
  destruct pl; cbn [sdiv_root]; unfold safe_divide_root, safe_divide_root_spec; rewrite H; reflexivity.
Qed.

(* the two answers of the root form of _safe_divide *)
Lemma safe_divide_root_cases : forall msq den mn,
  (safe_divide_root msq den mn = Undef /\ den <= mn /\ root_gtb msq (10 * mn) = true) \/
  ((mn < den \/ root_gtb msq (10 * mn) = false) /\ safe_divide_root msq den mn = root_div msq den).
Proof.
  intros msq den mn. unfold safe_divide_root. destruct (Qle_bool den mn && root_gtb msq (10 * mn)) eqn:G.
  - left. rewrite andb_true_iff, Qle_bool_iff in G. split; [reflexivity|exact G].
  - right. rewrite andb_false_iff, Qle_bool_false in G. split; [exact G|reflexivity].
Qed.

Lemma sdiv_root_root_is_root_div : forall pl msq den mn neg s,
  sdiv_root pl msq den mn = Root neg s -> root_div msq den = Root neg s.
Proof.
  intros pl msq den mn neg s H. destruct pl; cbn [sdiv_root] in H.
  - destruct (safe_divide_root_cases msq den mn) as [[E _]|[_ E]]; rewrite E in H; [discriminate H|exact H].
  - unfold safe_divide_root_spec in H. destruct (Qle_bool den mn); [discriminate|exact H].
Qed.

Lemma sdiv_root_root_inv : forall pl msq den mn neg s, sdiv_root pl msq den mn = Root neg s ->
  ~ den == 0 /\ s * (den * den) == msq /\ neg = Qltb den 0.
Proof. intros pl msq den mn neg s H. apply root_div_root_inv. exact (sdiv_root_root_is_root_div pl _ _ mn _ _ H). Qed.

Lemma safe_divide_root_undef_iff : forall msq den mn,
  safe_divide_root msq den mn = Undef <-> (den <= mn /\ root_gtb msq (10 * mn) = true).
Proof.
  intros msq den mn. destruct (safe_divide_root_cases msq den mn) as [[E G]|[G E]]; rewrite E.
  - split; [intros _; exact G|reflexivity].
  - split; [intros H; destruct (root_div_not_undef _ _ H)|].
    intros [L T]. destruct G as [G|G]; [lra|congruence].
Qed.

Lemma nprime_solves : forall n np, ~ inject_Z n + np == 0 ->
  np * (1 + rho_of_nprime n np) == inject_Z n * (1 - rho_of_nprime n np).
Proof. intros n np H. unfold rho_of_nprime. rewrite Qred_correct. field. exact H. Qed.

Lemma val_gtb_root_nonneg : forall neg s t, 0 <= t ->
  (val_gtb (Root neg s) t = true <-> (neg = false /\ t * t < s)).
Proof.
  intros neg s t Ht. cbn [val_gtb]. apply Qltb_false_iff in Ht. rewrite Ht. unfold sqr.
  rewrite andb_true_iff, negb_true_iff, Qltb_true_iff. tauto.
Qed.

Lemma val_gtb_root_opp : forall neg s t, val_gtb (Root neg s) t = val_ltb (Root (negb neg) s) (- t).
Proof.
  intros neg s t. cbn [val_gtb val_ltb].
  assert (E0 : Qltb 0 (- t) = Qltb t 0) by (apply eq_true_iff_eq; rewrite !Qltb_true_iff; split; intros; lra).
  assert (E1 : sqr (- t) == sqr t) by (unfold sqr; ring).
  rewrite E0. unfold Qltb. rewrite !E1. reflexivity.
Qed.

Lemma is_undef_iff : forall v, is_undef v = true <-> v = Undef.
Proof. intros []; cbn; split; congruence. Qed.

Lemma hourly_dq_iff : forall m tcv tpn,
  hourly_disqualified m tcv tpn = true <->
  (~ (b_cvrmse_adj m <> Undef /\ val_ltb (b_cvrmse_adj m) tcv = true) /\
   ~ (b_pnrmse_adj m <> Undef /\ val_ltb (b_pnrmse_adj m) tpn = true)).
Proof.
  intros m tcv tpn. unfold hourly_disqualified, hourly_acceptable.
  rewrite negb_true_iff, orb_false_iff, <- !not_true_iff_false, !andb_true_iff, !negb_true_iff.
  rewrite <- !not_true_iff_false, !is_undef_iff. reflexivity.
Qed.

(* daily / billing: disqualified exactly when CVRMSE = rmse / mean(observed) exceeds the threshold;
   for a threshold >= 0 and a non-zero mean, in root-free form *)
Lemma daily_dq_iff : forall resid obs t, 0 <= t -> ~ mean obs == 0 ->
  (daily_disqualified (daily_error resid obs) t = true <->
   (0 < mean obs /\ t * t * (mean obs * mean obs) < d_mse (daily_error resid obs))).
Proof.
  intros resid obs t Ht Hm. unfold daily_disqualified, daily_error. cbn [d_cvrmse d_mse].
  set (mse := Qred (sum_sq resid / qlen resid)).
  rewrite (root_div_nonzero _ _ Hm), val_gtb_root_nonneg by exact Ht. rewrite Qltb_false_iff, Qred_correct. unfold sqr.
  pose proof (Qsqr_pos _ Hm) as P.
  assert (E : 0 <= mean obs <-> 0 < mean obs) by (split; [intros A; apply Qnonneg_neq_pos; assumption|lra]).
  rewrite E, (Qlt_div_l _ _ _ P). reflexivity.
Qed.

(* the gate against the statement: "ratio defined and below its threshold" *)

Lemma root_div_below : forall msq den t, 0 < den ->
  negb (is_undef (root_div msq den)) && val_ltb (root_div msq den) t = Qltb 0 t && Qltb msq (sqr t * sqr den).
Proof.
  intros msq den t Hd. rewrite root_div_nonzero by lra.
  cbn [is_undef negb andb val_ltb]. rewrite (proj2 (Qltb_false_iff den 0)) by lra. cbn [orb andb].
  destruct (Qltb 0 t); [|reflexivity]. cbn [andb].
  apply eq_true_iff_eq. rewrite !Qltb_true_iff, Qred_correct. apply Qlt_div_r. unfold sqr. nra.
Qed.

(* under either policy the code's test on a ratio is the statement's whenever the ratio is over a safely
   positive denominator or is reported as undefined *)
Lemma sdiv_root_below : forall pl msq den mn t, 0 <= mn ->
  (mn < den \/ sdiv_root pl msq den mn = Undef) ->
  negb (is_undef (sdiv_root pl msq den mn)) && val_ltb (sdiv_root pl msq den mn) t = stmt_below msq den mn t.
Proof.
  intros pl msq den mn t Hmn H. unfold stmt_below. destruct (Qlt_le_dec mn den) as [S|L].
  - rewrite (sdiv_root_safe pl msq den mn S), (proj2 (Qltb_true_iff mn den) S), <- andb_assoc.
    apply root_div_below. lra.
  - destruct H as [S|U]; [lra|]. rewrite U, (proj2 (Qltb_false_iff mn den) L). reflexivity.
Qed.

Lemma hourly_gate_p : forall pl d p mn tcv tpn, 0 <= mn ->
  let m := baseline_p pl d p mn in
  (mn < c_mean (b_obs m) \/ b_cvrmse_adj m = Undef) ->
  (mn < c_iqr (b_obs m) \/ b_pnrmse_adj m = Undef) ->
  hourly_disqualified m tcv tpn = hourly_disqualified_spec m mn tcv tpn.
Proof.
  intros pl d p mn tcv tpn Hmn m H1 H2. unfold hourly_disqualified, hourly_acceptable, hourly_disqualified_spec.
  f_equal. f_equal; apply sdiv_root_below; assumption.
Qed.

Lemma repaired_root_safe_or_undef : forall msq den mn, mn < den \/ sdiv_root Repaired msq den mn = Undef.
Proof.
  intros msq den mn. destruct (Qlt_le_dec mn den) as [S|L]; [left; exact S|right].
  cbn [sdiv_root]. unfold safe_divide_root_spec. rewrite (proj2 (Qle_bool_iff den mn) L). reflexivity.
Qed.
