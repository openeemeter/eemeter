(* Lemmas for property C05 (Model/CounterfactualFlows.v) on the daily / billing side:
   - generic: two facts about lists with the same view (a partner exists; a duplicate-free key determines the view) and
     [filter_one] (a predicate that holds of one element of a list identifies it);
   - the row accounting of Model/Rows.v: who is predicted, with which value ([predicted_at_iff]);
   - the same pipeline with explicit routing and left join (Model/PredictRows.v): where a prediction comes from;
   - the temperature of a meter day in the daily data class (Model/TempAgg.v rows_for): the window of an index entry.
   The CalTRACK flow and index_zone need no lemma: their theorems are proved where they are stated (Properties/C05.v). *)
From Coq Require Import ZArith List Bool.
(* Resample before PredictRows: both define a record [drow]; the one meant below is PredictRows' *)
From V Require Import Model.Resample Model.TempAgg Model.Rows Model.PredictRows Model.CounterfactualFlows
                      Proofs.ListFacts Proofs.RowsProofs.
Import ListNotations.
Open Scope Z_scope.

Lemma same_view_partner : forall (B D : Type) (view : B -> D) (a b : list B) x,
  map view a = map view b -> In x a -> exists y, view y = view x /\ In y b.
Proof.
  intros B D view a b x E Hx. apply in_map_iff. rewrite <- E. apply in_map. exact Hx.
Qed.

Lemma same_view_lookup : forall (B C D : Type) (key : B -> C) (view : B -> D) (a b : list B),
  (forall x y, view x = view y -> key x = key y) ->
  NoDup (map key a) -> map view a = map view b ->
  forall x y, In x a -> In y b -> key x = key y -> view x = view y.
Proof.
  intros B C D key view a b Hk Hnd E x y Hx Hy Exy.
  destruct (same_view_partner B D view b a y (eq_sym E) Hy) as [x0 [Ev Hx0]].
  assert (x0 = x) by (apply (NoDup_map_In_inj _ _ key a); auto; rewrite (Hk _ _ Ev); auto).
  subst x0. exact Ev.
Qed.

Lemma filter_one : forall (B : Type) (q : B -> bool) (l : list B) a b,
  length (filter q l) = 1%nat -> In a l -> q a = true -> In b l -> q b = true -> a = b.
Proof.
  intros B q l a b H Ha Qa Hb Qb.
  assert (Ia : In a (filter q l)) by (apply filter_In; auto).
  assert (Ib : In b (filter q l)) by (apply filter_In; auto).
  destruct (filter q l) as [|x [|y t]]; cbn in H; try discriminate.
  destruct Ia as [<-|[]], Ib as [<-|[]]. reflexivity.
Qed.

Section DailyRowsNI.
  Variable A : Type.
  Variable f : Z -> A -> A.

  (* who is predicted: exactly the rows with a finite temperature and, when a usage column is supplied, a finite
     usage value — so blanking usage removes predictions, it never changes one *)
  Lemma predicted_at_iff : forall pol has_obs (rows : list (row A)) t p,
    predicted_at (predict_rows f pol has_obs rows) t p <->
    exists r te, In r rows /\ ts r = t /\ complete has_obs r = true /\ temp r = V te /\ p = f (seg r) te.
  Proof.
    intros pol ho rows t p. split.
    - intros [o [Ho [Ht Hp]]].
      assert (Hn : notna (o_pred o) = true) by (rewrite Hp; reflexivity).
      destruct (predicted_is_complete f pol ho rows o Ho Hn) as [r [Hr [Hc Eo]]]. subst o.
      cbn [predict_kept o_ts o_pred] in *. destruct (temp r) as [te| | |] eqn:Et; try discriminate.
      exists r, te. inversion Hp. auto.
    - intros [r [te [Hr [Ht [Hc [Et Ep]]]]]]. exists (predict_kept f ho r). split; [|split].
      + apply predict_rows_In. left. exists r. auto.
      + exact Ht.
      + cbn [predict_kept o_pred]. rewrite Et, Ep. reflexivity.
  Qed.

  (* omitting the usage column predicts every day the run with usage predicted, with the same value (duplicated index
     labels or not) *)
  Lemma daily_absent_superset : forall pol pol' (rows rows' : list (row A)),
    same_weather_calendar_rows rows rows' ->
    forall t p, predicted_at (predict_rows f pol true rows) t p -> predicted_at (predict_rows f pol' false rows') t p.
  Proof.
    intros pol pol' rows rows' E t p H. apply predicted_at_iff in H.
    destruct H as [r [te [Hr [Ht [Hc [Et Ep]]]]]].
    destruct (same_view_partner _ _ wc_of rows rows' r E Hr) as [r' [Ev Hr']].
    unfold wc_of in Ev. inversion Ev as [[E1 E2 E3]].
    apply predicted_at_iff. exists r', te. repeat split; try congruence.
    unfold complete. rewrite E3, Et. reflexivity.
  Qed.
End DailyRowsNI.

(* the sort of Model/PredictRows.v (a second copy of Rows.sort_by): its insert_by satisfies the two equations of
   ListFacts' insertion sort by computation *)
Lemma PredictRows_sort_by_In : forall (B : Type) (key : B -> Z) l y, In y (PredictRows.sort_by key l) <-> In y l.
Proof. intros B key. exact (isort_In B key (PredictRows.insert_by key) (fun _ => eq_refl) (fun _ _ _ => eq_refl)). Qed.

Section DailyPipelineNI.
  Context {V K : Type}.
  Variable finite : V -> bool.
  Variable predict_sub : K -> V -> option V.
  Variable member : K -> @drow V -> bool.
  Variable keys : list K.

  Lemma PredictRows_kept_In : forall obs (rows : list (@drow V)) r,
    In r (fst (initialize_data finite obs rows)) <-> In r rows /\ keep finite obs r = true.
  Proof. intros. unfold initialize_data. cbn [fst]. rewrite filter_In, PredictRows_sort_by_In. reflexivity. Qed.

  Lemma in_join_left : forall (kept : list (@drow V)) preds r p,
    In (r, Some p) (join_left kept preds) -> In r kept /\ In (d_ts r, Some p) preds.
  Proof.
    intros kept preds r p H. unfold join_left in H. apply in_flat_map in H. destruct H as [r0 [Hr0 H]].
    destruct (filter (fun q => Z.eqb (fst q) (d_ts r0)) preds) as [|m ms] eqn:Ef.
    - destruct H as [H|[]]. discriminate.
    - rewrite <- Ef in H. apply in_map_iff in H. destruct H as [[t o] [Eq Hq]]. cbn [snd] in Eq. injection Eq as -> ->.
      apply filter_In in Hq. destruct Hq as [Hq Et]. cbn [fst] in Et. apply Z.eqb_eq in Et. subst t. auto.
  Qed.

  Lemma in_segment_predictions : forall (kept : list (@drow V)) ts p,
    In (ts, Some p) (segment_predictions predict_sub member keys kept) ->
    exists k r t, In k keys /\ In r kept /\ member k r = true /\ d_ts r = ts /\ d_temp r = Some t /\
                  predict_sub k t = Some p.
  Proof.
    intros kept ts p H. unfold segment_predictions in H. apply in_flat_map in H. destruct H as [k [Hk H]].
    apply in_map_iff in H. destruct H as [r [E Hr]]. apply filter_In in Hr. destruct Hr as [Hr Hm].
    injection E as Et Ep. destruct (d_temp r) as [t|] eqn:Etemp; [|discriminate].
    exists k, r, t. repeat split; assumption.
  Qed.

  Lemma predicted_origin : forall obs (rows : list (@drow V)) r p,
    In (r, Some p) (daily_predict finite predict_sub member keys obs rows) ->
    exists k r2 t, In k keys /\ In r2 rows /\ keep finite obs r2 = true /\ member k r2 = true /\
                   d_ts r2 = d_ts r /\ d_temp r2 = Some t /\ predict_sub k t = Some p.
  Proof.
    intros obs rows r p H. unfold daily_predict in H.
    destruct (initialize_data finite obs rows) as [kept dropped] eqn:Ei.
    assert (Hk : forall x, In x kept -> In x rows /\ keep finite obs x = true).
    { intros x. pose proof (PredictRows_kept_In obs rows x) as X. rewrite Ei in X. apply X. }
    apply PredictRows_sort_by_In in H. apply in_app_or in H. destruct H as [H|H].
    - destruct (in_join_left _ _ _ _ H) as [Hr Hp].
      destruct (in_segment_predictions _ _ _ Hp) as [k [r2 [t [Hkk [Hr2 [Hm [Et [Etemp Ep]]]]]]]].
      destruct (Hk r2 Hr2) as [Hin2 Hkeep2]. exists k, r2, t. repeat split; assumption.
    - apply in_map_iff in H. destruct H as [x [E _]]. discriminate.
  Qed.

End DailyPipelineNI.

(* [same_weather_frows] is this equation with [temps_of] unfolded *)
Lemma same_weather_temps_of : forall a b : list frow, same_weather_frows a b -> temps_of a = temps_of b.
Proof. intros a b H. exact H. Qed.

Lemma stamps_ni : forall a b : list frow, same_weather_frows a b -> map f_stamp a = map f_stamp b.
Proof.
  intros a b H. apply (map_eq_of_view _ H). intros r r' _ _ E. injection E as Es _. exact Es.
Qed.

(* the row of an index entry is the aggregate of the readings between it and its successor: whatever else the index
   contains *)
Lemma rows_for_entry : forall tol temps idx lo r, In (lo, r) (combine idx (rows_for tol idx temps)) ->
  exists hi, next_in idx lo hi /\ r = agg (group tol lo hi temps).
Proof.
  intros tol temps. induction idx as [|x idx IH]; intros lo r H; [destruct H|].
  cbn [rows_for combine] in H. destruct H as [H|H].
  - inversion H; subst. exists (match idx with h :: _ => Some h | [] => None end). split; [|reflexivity].
    exists [], idx. split; reflexivity.
  - destruct (IH lo r H) as [hi [[pre [rest [E1 E2]]] E3]]. exists hi. split; [|exact E3].
    exists (x :: pre), rest. split; [rewrite E1; reflexivity | exact E2].
Qed.

(* in a duplicate-free index an entry has one successor: the index splits around it in one way only *)
Lemma next_in_unique : forall idx lo h h', NoDup idx -> next_in idx lo h -> next_in idx lo h' -> h = h'.
Proof.
  intros idx lo h h' Hn [p [q [E ->]]] [p' [q' [E' ->]]]. subst idx.
  assert (X : q = q'); [|rewrite X; reflexivity].
  revert p' E' Hn. induction p as [|a p IH]; intros [|a' p'] E Hn; cbn [app] in *.
  - injection E as Eq. exact Eq.
  - injection E as Ea Eq. exfalso. inversion Hn as [|? ? Hx _]. apply Hx. rewrite Eq. apply in_elt.
  - injection E as Ea Eq. exfalso. inversion Hn as [|? ? Hx _]. apply Hx. rewrite Ea. apply in_elt.
  - injection E as Ea Eq. inversion Hn as [|? ? _ Hn2]. exact (IH p' Eq Hn2).
Qed.
