(* The daily curve (Model/DailyCurve.v) at the real-number instance [RNumOf lo hi], for every pair of exp-clip
   bounds lo <= 0 <= hi: one smoothed side as a function of the distance beyond its balance point, the closed form of
   the whole curve, and the model text in that form (section ModelFacts: the kernel, fix_full_model_x, get_full_model_x
   key by key, the vector each stored shape hands to the kernel; its section Curve is what Properties/C11.v and C15.v use: for an
   admissible document off the corner, [predict_closed], [on_curve], the two load columns and [loads_*]).  Then, for any numeric instance: the shifted
   balance points never cross, and the stored temperature constraints are read by key. *)
From Coq Require Import Reals Lra Psatz List Bool String Permutation.
From V Require Import Model.Num Model.NumR Model.DailyCurve.
Import ListNotations.
Local Open Scope R_scope.

Lemma lipschitz_continuity : forall (f : R -> R) (M : R),
  (forall x y, Rabs (f x - f y) <= M * Rabs (x - y)) -> continuity f.
Proof.
  intros f M HL x eps Heps.
  pose proof (Rmax_l M 0) as HM. pose proof (Rmax_r M 0) as HM0. set (M' := Rmax M 0) in *.
  exists (eps / (M' + 1)). split.
  - apply Rdiv_lt_0_compat; lra.
  - intros y [_ Hd]. simpl in *. unfold R_dist in *.
    specialize (HL y x). pose proof (Rabs_pos (y - x)) as Hr.
    assert (Hlt : (M' + 1) * Rabs (y - x) < eps).
    { apply Rlt_le_trans with ((M' + 1) * (eps / (M' + 1))).
      - apply Rmult_lt_compat_l; lra.
      - right. field. lra. }
    nra.
Qed.

Section Branch.
Variable lo : R.
Hypothesis Hlo : lo <= 0.

(* the (clipped) exponential factor of the smoothed kernel, at distance d beyond the balance point *)
Definition sm (k d : R) : R := exp (Rmax (- (d / k)) lo).

(* load of one side at distance d beyond its balance point:
   beta d when k = 0 (the product beta k vanishes), beta d + beta k (e^(-d/k) - 1) when smoothed *)
Definition branch (beta k d : R) : R := beta * d + beta * k * (sm k d - 1).

Lemma exp_le : forall a b, a <= b -> exp a <= exp b.
Proof.
  intros a b [H|H].
  - left. apply exp_increasing. exact H.
  - right. rewrite H. reflexivity.
Qed.

Lemma sm_pos : forall k d, 0 < sm k d.
Proof. intros. unfold sm. apply exp_pos. Qed.

Lemma clipped_nonpos : forall k d, 0 < k -> 0 <= d -> Rmax (- (d / k)) lo <= 0.
Proof.
  intros k d Hk Hd. apply Rmax_lub; [|exact Hlo].
  pose proof (Rle_mult_inv_pos d k Hd Hk). unfold Rdiv. lra.
Qed.

Lemma sm_le_1 : forall k d, 0 < k -> 0 <= d -> sm k d <= 1.
Proof.
  intros k d Hk Hd. unfold sm. rewrite <- exp_0. apply exp_le. apply clipped_nonpos; assumption.
Qed.

Lemma sm_unclipped : forall k d, lo <= - (d / k) -> sm k d = exp (- (d / k)).
Proof. intros. unfold sm. rewrite Rmax_left by assumption. reflexivity. Qed.

Lemma branch_0 : forall beta k, branch beta k 0 = 0.
Proof.
  intros. unfold branch, sm.
  replace (- (0 / k)) with 0 by (unfold Rdiv; ring).
  rewrite Rmax_left by exact Hlo. rewrite exp_0. ring.
Qed.

Lemma branch_k0 : forall beta d, branch beta 0 d = beta * d.
Proof. intros. unfold branch. ring. Qed.

Lemma branch_zero_slope : forall k d, branch 0 k d = 0.
Proof. intros. unfold branch. ring. Qed.

Lemma branch_remainder : forall beta k d, branch beta k d - beta * (d - k) = beta * k * sm k d.
Proof. intros. unfold branch. ring. Qed.

(* a side lies above its asymptote  beta (d - k), by at most beta k *)
Lemma branch_above_asymptote : forall beta k d, 0 <= beta -> 0 <= k -> 0 <= d ->
  0 <= branch beta k d - beta * (d - k) <= beta * k.
Proof.
  intros beta k d Hb [Hk|<-] Hd; rewrite branch_remainder.
  - pose proof (sm_pos k d). pose proof (sm_le_1 k d Hk Hd). assert (0 <= beta * k) by nra. nra.
  - rewrite Rmult_0_r, Rmult_0_l. lra.
Qed.

Lemma clipped_gap : forall u1 u2, u1 <= u2 ->
  Rmax (- u2) lo <= Rmax (- u1) lo /\ Rmax (- u1) lo - Rmax (- u2) lo <= u2 - u1.
Proof.
  intros u1 u2 H. unfold Rmax.
  destruct (Rle_dec (- u2) lo), (Rle_dec (- u1) lo); lra.
Qed.

(* key inequality: for a2 <= a1 <= 0,  0 <= e^a1 - e^a2 <= a1 - a2   (from 1 + x <= e^x, e^(a+b) = e^a e^b and monotonicity) *)
Lemma exp_gap : forall a1 a2, a2 <= a1 -> a1 <= 0 -> 0 <= exp a1 - exp a2 <= a1 - a2.
Proof.
  intros a1 a2 H21 H1. split.
  - pose proof (exp_le a2 a1 H21). lra.
  - replace (exp a2) with (exp a1 * exp (a2 - a1)) by (rewrite <- exp_plus; f_equal; ring).
    pose proof (Rpower.exp_ineq1_le (a2 - a1)) as Hin.
    pose proof (exp_pos a1) as Hp.
    assert (Hle1 : exp a1 <= 1) by (rewrite <- exp_0; apply exp_le; exact H1).
    (* e^a1 (1 - e^(a2-a1)) <= e^a1 (a1 - a2) <= a1 - a2 *)
    nra.
Qed.

(* the smoothing factor falls with the distance, by at most the distance gained, in units of k *)
Lemma sm_gap : forall k d1 d2, 0 < k -> 0 <= d1 -> d1 <= d2 ->
  0 <= k * (sm k d1 - sm k d2) <= d2 - d1.
Proof.
  intros k d1 d2 Hk Hd1 Hd.
  assert (Hu : d1 / k <= d2 / k).
  { apply Rmult_le_compat_r; [left; apply Rinv_0_lt_compat; exact Hk | exact Hd]. }
  destruct (clipped_gap (d1 / k) (d2 / k) Hu) as [Ha Hg].
  destruct (exp_gap _ _ Ha (clipped_nonpos k d1 Hk Hd1)) as [G0 G1].
  fold (sm k d1) (sm k d2) in G0, G1.
  assert (Hkk : k * (d2 / k - d1 / k) = d2 - d1) by (field; lra).
  split; [apply Rmult_le_pos; lra|].
  rewrite <- Hkk. apply Rmult_le_compat_l; lra.
Qed.

Lemma branch_increment : forall beta k d1 d2, 0 <= beta -> 0 <= k -> 0 <= d1 -> d1 <= d2 ->
  0 <= branch beta k d2 - branch beta k d1 <= beta * (d2 - d1).
Proof.
  intros beta k d1 d2 Hb [Hk|<-] Hd1 Hd.
  - pose proof (sm_gap k d1 d2 Hk Hd1 Hd) as G.
    replace (branch beta k d2 - branch beta k d1) with (beta * ((d2 - d1) - k * (sm k d1 - sm k d2)))
      by (unfold branch; ring).
    split; [apply Rmult_le_pos | apply Rmult_le_compat_l]; lra.
  - rewrite !branch_k0. nra.
Qed.

Lemma branch_nonneg : forall beta k d, 0 <= beta -> 0 <= k -> 0 <= d -> 0 <= branch beta k d.
Proof.
  intros beta k d Hb Hk Hd.
  pose proof (branch_increment beta k 0 d Hb Hk (Rle_refl 0) Hd) as [H _].
  rewrite branch_0 in H. lra.
Qed.

Lemma branch_le_line : forall beta k d, 0 <= beta -> 0 <= k -> 0 <= d -> branch beta k d <= beta * d.
Proof.
  intros beta k d Hb Hk Hd.
  pose proof (branch_increment beta k 0 d Hb Hk (Rle_refl 0) Hd) as [_ H].
  rewrite branch_0 in H. lra.
Qed.

(* the smoothing factor is below eps + e^lo as soon as d > k / eps
   (the bound on d does not depend on the clip; e^lo is the floor the clip leaves) *)
Lemma sm_small : forall k eps d, 0 < k -> 0 < eps -> k / eps < d -> sm k d < eps + exp lo.
Proof.
  intros k eps d Hk Heps Hd.
  pose proof (exp_pos lo) as Hpl.
  unfold sm, Rmax. destruct (Rle_dec (- (d / k)) lo) as [Hc|Hc]; [lra|].
  assert (Hu : / eps < d / k).
  { apply Rmult_lt_reg_r with k; [exact Hk|].
    replace (d / k * k) with d by (field; lra). rewrite Rmult_comm. exact Hd. }
  assert (He : / eps < exp (d / k)) by (pose proof (Rpower.exp_ineq1_le (d / k)); lra).
  rewrite exp_Ropp.
  pose proof (exp_pos (d / k)) as Hp.
  assert (H1 : / exp (d / k) < / / eps).
  { apply Rinv_lt_contravar; [|exact He].
    apply Rmult_lt_0_compat; [apply Rinv_0_lt_compat; exact Heps | exact Hp]. }
  rewrite Rinv_inv in H1. lra.
Qed.

(* hence the distance to the asymptote vanishes far from the balance point, down to that floor *)
Lemma branch_asymptote : forall beta k eps d, 0 <= beta -> 0 <= k -> 0 < eps -> k / eps < d ->
  0 <= branch beta k d - beta * (d - k) <= beta * k * (eps + exp lo).
Proof.
  intros beta k eps d Hb Hk Heps Hd. rewrite branch_remainder.
  assert (Hbk : 0 <= beta * k) by (apply Rmult_le_pos; assumption).
  pose proof (sm_pos k d) as Hp. pose proof (exp_pos lo) as Hel.
  destruct Hk as [Hk|<-].
  - pose proof (sm_small k eps d Hk Heps Hd).
    split; [apply Rmult_le_pos | apply Rmult_le_compat_l]; lra.
  - rewrite Rmult_0_r, !Rmult_0_l. lra.
Qed.

Definition pos (a : R) : R := Rmax a 0.

Lemma pos_nonneg : forall a, 0 <= pos a.
Proof. intros. unfold pos. apply Rmax_r. Qed.
Lemma pos_of_nonneg : forall a, 0 <= a -> pos a = a.
Proof. intros. unfold pos. apply Rmax_left. assumption. Qed.
Lemma pos_of_nonpos : forall a, a <= 0 -> pos a = 0.
Proof. intros. unfold pos. apply Rmax_right. assumption. Qed.

(* a side carries no load on the other side of its balance point *)
Lemma branch_inactive : forall beta k d, d <= 0 -> branch beta k (pos d) = 0.
Proof. intros beta k d H. rewrite pos_of_nonpos by exact H. apply branch_0. Qed.

(* closed form: base load + heating side at distance (bp_h - T)+ + cooling side at distance (T - bp_c)+ *)
Definition curve (hbp hbeta hk cbp cbeta ck icpt T : R) : R :=
  icpt + branch hbeta hk (pos (hbp - T)) + branch cbeta ck (pos (T - cbp)).

(* Every fact below is a fact about one side ([branch_*]) at the distance beyond its balance point;
   the heating and the cooling versions differ only in that distance, hbp - T or T - cbp. *)
Section CurveFacts.
Variables hbp hbeta hk cbp cbeta ck icpt : R.
Hypothesis Hord : hbp <= cbp.
Hypothesis Hhb : 0 <= hbeta.
Hypothesis Hcb : 0 <= cbeta.
Hypothesis Hhk : 0 <= hk.
Hypothesis Hck : 0 <= ck.
Notation E := (curve hbp hbeta hk cbp cbeta ck icpt).

Lemma curve_heating_side : forall T, T <= hbp -> E T = icpt + branch hbeta hk (hbp - T).
Proof.
  intros T H. unfold curve. rewrite (branch_inactive cbeta ck) by lra.
  rewrite pos_of_nonneg by lra. ring.
Qed.

Lemma curve_cooling_side : forall T, cbp <= T -> E T = icpt + branch cbeta ck (T - cbp).
Proof.
  intros T H. unfold curve. rewrite (branch_inactive hbeta hk) by lra.
  rewrite pos_of_nonneg by lra. ring.
Qed.

Lemma curve_flat : forall T, hbp <= T <= cbp -> E T = icpt.
Proof. intros T [H1 H2]. unfold curve. rewrite !branch_inactive by lra. ring. Qed.

Lemma curve_ge_base : forall T, icpt <= E T.
Proof.
  intros T. unfold curve.
  pose proof (branch_nonneg hbeta hk (pos (hbp - T)) Hhb Hhk (pos_nonneg _)).
  pose proof (branch_nonneg cbeta ck (pos (T - cbp)) Hcb Hck (pos_nonneg _)).
  lra.
Qed.

(* as the temperature rises the heating distance falls and the cooling distance grows, together by at most the rise *)
Lemma pos_gaps : forall T1 T2, T1 <= T2 ->
  pos (hbp - T2) <= pos (hbp - T1) /\ pos (T1 - cbp) <= pos (T2 - cbp) /\
  (pos (hbp - T1) - pos (hbp - T2)) + (pos (T2 - cbp) - pos (T1 - cbp)) <= T2 - T1.
Proof.
  intros T1 T2 H. unfold pos, Rmax.
  destruct (Rle_dec (hbp - T2) 0), (Rle_dec (hbp - T1) 0), (Rle_dec (T1 - cbp) 0), (Rle_dec (T2 - cbp) 0); lra.
Qed.

Lemma curve_heating_monotone : forall T1 T2, T1 <= T2 -> T2 <= cbp -> E T2 <= E T1.
Proof.
  intros T1 T2 H12 H2. destruct (pos_gaps T1 T2 H12) as (Hp & _ & _).
  pose proof (branch_increment hbeta hk _ _ Hhb Hhk (pos_nonneg _) Hp) as [A _].
  unfold curve. rewrite !(branch_inactive cbeta ck) by lra. lra.
Qed.

Lemma curve_cooling_monotone : forall T1 T2, hbp <= T1 -> T1 <= T2 -> E T1 <= E T2.
Proof.
  intros T1 T2 H1 H12. destruct (pos_gaps T1 T2 H12) as (_ & Hq & _).
  pose proof (branch_increment cbeta ck _ _ Hcb Hck (pos_nonneg _) Hq) as [B _].
  unfold curve. rewrite !(branch_inactive hbeta hk) by lra. lra.
Qed.

Lemma curve_lipschitz_ordered : forall T1 T2, T1 <= T2 ->
  Rabs (E T1 - E T2) <= Rmax hbeta cbeta * (T2 - T1).
Proof.
  intros T1 T2 H.
  destruct (pos_gaps T1 T2 H) as [Hp [Hq Hs]].
  pose proof (branch_increment hbeta hk _ _ Hhb Hhk (pos_nonneg (hbp - T2)) Hp) as [A0 A1].
  pose proof (branch_increment cbeta ck _ _ Hcb Hck (pos_nonneg (T1 - cbp)) Hq) as [B0 B1].
  set (a := pos (hbp - T1) - pos (hbp - T2)) in *.
  set (b := pos (T2 - cbp) - pos (T1 - cbp)) in *.
  assert (Ha : 0 <= a) by (unfold a; lra).
  assert (Hb : 0 <= b) by (unfold b; lra).
  (* the heating side falls by at most hbeta a, the cooling side rises by at most cbeta b, and a + b <= T2 - T1 *)
  pose proof (Rmax_l hbeta cbeta) as HM1. pose proof (Rmax_r hbeta cbeta) as HM2.
  set (M := Rmax hbeta cbeta) in *.
  unfold curve. apply Rabs_le. nra.
Qed.

Lemma curve_lipschitz : forall T1 T2, Rabs (E T1 - E T2) <= Rmax hbeta cbeta * Rabs (T1 - T2).
Proof.
  intros T1 T2. destruct (Rle_dec T1 T2) as [H|H].
  - rewrite (Rabs_left1 (T1 - T2)) by lra.
    replace (- (T1 - T2)) with (T2 - T1) by ring. apply curve_lipschitz_ordered. exact H.
  - assert (H' : T2 <= T1) by lra.
    rewrite (Rabs_minus_sym (E T1)). rewrite (Rabs_right (T1 - T2)) by lra.
    apply curve_lipschitz_ordered. exact H'.
Qed.

Lemma curve_continuous : continuity E.
Proof.
  apply lipschitz_continuity with (Rmax hbeta cbeta). exact curve_lipschitz.
Qed.

Lemma curve_heating_linear : hk = 0 -> forall T, T <= hbp -> E T = icpt + hbeta * (hbp - T).
Proof. intros K T H. rewrite curve_heating_side by exact H. rewrite K, branch_k0. reflexivity. Qed.

Lemma curve_cooling_linear : ck = 0 -> forall T, cbp <= T -> E T = icpt + cbeta * (T - cbp).
Proof. intros K T H. rewrite curve_cooling_side by exact H. rewrite K, branch_k0. reflexivity. Qed.

Lemma curve_heating_remainder : forall T, T <= hbp ->
  E T - (icpt + hbeta * ((hbp - hk) - T)) = hbeta * hk * sm hk (hbp - T).
Proof.
  intros T H. rewrite curve_heating_side by exact H.
  pose proof (branch_remainder hbeta hk (hbp - T)). lra.
Qed.

Lemma curve_cooling_remainder : forall T, cbp <= T ->
  E T - (icpt + cbeta * (T - (cbp + ck))) = cbeta * ck * sm ck (T - cbp).
Proof.
  intros T H. rewrite curve_cooling_side by exact H.
  pose proof (branch_remainder cbeta ck (T - cbp)). lra.
Qed.

Lemma curve_heating_asymptote : forall eps T, 0 < eps -> T < hbp - hk / eps ->
  0 <= E T - (icpt + hbeta * ((hbp - hk) - T)) <= hbeta * hk * (eps + exp lo).
Proof.
  intros eps T Heps HT.
  pose proof (Rle_mult_inv_pos hk eps Hhk Heps : 0 <= hk / eps).
  rewrite curve_heating_side by lra.
  pose proof (branch_asymptote hbeta hk eps (hbp - T) Hhb Hhk Heps). lra.
Qed.

Lemma curve_cooling_asymptote : forall eps T, 0 < eps -> cbp + ck / eps < T ->
  0 <= E T - (icpt + cbeta * (T - (cbp + ck))) <= cbeta * ck * (eps + exp lo).
Proof.
  intros eps T Heps HT.
  pose proof (Rle_mult_inv_pos ck eps Hck Heps : 0 <= ck / eps).
  rewrite curve_cooling_side by lra.
  pose proof (branch_asymptote cbeta ck eps (T - cbp) Hcb Hck Heps). lra.
Qed.

End CurveFacts.

End Branch.

(* get_full_model_x moves the balance point of a c_hdd_tidd vector into [T_min_seg, T_max_seg] *)
Definition clamp (a b v : R) : R := if Rlt_dec v a then a else if Rlt_dec b v then b else v.

Lemma clamp_inside : forall a b v : R, a <= v <= b -> clamp a b v = v.
Proof. intros a b v H. unfold clamp. destruct (Rlt_dec v a); [lra|]. destruct (Rlt_dec b v); [lra | reflexivity]. Qed.

Lemma clamp_above : forall a b v : R, a <= b -> b <= v -> clamp a b v = b.
Proof. intros a b v H1 H2. unfold clamp. destruct (Rlt_dec v a); [lra|]. destruct (Rlt_dec b v); lra. Qed.

Lemma clamp_range : forall a b v : R, a <= b -> a <= clamp a b v <= b.
Proof. intros a b v H. unfold clamp. destruct (Rlt_dec v a); [lra|]. destruct (Rlt_dec b v); lra. Qed.

(* what fix_full_model_x does to the slopes and smoothing lengths (primed: after) of an ordered vector: the balance
   points and the intercept are not touched *)
Record fix_kept (Tlo Thi hbp cbp hbeta hk cbeta ck hbeta' hk' cbeta' ck' : R) : Prop := {
  kept_hbeta : hbeta' = hbeta \/ hbeta' = 0;
  kept_cbeta : cbeta' = cbeta \/ cbeta' = 0;
  kept_hk : hk' = hk \/ hk' = 0;
  kept_ck : ck' = ck \/ ck' = 0;
  dead_hk : hbeta' = 0 -> hk' = 0;
  dead_ck : cbeta' = 0 -> ck' = 0;
  live_hk : hbeta' <> 0 -> hk' = hk;
  live_ck : cbeta' <> 0 -> ck' = ck;
  interior_slopes : hbp = cbp \/ (Tlo < hbp /\ cbp < Thi) -> hbeta' = hbeta /\ cbeta' = cbeta
}.
Arguments kept_hbeta {Tlo Thi hbp cbp hbeta hk cbeta ck hbeta' hk' cbeta' ck'} _.
Arguments kept_cbeta {Tlo Thi hbp cbp hbeta hk cbeta ck hbeta' hk' cbeta' ck'} _.
Arguments kept_hk {Tlo Thi hbp cbp hbeta hk cbeta ck hbeta' hk' cbeta' ck'} _.
Arguments kept_ck {Tlo Thi hbp cbp hbeta hk cbeta ck hbeta' hk' cbeta' ck'} _.
Arguments dead_hk {Tlo Thi hbp cbp hbeta hk cbeta ck hbeta' hk' cbeta' ck'} _ _.
Arguments dead_ck {Tlo Thi hbp cbp hbeta hk cbeta ck hbeta' hk' cbeta' ck'} _ _.
Arguments live_hk {Tlo Thi hbp cbp hbeta hk cbeta ck hbeta' hk' cbeta' ck'} _ _.
Arguments live_ck {Tlo Thi hbp cbp hbeta hk cbeta ck hbeta' hk' cbeta' ck'} _ _.
Arguments interior_slopes {Tlo Thi hbp cbp hbeta hk cbeta ck hbeta' hk' cbeta' ck'} _ _.

(* sign-correct in, sign-correct out; a smoothing length does not grow *)
Lemma kept_signs : forall Tlo Thi hbp cbp hbeta hk cbeta ck hbeta' hk' cbeta' ck' : R,
  fix_kept Tlo Thi hbp cbp hbeta hk cbeta ck hbeta' hk' cbeta' ck' ->
  0 <= hbeta -> 0 <= cbeta -> 0 <= hk -> 0 <= ck ->
  0 <= hbeta' /\ 0 <= cbeta' /\ 0 <= hk' <= hk /\ 0 <= ck' <= ck.
Proof.
  intros * F Hhb Hcb Hhk Hck.
  destruct (kept_hbeta F) as [->| ->], (kept_cbeta F) as [->| ->], (kept_hk F) as [->| ->], (kept_ck F) as [->| ->]; lra.
Qed.
Arguments kept_signs {Tlo Thi hbp cbp hbeta hk cbeta ck hbeta' hk' cbeta' ck'} _ _ _ _ _.

Section ModelFacts.
Variables lo hi : R.
Hypothesis Hlo : lo <= 0.
Hypothesis Hhi : 0 <= hi.
Notation N := (RNumOf lo hi).

Lemma clip_nonpos : forall a : R, a <= 0 -> @n_clip N a lo hi = Rmax a lo.
Proof.
  intros a Ha. unfold n_clip. cbn.
  unfold Rltb. destruct (Rlt_dec a lo) as [H|H].
  - destruct (Rlt_dec hi lo); [lra|]. rewrite Rmax_right by lra. reflexivity.
  - destruct (Rlt_dec hi a); [lra|]. rewrite Rmax_left by lra. reflexivity.
Qed.

Lemma evaluate_heating : forall icpt hbeta hk hbp T : R, 0 <= hbeta -> 0 <= hk -> T <= hbp ->
  evaluate N icpt (- hbeta, hk, hbp) T = icpt + branch lo hbeta hk (hbp - T).
Proof.
  intros icpt hbeta hk hbp T Hb Hk HT. unfold evaluate. cbn.
  unfold Reqb. destruct (Req_EM_T (- hbeta) 0) as [E|E].
  - assert (hbeta = 0) by lra. subst. unfold branch. ring.
  - destruct (Req_EM_T hk 0) as [E2|E2].
    + subst hk. rewrite branch_k0. ring.
    + assert (Hkpos : 0 < hk) by lra.
      replace (1 / hk * (T - hbp)) with (- ((hbp - T) / hk)) by (field; lra).
      pose proof (Rle_mult_inv_pos (hbp - T) hk ltac:(lra) Hkpos) as Hd.
      rewrite clip_nonpos by (unfold Rdiv; lra).
      unfold branch, sm.
      replace (- hbeta * hk) with (- (hbeta * hk)) by ring. rewrite Rabs_Ropp.
      rewrite Rabs_right by (apply Rle_ge, Rmult_le_pos; lra).
      ring.
Qed.

(* the kernel's formula does not change when the slope, the smoothing length, the balance point and the
   temperature all change sign: the cooling side is the heating side of the mirrored curve *)
Lemma evaluate_mirror : forall icpt b k bp T : R,
  evaluate N icpt (b, k, bp) T = evaluate N icpt (- b, - k, - bp) (- T).
Proof.
  intros. unfold evaluate. cbn. unfold Reqb.
  destruct (Req_EM_T b 0) as [E|E], (Req_EM_T (- b) 0) as [E'|E'];
    try (exfalso; apply E; lra); try (exfalso; apply E'; lra); [reflexivity|].
  destruct (Req_EM_T k 0) as [K|K], (Req_EM_T (- k) 0) as [K'|K'];
    try (exfalso; apply K; lra); try (exfalso; apply K'; lra); [ring|].
  replace (1 / - k * (- T - - bp)) with (1 / k * (T - bp)) by (field; lra).
  replace (- b * - k) with (b * k) by ring. ring.
Qed.

Lemma evaluate_cooling : forall icpt cbeta ck cbp T : R, 0 <= cbeta -> 0 <= ck -> cbp <= T ->
  evaluate N icpt (cbeta, - ck, cbp) T = icpt + branch lo cbeta ck (T - cbp).
Proof.
  intros icpt cbeta ck cbp T Hb Hk HT.
  rewrite evaluate_mirror, Ropp_involutive, evaluate_heating by lra.
  replace (- cbp - - T) with (T - cbp) by ring. reflexivity.
Qed.

Definition mkx (hb hbeta hk cb cbeta ck i : R) : fullx N := Build_fullx N hb hbeta hk cb cbeta ck i.

Lemma order_bps_id : forall hbp hbeta hk cbp cbeta ck icpt : R, hbp <= cbp ->
  order_bps N (mkx hbp hbeta hk cbp cbeta ck icpt) = mkx hbp hbeta hk cbp cbeta ck icpt.
Proof.
  intros. unfold order_bps. cbn. unfold Rltb. destruct (Rlt_dec cbp hbp); [lra | reflexivity].
Qed.

Lemma regime_heating : forall hbp hbeta hk cbp cbeta ck icpt Tmin Tmax T : R, T < hbp ->
  regime N (mkx hbp hbeta hk cbp cbeta ck icpt) Tmin Tmax T = (- hbeta, hk, hbp).
Proof.
  intros. unfold regime. cbn. unfold Rltb. destruct (Rlt_dec T hbp); [reflexivity | lra].
Qed.

Lemma regime_cooling : forall hbp hbeta hk cbp cbeta ck icpt Tmin Tmax T : R,
  hbp <= cbp -> (hbp = cbp -> cbp < Tmax) -> cbp < T ->
  regime N (mkx hbp hbeta hk cbp cbeta ck icpt) Tmin Tmax T = (cbeta, - ck, cbp).
Proof.
  intros * Ho Hreg HT. unfold regime. cbn. unfold n_geb, n_gtb. cbn. unfold Rltb, Reqb, Rleb.
  destruct (Rlt_dec T hbp); [lra|]. cbn [orb].
  destruct (Req_EM_T hbp cbp) as [He|He]; cbn [andb].
  - destruct (Rle_dec Tmax cbp); [specialize (Hreg He); lra|].
    destruct (Rlt_dec cbp T); [reflexivity | lra].
  - destruct (Rlt_dec cbp T); [reflexivity | lra].
Qed.

(* between the balance points: no load, or (equal balance points at or below T_min) the cooling
   branch at distance 0 *)
Lemma regime_between : forall hbp hbeta hk cbp cbeta ck icpt Tmin Tmax T : R,
  (hbp = cbp -> cbp < Tmax) -> hbp <= T <= cbp ->
  let r := regime N (mkx hbp hbeta hk cbp cbeta ck icpt) Tmin Tmax T in
  r = (0, 0, 0) \/ (r = (cbeta, - ck, cbp) /\ T = cbp).
Proof.
  intros * Hreg [H1 H2]. unfold regime. cbn. unfold n_geb, n_gtb. cbn. unfold Rltb, Reqb, Rleb.
  destruct (Rlt_dec T hbp); [lra|]. cbn [orb].
  destruct (Rlt_dec cbp T); [lra|]. cbn [orb].
  destruct (Req_EM_T hbp cbp) as [He|He]; cbn [andb].
  - destruct (Rle_dec Tmax cbp); [specialize (Hreg He); lra|].
    destruct (Rle_dec hbp Tmin); [right; split; [reflexivity | lra] | left; reflexivity].
  - left; reflexivity.
Qed.

Lemma evaluate_tidd : forall icpt T : R, evaluate N icpt (0, 0, 0) T = icpt.
Proof. intros. unfold evaluate. cbn. unfold Reqb. destruct (Req_EM_T 0 0); [reflexivity | lra]. Qed.

(* the kernel on an ordered, sign-correct 7-vector outside the regime-switch corner *)
Lemma full_model1_curve : forall hbp hbeta hk cbp cbeta ck icpt Tmin Tmax T : R,
  hbp <= cbp -> 0 <= hbeta -> 0 <= cbeta -> 0 <= hk -> 0 <= ck ->
  (hbp = cbp -> cbp < Tmax) \/ (hbeta = 0 /\ cbeta = 0) ->
  full_model1 N (mkx hbp hbeta hk cbp cbeta ck icpt) Tmin Tmax T = curve lo hbp hbeta hk cbp cbeta ck icpt T.
Proof.
  intros hbp hbeta hk cbp cbeta ck icpt Tmin Tmax T Hord Hhb Hcb Hhk Hck Hreg.
  unfold full_model1. rewrite order_bps_id by exact Hord.
  change (x_hdd_beta (mkx hbp hbeta hk cbp cbeta ck icpt)) with hbeta.
  change (x_cdd_beta (mkx hbp hbeta hk cbp cbeta ck icpt)) with cbeta.
  change (x_intercept (mkx hbp hbeta hk cbp cbeta ck icpt)) with icpt.
  change (@n_eqb N hbeta n_zero) with (Reqb hbeta 0). change (@n_eqb N cbeta n_zero) with (Reqb cbeta 0).
  change (@n_mul N n_one icpt) with (1 * icpt).
  destruct (Reqb hbeta 0 && Reqb cbeta 0) eqn:Eb.
  - apply andb_true_iff in Eb. destruct Eb as [E1 E2]. apply Reqb_true in E1, E2. subst.
    unfold curve, branch. change (carrier N) with R. ring.
  - destruct Hreg as [Hreg|[Z1 Z2]].
    2:{ subst. unfold Reqb in Eb. destruct (Req_EM_T 0 0); [discriminate | lra]. }
    clear Eb. destruct (Rlt_dec T hbp) as [H1|H1].
    + rewrite regime_heating by exact H1. rewrite evaluate_heating by lra.
      rewrite curve_heating_side by lra. reflexivity.
    + destruct (Rlt_dec cbp T) as [H2|H2].
      * rewrite regime_cooling by assumption. rewrite evaluate_cooling by lra.
        rewrite curve_cooling_side by lra. reflexivity.
      * assert (Hb : hbp <= T <= cbp) by lra.
        destruct (regime_between hbp hbeta hk cbp cbeta ck icpt Tmin Tmax T Hreg Hb) as [Hr|[Hr Ht]];
          rewrite Hr.
        -- rewrite evaluate_tidd. rewrite curve_flat by lra. reflexivity.
        -- rewrite evaluate_cooling by lra. rewrite curve_cooling_side by lra. reflexivity.
Qed.

(* ordered balance points, non-negative slope magnitudes and smoothing lengths: what [full_model1_curve] asks of the vector *)
Definition good (x : fullx N) : Prop :=
  x_hdd_bp x <= x_cdd_bp x /\ 0 <= x_hdd_beta x /\ 0 <= x_cdd_beta x /\ 0 <= x_hdd_k x /\ 0 <= x_cdd_k x.

Lemma fix_on_ordered : forall hbp hbeta hk cbp cbeta ck icpt Tlo Thi : R, hbp <= cbp ->
  exists hbeta' hk' cbeta' ck',
    fix_full_model_x N (mkx hbp hbeta hk cbp cbeta ck icpt) Tlo Thi = mkx hbp hbeta' hk' cbp cbeta' ck' icpt /\
    fix_kept Tlo Thi hbp cbp hbeta hk cbeta ck hbeta' hk' cbeta' ck'.
Proof.
  intros * Hord. unfold fix_full_model_x. rewrite order_bps_id by exact Hord. cbn.
  unfold n_neqb, n_geb. cbn.
  (* the slopes: both kept with equal balance points or inside the range, else the side at the end of the range is zeroed *)
  set (betas := if negb (Reqb hbp cbp) then _ else _).
  assert (Hb : (fst betas = hbeta \/ fst betas = 0) /\ (snd betas = cbeta \/ snd betas = 0) /\
               ((hbp = cbp \/ (Tlo < hbp /\ cbp < Thi)) -> fst betas = hbeta /\ snd betas = cbeta)).
  { unfold betas, Reqb, Rleb. destruct (Req_EM_T hbp cbp); cbn [negb]; [cbn; tauto|].
    destruct (Rle_dec Thi cbp); [|destruct (Rle_dec hbp Tlo)]; cbn [fst snd];
      (split; [|split]; auto; intros [E|[E1 E2]]; solve [contradiction | exfalso; lra]). }
  clearbody betas. destruct betas as [hbeta' cbeta']. cbn [fst snd] in *. destruct Hb as (B1 & B2 & B3).
  (* the smoothing lengths: zeroed with their slope *)
  exists hbeta', (if Reqb hbeta' 0 then 0 else hk), cbeta', (if Reqb cbeta' 0 then 0 else ck).
  split; [reflexivity|]. unfold Reqb.
  destruct (Req_EM_T hbeta' 0), (Req_EM_T cbeta' 0); constructor; solve [auto | intros; contradiction].
Qed.

Lemma fix_identity : forall (x : fullx N) (Tlo Thi : R),
  x_hdd_bp x <= x_cdd_bp x -> x_hdd_bp x = x_cdd_bp x \/ (Tlo < x_hdd_bp x /\ x_cdd_bp x < Thi) ->
  (x_hdd_beta x = 0 -> x_hdd_k x = 0) -> (x_cdd_beta x = 0 -> x_cdd_k x = 0) ->
  fix_full_model_x N x Tlo Thi = x.
Proof.
  intros [hbp hbeta hk cbp cbeta ck icpt] Tlo Thi Hord Hint Z1 Z2. cbn in Hord, Hint, Z1, Z2.
  destruct (fix_on_ordered hbp hbeta hk cbp cbeta ck icpt Tlo Thi Hord) as (hbeta' & hk' & cbeta' & ck' & Hfix & F).
  unfold mkx in Hfix. rewrite Hfix. destruct (interior_slopes F Hint) as [-> ->].
  assert (hk' = hk).
  { destruct (Req_EM_T hbeta 0) as [E|E]; [rewrite (dead_hk F E), (Z1 E); reflexivity | exact (live_hk F E)]. }
  assert (ck' = ck).
  { destruct (Req_EM_T cbeta 0) as [E|E]; [rewrite (dead_ck F E), (Z2 E); reflexivity | exact (live_ck F E)]. }
  subst. reflexivity.
Qed.

(* a one-sided or flat vector carries its balance point twice: left alone as soon as no side is smoothed without a slope *)
Lemma fix_identity_one_bp : forall bp hbeta hk cbeta ck icpt Tlo Thi : R, (hbeta = 0 -> hk = 0) -> (cbeta = 0 -> ck = 0) ->
  fix_full_model_x N (mkx bp hbeta hk bp cbeta ck icpt) Tlo Thi = mkx bp hbeta hk bp cbeta ck icpt.
Proof. intros * Z1 Z2. apply fix_identity; cbn; auto using Rle_refl. Qed.

Lemma gfx_full_smooth : forall hb hbeta hk cb cbeta ck i Tmin Tmax Tminseg Tmaxseg : R,
  get_full_model_x N KFullSmooth [hb; hbeta; hk; cb; cbeta; ck; i] Tmin Tmax Tminseg Tmaxseg =
  Some (fix_full_model_x N (mkx hb hbeta hk cb cbeta ck i) Tmin Tmax).
Proof. reflexivity. Qed.

Lemma gfx_full : forall hb hbeta cb cbeta i Tmin Tmax Tminseg Tmaxseg : R,
  get_full_model_x N KFull [hb; hbeta; cb; cbeta; i] Tmin Tmax Tminseg Tmaxseg =
  Some (fix_full_model_x N (mkx hb hbeta 0 cb cbeta 0 i) Tmin Tmax).
Proof. reflexivity. Qed.

(* one-sided layouts: the sign of the slope decides heating / cooling *)
Lemma gfx_c_smooth : forall bp beta k i Tmin Tmax Tminseg Tmaxseg : R,
  get_full_model_x N KCSmooth [bp; beta; k; i] Tmin Tmax Tminseg Tmaxseg =
  Some (fix_full_model_x N (if Rltb beta 0 then mkx bp (- beta) k bp 0 0 i else mkx bp 0 0 bp beta k i) Tmin Tmax).
Proof.
  intros. unfold get_full_model_x. change (@n_ltb N beta n_zero) with (Rltb beta 0).
  destruct (Rltb beta 0); reflexivity.
Qed.

Lemma gfx_c : forall bp beta i Tmin Tmax Tminseg Tmaxseg : R,
  get_full_model_x N KC [bp; beta; i] Tmin Tmax Tminseg Tmaxseg =
  Some (fix_full_model_x N (if Rltb beta 0 then mkx (clamp Tminseg Tmaxseg bp) (- beta) 0 (clamp Tminseg Tmaxseg bp) 0 0 i
                            else mkx (clamp Tminseg Tmaxseg bp) 0 0 (clamp Tminseg Tmaxseg bp) beta 0 i) Tmin Tmax).
Proof.
  intros. unfold get_full_model_x, clamp, n_gtb. change (@n_ltb N) with Rltb. change (@n_zero N) with 0.
  destruct (Rltb beta 0); unfold Rltb; destruct (Rlt_dec bp Tminseg); try destruct (Rlt_dec Tmaxseg bp); reflexivity.
Qed.

Lemma gfx_tidd : forall i Tmin Tmax Tminseg Tmaxseg : R,
  get_full_model_x N KTidd [i] Tmin Tmax Tminseg Tmaxseg = Some (mkx 0 0 0 0 0 0 i).
Proof.
  intros. unfold get_full_model_x. change (@n_zero N) with 0. f_equal.
  apply fix_identity_one_bp; reflexivity.
Qed.

Lemma tup4_eq : forall a b c d a' b' c' d' : R, a = a' -> b = b' -> c = c' -> d = d' ->
  (a, b, c, d) = (a', b', c', d').
Proof. intros; subst; reflexivity. Qed.

Lemma min_pct_k_R : min_pct_k N = 1 / 100.
Proof. unfold min_pct_k, n_hundred, n_ten, n_two. cbn. f_equal. ring. Qed.

Lemma smooth_coeffs_spec : forall hbp ph cbp pc : R, hbp <= cbp -> 0 <= ph -> 0 <= pc ->
  exists hk ck : R,
    get_smooth_coeffs N hbp ph cbp pc = (hbp + hk, hk, cbp - ck, ck) /\
    0 <= hk /\ 0 <= ck /\ hk + ck <= cbp - hbp /\
    (ph = 0 -> hk = 0) /\ (pc = 0 -> ck = 0) /\
    (ph + pc <= 1 -> (hk = 0 /\ ck = 0) \/ (hk = ph * (cbp - hbp) /\ ck = pc * (cbp - hbp))) /\
    (1 < ph + pc -> hk = ph / (ph + pc) * (cbp - hbp) /\ ck = pc / (ph + pc) * (cbp - hbp)).
Proof.
  intros hbp ph cbp pc Hord Hph Hpc. unfold get_smooth_coeffs.
  destruct (@n_ltb N ph (min_pct_k N) && @n_ltb N pc (min_pct_k N)) eqn:Emin.
  - exists 0, 0. change (@n_zero N) with 0. split; [apply tup4_eq; ring|].
    apply andb_true_iff in Emin. destruct Emin as [E1 E2].
    change (@n_ltb N ph (min_pct_k N)) with (Rltb ph (min_pct_k N)) in E1.
    change (@n_ltb N pc (min_pct_k N)) with (Rltb pc (min_pct_k N)) in E2.
    apply Rltb_true in E1, E2. rewrite min_pct_k_R in E1, E2.
    split; [lra|]. split; [lra|]. split; [lra|]. split; [reflexivity|]. split; [reflexivity|].
    split; [intros _; left; split; reflexivity | intros; lra].
  - clear Emin. cbn. unfold n_gtb. cbn. unfold Rltb, Rleb.
    assert (Hw : 0 <= cbp - hbp) by lra.
    destruct (Rle_dec hbp cbp) as [_|Hno]; [|lra]. cbn [andb].
    (* the two fractions, normalised when they add up to more than one: q = (qh, qc), qh + qc <= 1 *)
    set (q := if (if Rlt_dec 1 (ph + pc) then true else false) then _ else _).
    assert (Hq : 0 <= fst q /\ 0 <= snd q /\ fst q + snd q <= 1 /\ (ph = 0 -> fst q = 0) /\ (pc = 0 -> snd q = 0) /\
                 (ph + pc <= 1 -> fst q = ph /\ snd q = pc) /\
                 (1 < ph + pc -> fst q = ph / (ph + pc) /\ snd q = pc / (ph + pc))).
    { unfold q. destruct (Rlt_dec 1 (ph + pc)) as [Hs|Hs]; cbn [fst snd].
      - assert (Hsp : 0 < / (ph + pc)) by (apply Rinv_0_lt_compat; lra).
        assert (Qs : ph / (ph + pc) + pc / (ph + pc) = 1) by (field; lra).
        unfold Rdiv in *. repeat split; try nra; intros ->; ring.
      - repeat split; auto; lra. }
    clearbody q. destruct q as [qh qc]. cbn [fst snd] in *.
    destruct Hq as (Q1 & Q2 & Qs & Z1 & Z2 & Le & Gt).
    exists (qh * (cbp - hbp)), (qc * (cbp - hbp)).
    split.
    { match goal with |- context [Rlt_dec ?a ?b] =>
        assert (Ea : a = cbp - qc * (cbp - hbp)) by (field; lra);
        assert (Eb : b = hbp + qh * (cbp - hbp)) by (field; lra);
        destruct (Rlt_dec a b) as [Hc|Hc]; [exfalso; rewrite Ea, Eb in Hc; nra|]
      end.
      apply tup4_eq; field; lra. }
    split; [nra|]. split; [nra|]. split; [nra|].
    split. { intros E. rewrite (Z1 E). ring. }
    split. { intros E. rewrite (Z2 E). ring. }
    split.
    + intros H. destruct (Le H) as [-> ->]. right. split; reflexivity.
    + intros H. destruct (Gt H) as [-> ->]. split; reflexivity.
Qed.

Local Arguments fix_full_model_x : simpl never.
Local Arguments get_full_model_x : simpl never.
Local Arguments get_smooth_coeffs : simpl never.
Local Arguments full_model1 : simpl never.

Definition bounds_ok (tc : tconstr N) : Prop :=
  T_min tc <= T_min_seg tc /\ T_min_seg tc <= T_max_seg tc /\ T_max_seg tc <= T_max tc.

Definition admissible (c : coeffs N) (tc : tconstr N) : Prop :=
  bounds_ok tc /\
  match model_type c, hdd_bp c, hdd_beta c, hdd_k c, cdd_bp c, cdd_beta c, cdd_k c with
  | HddTiddCddSmooth, Some hb, Some hbeta, Some hk, Some cb, Some cbeta, Some ck =>
      T_min_seg tc <= hb /\ hb <= cb /\ cb <= T_max_seg tc /\ 0 <= hbeta /\ 0 <= cbeta /\
      0 <= hk <= 1 /\ 0 <= ck <= 1
  | HddTiddCdd, Some hb, Some hbeta, _, Some cb, Some cbeta, _ =>
      T_min_seg tc <= hb /\ hb <= cb /\ cb <= T_max_seg tc /\ 0 <= hbeta /\ 0 <= cbeta
  | HddTiddSmooth, Some hb, Some hbeta, Some hk, _, _, _ =>
      T_min_seg tc <= hb <= T_max_seg tc /\ hbeta <= 0 /\ 0 <= hk
  | TiddCddSmooth, _, _, _, Some cb, Some cbeta, Some ck =>
      T_min_seg tc <= cb <= T_max_seg tc /\ 0 <= cbeta /\ 0 <= ck
  | HddTidd, Some hb, Some hbeta, _, _, _, _ => T_min_seg tc <= hb <= T_max_seg tc /\ hbeta <= 0
  | TiddCdd, _, _, _, Some cb, Some cbeta, _ => T_min_seg tc <= cb <= T_max_seg tc /\ 0 <= cbeta
  | Tidd, _, _, _, _, _, _ => True
  | _, _, _, _, _, _, _ => False
  end.

Definition getR (o : option R) : R := match o with Some v => v | None => 0 end.

(* the stored lower / upper balance point of a shape (0 for tidd, as in get_full_model_x) *)
Definition lower_bp (c : coeffs N) : R :=
  match model_type c with
  | HddTiddCddSmooth | HddTiddCdd | HddTiddSmooth | HddTidd => getR (hdd_bp c)
  | TiddCddSmooth | TiddCdd => getR (cdd_bp c)
  | Tidd => 0
  end.
Definition upper_bp (c : coeffs N) : R :=
  match model_type c with
  | HddTiddCddSmooth | HddTiddCdd | TiddCddSmooth | TiddCdd => getR (cdd_bp c)
  | HddTiddSmooth | HddTidd => getR (hdd_bp c)
  | Tidd => 0
  end.
(* the stored slopes as magnitudes *)
Definition heat_slope (c : coeffs N) : R :=
  match model_type c with
  | HddTiddCddSmooth | HddTiddCdd => getR (hdd_beta c)
  | HddTiddSmooth | HddTidd => - getR (hdd_beta c)
  | _ => 0
  end.
Definition cool_slope (c : coeffs N) : R :=
  match model_type c with
  | HddTiddCddSmooth | HddTiddCdd | TiddCddSmooth | TiddCdd => getR (cdd_beta c)
  | _ => 0
  end.

Definition interior (c : coeffs N) (tc : tconstr N) : Prop :=
  lower_bp c = upper_bp c \/ (T_min tc < lower_bp c /\ upper_bp c < T_max tc).

Lemma slopes_nonneg : forall c tc, admissible c tc -> 0 <= heat_slope c /\ 0 <= cool_slope c.
Proof.
  intros [s i hb hbeta hk cb cbeta ck] tc [_ A]. unfold admissible, heat_slope, cool_slope in *. cbn in *.
  destruct s, hb, hbeta, hk, cb, cbeta, ck; cbn; try contradiction; lra.
Qed.

Lemma bps_ordered : forall c tc, admissible c tc -> lower_bp c <= upper_bp c.
Proof.
  intros [s i hb hbeta hk cb cbeta ck] tc [_ A]. unfold admissible, lower_bp, upper_bp in *. cbn in *.
  destruct s, hb, hbeta, hk, cb, cbeta, ck; cbn; try contradiction; lra.
Qed.

(* every shape but the smoothed two-sided one hands fix_full_model_x the stored balance points and slope magnitudes,
   with some smoothing lengths (none for the unsmoothed shapes; a stored heating slope 0 is read as a cooling side) *)
Lemma effective_plain : forall c tc, admissible c tc -> model_type c <> HddTiddCddSmooth ->
  exists kh kc : R, 0 <= kh /\ 0 <= kc /\
    match model_type c with HddTiddSmooth | TiddCddSmooth => True | _ => kh = 0 /\ kc = 0 end /\
    effective_x N c tc =
      Some (fix_full_model_x N (mkx (lower_bp c) (heat_slope c) kh (upper_bp c) (cool_slope c) kc (intercept c))
                             (T_min tc) (T_max tc)).
Proof.
  intros [s i hb hbeta hk cb cbeta ck] [Tmin Tmax Tminseg Tmaxseg] [_ A] Hs.
  unfold admissible, lower_bp, upper_bp, heat_slope, cool_slope in *. cbn in *.
  destruct s; try (contradiction Hs; reflexivity).
  - (* hdd_tidd_cdd *)
    destruct hb as [hb|], hbeta as [hbeta|], cb as [cb|], cbeta as [cbeta|]; try contradiction.
    exists 0, 0. unfold effective_x. cbn. rewrite gfx_full. repeat split; lra.
  - (* hdd_tidd_smooth *)
    destruct hb as [hb|], hbeta as [hbeta|], hk as [hk|]; try contradiction. destruct A as (_ & A3 & A4).
    unfold effective_x. cbn. rewrite gfx_c_smooth.
    destruct (Rltb hbeta 0) eqn:E; [apply Rltb_true in E | apply Rltb_false in E].
    + exists hk, 0. repeat split; lra.
    + assert (hbeta = 0) by lra. subst hbeta. rewrite Ropp_0. exists 0, hk. repeat split; lra.
  - (* tidd_cdd_smooth *)
    destruct cb as [cb|], cbeta as [cbeta|], ck as [ck|]; try contradiction. destruct A as (_ & A3 & A4).
    unfold effective_x. cbn. rewrite gfx_c_smooth, (proj2 (Rltb_false cbeta 0) A3).
    exists 0, ck. repeat split; lra.
  - (* hdd_tidd *)
    destruct hb as [hb|], hbeta as [hbeta|]; try contradiction. destruct A as (A1 & A3).
    unfold effective_x. cbn. rewrite gfx_c, clamp_inside by exact A1.
    destruct (Rltb hbeta 0) eqn:E; [apply Rltb_true in E | apply Rltb_false in E].
    + exists 0, 0. repeat split; lra.
    + assert (hbeta = 0) by lra. subst hbeta. rewrite Ropp_0. exists 0, 0. repeat split; lra.
  - (* tidd_cdd *)
    destruct cb as [cb|], cbeta as [cbeta|]; try contradiction. destruct A as (A1 & A3).
    unfold effective_x. cbn. rewrite gfx_c, clamp_inside, (proj2 (Rltb_false cbeta 0) A3) by exact A1.
    exists 0, 0. repeat split; lra.
  - (* tidd *)
    exists 0, 0. repeat split; lra.
Qed.

Lemma effective_good : forall c tc, admissible c tc ->
  exists x, effective_x N c tc = Some x /\ good x /\ x_intercept x = intercept c /\
            lower_bp c <= x_hdd_bp x /\ x_cdd_bp x <= upper_bp c /\
            (x_hdd_beta x = heat_slope c \/ x_hdd_beta x = 0) /\
            (x_cdd_beta x = cool_slope c \/ x_cdd_beta x = 0) /\
            (interior c tc -> x_hdd_beta x = heat_slope c /\ x_cdd_beta x = cool_slope c) /\
            match model_type c with
            | HddTiddCddSmooth => x_hdd_bp x - x_hdd_k x = lower_bp c /\ x_cdd_bp x + x_cdd_k x = upper_bp c
            | _ => x_hdd_bp x = lower_bp c /\ x_cdd_bp x = upper_bp c
            end /\
            match model_type c with
            | HddTiddCdd | HddTidd | TiddCdd | Tidd => x_hdd_k x = 0 /\ x_cdd_k x = 0
            | _ => True
            end.
Proof.
  intros c tc A.
  assert (Hs : model_type c = HddTiddCddSmooth \/ model_type c <> HddTiddCddSmooth)
    by (destruct (model_type c); auto; right; discriminate).
  destruct Hs as [Hs|Hs].
  - (* the smoothed two-sided shape: fix_full_model_x, then get_smooth_coeffs shifts the balance points inwards *)
    destruct c as [s i hb hbeta hk cb cbeta ck], tc as [Tmin Tmax Tminseg Tmaxseg]. cbn in Hs. subst s.
    destruct A as [_ A]. unfold interior, lower_bp, upper_bp, heat_slope, cool_slope in *. cbn in *.
    destruct hb as [hb|], hbeta as [hbeta|], hk as [hk|], cb as [cb|], cbeta as [cbeta|], ck as [ck|];
      try contradiction.
    destruct A as (A1 & A2 & A3 & A4 & A5 & [A6 A6'] & [A7 A7']).
    unfold effective_x. cbn. rewrite gfx_full_smooth.
    destruct (fix_on_ordered hb hbeta hk cb cbeta ck i Tmin Tmax A2) as (hbeta' & hk' & cbeta' & ck' & -> & F).
    destruct (kept_signs F A4 A5 A6 A7) as (P1 & P2 & [Hhk' _] & [Hck' _]).
    pose proof (kept_hbeta F) as Fb1. pose proof (kept_cbeta F) as Fb2.
    cbn. destruct (smooth_coeffs_spec hb hk' cb ck' A2 Hhk' Hck') as (k1 & k2 & Hs & S1 & S2 & S3 & _).
    rewrite Hs. cbn. eexists. split; [reflexivity|]. unfold good. cbn.
    repeat split; try assumption; try lra; apply (interior_slopes F); assumption.
  - (* every other shape: fix_full_model_x of the stored balance points and slope magnitudes *)
    destruct (effective_plain c tc A Hs) as (kh & kc & K1 & K2 & K0 & Hx).
    destruct (slopes_nonneg c tc A) as [S1 S2].
    destruct (fix_on_ordered _ (heat_slope c) kh _ (cool_slope c) kc (intercept c) (T_min tc) (T_max tc) (bps_ordered c tc A))
      as (b1 & k1 & b2 & k2 & Hf & F).
    destruct (kept_signs F S1 S2 K1 K2) as (P1 & P2 & Q1 & Q2).
    pose proof (kept_hbeta F) as Fb1. pose proof (kept_cbeta F) as Fb2.
    rewrite Hf in Hx. eexists. split; [exact Hx|]. unfold good, interior. cbn.
    pose proof (bps_ordered c tc A).
    repeat split; try assumption; try lra; try (apply (interior_slopes F); assumption).
    + (* the balance points are not moved *)
      destruct (model_type c); try (contradiction Hs; reflexivity); split; reflexivity.
    + (* an unsmoothed shape stays unsmoothed *)
      destruct (model_type c); try exact I; try (contradiction Hs; reflexivity); lra.
Qed.

Definition off_corner_x (x : fullx N) (tc : tconstr N) : Prop :=
  (x_hdd_bp x = x_cdd_bp x -> x_cdd_bp x < T_max tc) \/ (x_hdd_beta x = 0 /\ x_cdd_beta x = 0).

Definition heat_part (x : fullx N) (T : R) : R := branch lo (x_hdd_beta x) (x_hdd_k x) (pos (x_hdd_bp x - T)).
Definition cool_part (x : fullx N) (T : R) : R := branch lo (x_cdd_beta x) (x_cdd_k x) (pos (T - x_cdd_bp x)).

Lemma loads_of_closed : forall (x : fullx N) (tc : tconstr N) (T : R), good x -> off_corner_x x tc ->
  loads_of N x (T_min tc) (T_max tc) T =
    (x_intercept x + heat_part x T + cool_part x T, heat_part x T, cool_part x T).
Proof.
  intros [hbp hbeta hk cbp cbeta ck icpt] tc T (G1 & G2 & G3 & G4 & G5) Hoff.
  unfold good, off_corner_x, heat_part, cool_part in *. cbn in *.
  unfold loads_of.
  pose proof (full_model1_curve hbp hbeta hk cbp cbeta ck icpt (T_min tc) (T_max tc) T G1 G2 G3 G4 G5 Hoff) as HE.
  unfold mkx in HE. rewrite HE. unfold curve. cbn. unfold n_geb. cbn. unfold Rleb.
  (* each load column is the prediction minus the base load on its side of its balance point: there the other side is 0 *)
  pose proof (branch_inactive lo Hlo hbeta hk (hbp - T)) as Hh.
  pose proof (branch_inactive lo Hlo cbeta ck (T - cbp)) as Hc.
  destruct (Rle_dec T hbp); destruct (Rle_dec cbp T);
    rewrite ?Hh, ?Hc by lra; (apply f_equal2; [apply f_equal2|]); ring.
Qed.

(* observation functions (total: 0 where the document does not evaluate, excluded by [admissible]) *)
Definition zero_x : fullx N := mkx 0 0 0 0 0 0 0.
Definition eff (c : coeffs N) (tc : tconstr N) : fullx N :=
  match effective_x N c tc with Some x => x | None => zero_x end.
Definition predicted (c : coeffs N) (tc : tconstr N) (T : R) : R :=
  match predict_submodel N c tc T with Some (p, _, _) => p | None => 0 end.
Definition heating_load (c : coeffs N) (tc : tconstr N) (T : R) : R :=
  match predict_submodel N c tc T with Some (_, h, _) => h | None => 0 end.
Definition cooling_load (c : coeffs N) (tc : tconstr N) (T : R) : R :=
  match predict_submodel N c tc T with Some (_, _, k) => k | None => 0 end.

Definition off_corner (c : coeffs N) (tc : tconstr N) : Prop := off_corner_x (eff c tc) tc.

Lemma eff_good : forall c tc, admissible c tc ->
  effective_x N c tc = Some (eff c tc) /\ good (eff c tc) /\ x_intercept (eff c tc) = intercept c.
Proof.
  intros c tc A. destruct (effective_good c tc A) as (x & Hx & G & I & _). unfold eff. rewrite Hx. auto.
Qed.

(* the facts of [effective_good] about [eff c tc], one by one ([eff_good] above: it evaluates, ordered and sign-correct) *)
Lemma eff_bps : forall c tc, admissible c tc ->
  lower_bp c <= x_hdd_bp (eff c tc) /\ x_cdd_bp (eff c tc) <= upper_bp c.
Proof.
  intros c tc A. destruct (effective_good c tc A) as (x & Hx & _ & _ & L & U & _). unfold eff. rewrite Hx. auto.
Qed.

Lemma eff_slopes : forall c tc, admissible c tc ->
  (x_hdd_beta (eff c tc) = heat_slope c \/ x_hdd_beta (eff c tc) = 0) /\
  (x_cdd_beta (eff c tc) = cool_slope c \/ x_cdd_beta (eff c tc) = 0).
Proof.
  intros c tc A. destruct (effective_good c tc A) as (x & Hx & _ & _ & _ & _ & S1 & S2 & _). unfold eff. rewrite Hx. auto.
Qed.

(* [off_corner] is a condition on the computed vector; on the document this is the sufficient condition *)
Lemma upper_below_Tmax_off_corner : forall c tc, admissible c tc -> upper_bp c < T_max tc -> off_corner c tc.
Proof.
  intros c tc A H. destruct (eff_bps c tc A) as [_ U]. left. intros _. lra.
Qed.

Lemma eff_slopes_le : forall c tc, admissible c tc ->
  x_hdd_beta (eff c tc) <= heat_slope c /\ x_cdd_beta (eff c tc) <= cool_slope c.
Proof.
  intros c tc A. destruct (slopes_nonneg c tc A) as [N1 N2]. destruct (eff_slopes c tc A) as [S1 S2].
  split; [destruct S1 as [->| ->] | destruct S2 as [->| ->]]; lra.
Qed.

Section Curve.
Variable c : coeffs N.
Variable tc : tconstr N.
Hypothesis Hadm : admissible c tc.
Hypothesis Hoff : off_corner c tc.
Notation x := (eff c tc).
Notation E := (predicted c tc).

Lemma predict_closed : forall T : R,
  predict_submodel N c tc T = Some (intercept c + heat_part x T + cool_part x T, heat_part x T, cool_part x T).
Proof.
  intros T. destruct (eff_good c tc Hadm) as (Hx & G & I).
  unfold predict_submodel. rewrite Hx. rewrite loads_of_closed by assumption. rewrite I. reflexivity.
Qed.

(* with [eff_good], every fact of the closed-form curve ([curve_*]) is a fact of the document's prediction *)
Lemma predicted_curve : forall T : R,
  E T = curve lo (x_hdd_bp x) (x_hdd_beta x) (x_hdd_k x) (x_cdd_bp x) (x_cdd_beta x) (x_cdd_k x) (intercept c) T.
Proof. intros T. unfold predicted. rewrite predict_closed. reflexivity. Qed.

(* what a client of the curve needs: the prediction is [curve] of an ordered, sign-correct vector *)
Lemma on_curve : good x /\
  forall T : R, E T = curve lo (x_hdd_bp x) (x_hdd_beta x) (x_hdd_k x) (x_cdd_bp x) (x_cdd_beta x) (x_cdd_k x) (intercept c) T.
Proof. destruct (eff_good c tc Hadm) as (_ & G & _). split; [exact G | exact predicted_curve]. Qed.

Lemma heating_load_closed : forall T : R, heating_load c tc T = heat_part x T.
Proof. intros T. unfold heating_load. rewrite predict_closed. reflexivity. Qed.
Lemma cooling_load_closed : forall T : R, cooling_load c tc T = cool_part x T.
Proof. intros T. unfold cooling_load. rewrite predict_closed. reflexivity. Qed.

Lemma loads_nonneg : forall T : R, 0 <= heating_load c tc T /\ 0 <= cooling_load c tc T.
Proof.
  destruct (eff_good c tc Hadm) as (_ & (G1 & G2 & G3 & G4 & G5) & _).
  intros T. rewrite heating_load_closed, cooling_load_closed. unfold heat_part, cool_part.
  split; apply branch_nonneg; try assumption; apply pos_nonneg.
Qed.

Lemma loads_exclusive : forall T : R, heating_load c tc T = 0 \/ cooling_load c tc T = 0.
Proof.
  destruct (eff_good c tc Hadm) as (_ & (G1 & _) & _).
  intros T. rewrite heating_load_closed, cooling_load_closed. unfold heat_part, cool_part.
  destruct (Rle_dec (x_hdd_bp x) T) as [H|H]; [left | right]; apply branch_inactive; lra.
Qed.

Lemma loads_add_up : forall T : R, intercept c + heating_load c tc T + cooling_load c tc T = E T.
Proof.
  intros T. unfold heating_load, cooling_load, predicted. rewrite predict_closed. reflexivity.
Qed.
End Curve.

(* get_smooth_coeffs keeps the order of its two balance points and shifts them inwards *)
Lemma smooth_coeffs_order : forall hbp ph cbp pc : R, hbp <= cbp -> 0 <= ph -> 0 <= pc ->
  let '(hbp', hk, cbp', ck) := get_smooth_coeffs N hbp ph cbp pc in
  hbp <= hbp' /\ hbp' <= cbp' /\ cbp' <= cbp /\ 0 <= hk /\ 0 <= ck.
Proof.
  intros hbp ph cbp pc H1 H2 H3.
  destruct (smooth_coeffs_spec hbp ph cbp pc H1 H2 H3) as (hk & ck & Hs & S1 & S2 & S3 & _).
  rewrite Hs. repeat split; lra.
Qed.

Lemma regime_corner : forall hbp hbeta hk cbeta ck icpt Tmin Tmax T : R, Tmax <= hbp ->
  regime N (mkx hbp hbeta hk hbp cbeta ck icpt) Tmin Tmax T = (- hbeta, hk, hbp).
Proof.
  intros * H. unfold regime. cbn. unfold n_geb. cbn. unfold Rltb, Reqb, Rleb.
  destruct (Rlt_dec T hbp); [reflexivity|]. destruct (Req_EM_T hbp hbp); [|lra].
  destruct (Rle_dec Tmax hbp); [reflexivity | lra].
Qed.

Lemma full_model1_corner_unsmoothed : forall hbp hbeta cbeta ck icpt Tmin Tmax T : R,
  Tmax <= hbp -> hbeta <> 0 ->
  full_model1 N (mkx hbp hbeta 0 hbp cbeta ck icpt) Tmin Tmax T = icpt + hbeta * (hbp - T).
Proof.
  intros * H Hb. unfold full_model1. rewrite order_bps_id by lra.
  change (x_hdd_beta (mkx hbp hbeta 0 hbp cbeta ck icpt)) with hbeta.
  change (@n_eqb N hbeta n_zero) with (Reqb hbeta 0).
  assert (Hz : Reqb hbeta 0 = false) by (apply Reqb_false; exact Hb). rewrite Hz. cbn [andb].
  rewrite regime_corner by exact H. unfold evaluate. cbn. unfold Reqb.
  destruct (Req_EM_T (- hbeta) 0); [lra|]. destruct (Req_EM_T 0 0); [|lra]. ring.
Qed.

(* the vector handed to the kernel for a stored document of each shape that fix_full_model_x leaves alone *)
Section Effective.
Variables Tmin Tmax Tminseg Tmaxseg : R.
Notation tc := (Build_tconstr N Tmin Tmax Tminseg Tmaxseg).

Lemma eff_full_smooth : forall hb hbeta ph cb cbeta pc i hb' hk cb' ck : R,
  hb <= cb -> (hb = cb \/ (Tmin < hb /\ cb < Tmax)) -> (hbeta = 0 -> ph = 0) -> (cbeta = 0 -> pc = 0) ->
  get_smooth_coeffs N hb ph cb pc = (hb', hk, cb', ck) ->
  effective_x N (Build_coeffs N HddTiddCddSmooth i (Some hb) (Some hbeta) (Some ph) (Some cb) (Some cbeta) (Some pc)) tc
  = Some (mkx hb' hbeta hk cb' cbeta ck i).
Proof.
  intros * Ho Hi Z1 Z2 Hs. unfold effective_x. cbn. rewrite gfx_full_smooth, fix_identity by assumption.
  cbn. rewrite Hs. reflexivity.
Qed.

Lemma eff_full : forall hb hbeta cb cbeta i : R,
  hb <= cb -> (hb = cb \/ (Tmin < hb /\ cb < Tmax)) ->
  effective_x N (Build_coeffs N HddTiddCdd i (Some hb) (Some hbeta) None (Some cb) (Some cbeta) None) tc
  = Some (mkx hb hbeta 0 cb cbeta 0 i).
Proof.
  intros * Ho Hi. unfold effective_x. cbn. rewrite gfx_full, fix_identity by auto. reflexivity.
Qed.

Lemma eff_heat_smooth : forall bp beta k i : R, beta < 0 ->
  effective_x N (Build_coeffs N HddTiddSmooth i (Some bp) (Some beta) (Some k) None None None) tc
  = Some (mkx bp (- beta) k bp 0 0 i).
Proof.
  intros * Hb. unfold effective_x. cbn. rewrite gfx_c_smooth, (proj2 (Rltb_true beta 0) Hb).
  rewrite fix_identity_one_bp by (intros; lra). reflexivity.
Qed.

Lemma eff_cool_smooth : forall bp beta k i : R, 0 < beta ->
  effective_x N (Build_coeffs N TiddCddSmooth i None None None (Some bp) (Some beta) (Some k)) tc
  = Some (mkx bp 0 0 bp beta k i).
Proof.
  intros * Hb. unfold effective_x. cbn. rewrite gfx_c_smooth, (proj2 (Rltb_false beta 0)) by lra.
  rewrite fix_identity_one_bp by (intros; lra). reflexivity.
Qed.

Lemma eff_heat : forall bp beta i : R, beta < 0 -> Tminseg <= bp <= Tmaxseg ->
  effective_x N (Build_coeffs N HddTidd i (Some bp) (Some beta) None None None None) tc
  = Some (mkx bp (- beta) 0 bp 0 0 i).
Proof.
  intros * Hb Hr. unfold effective_x. cbn. rewrite gfx_c, clamp_inside, (proj2 (Rltb_true beta 0) Hb) by exact Hr.
  rewrite fix_identity_one_bp by reflexivity. reflexivity.
Qed.

Lemma eff_cool : forall bp beta i : R, 0 < beta -> Tminseg <= bp <= Tmaxseg ->
  effective_x N (Build_coeffs N TiddCdd i None None None (Some bp) (Some beta) None) tc
  = Some (mkx bp 0 0 bp beta 0 i).
Proof.
  intros * Hb Hr. unfold effective_x. cbn. rewrite gfx_c, clamp_inside, (proj2 (Rltb_false beta 0)) by lra.
  rewrite fix_identity_one_bp by reflexivity. reflexivity.
Qed.
End Effective.

(* a temperature-independent document: whatever its other fields and the temperature constraints are *)
Lemma eff_tidd : forall (c : coeffs N) (tc : tconstr N), model_type c = Tidd ->
  effective_x N c tc = Some (mkx 0 0 0 0 0 0 (intercept c)).
Proof.
  intros [s i hb hbeta hk cb cbeta ck] [Tmin Tmax Tminseg Tmaxseg] E. cbn in E. subst s.
  unfold effective_x. cbn. rewrite gfx_tidd. reflexivity.
Qed.

(* a heating-only unsmoothed document whose balance point is at or above T_max: the heating line on BOTH sides *)
Lemma corner_hdd_tidd : forall (i bp beta Tmin Tmax Tminseg Tmaxseg T : R),
  Tminseg <= bp <= Tmaxseg -> Tmax <= bp -> beta < 0 -> bp < T ->
  predict_submodel N (Build_coeffs N HddTidd i (Some bp) (Some beta) None None None None)
                     (Build_tconstr N Tmin Tmax Tminseg Tmaxseg) T
  = Some (i + - beta * (bp - T), 0, - beta * (bp - T)).
Proof.
  intros i bp beta Tmin Tmax Tminseg Tmaxseg T Hseg Hc H2 H3.
  unfold predict_submodel. rewrite eff_heat by assumption. unfold loads_of. cbn [T_min T_max].
  rewrite full_model1_corner_unsmoothed by lra. cbn. unfold n_geb. cbn. unfold Rleb.
  destruct (Rle_dec T bp); [lra|]. destruct (Rle_dec bp T); [|lra].
  f_equal. apply f_equal2; [reflexivity | ring].
Qed.
End ModelFacts.


(* for the size of the clip floor e^lo (Properties/C11.v, C11_clip_floor_tiny) *)
Lemma exp_nat_ge : forall n : nat, 2 ^ n <= exp (INR n).
Proof.
  induction n as [|n IH].
  - simpl. rewrite exp_0. lra.
  - rewrite S_INR, exp_plus. simpl pow.
    pose proof (Rpower.exp_ineq1_le 1) as H1. pose proof (exp_pos (INR n)) as Hp.
    assert (H2 : 2 <= exp 1) by lra.
    assert (Hpow : 0 <= 2 ^ n) by (apply pow_le; lra).
    rewrite Rmult_comm. apply Rmult_le_compat; lra.
Qed.

(* get_smooth_coeffs as coded, with its guard on the shifted points: for an ordered input the shifted cooling balance
   point is never below the shifted heating one, whatever the arithmetic does -- only two order-theoretic facts
   about the comparisons of the instance are used (both hold for IEEE binary64, NaN included, and for R). *)
Section AnyNum.
Variable N : num.
Hypothesis ltb_irrefl : forall x : N, @n_ltb N x x = false.
Hypothesis leb_not_gt : forall a b : N, @n_leb N a b = true -> @n_ltb N b a = false.

Lemma smooth_coeffs_never_cross : forall hb ph cb pc : N, @n_leb N hb cb = true ->
  let '(hb', _, cb', _) := get_smooth_coeffs N hb ph cb pc in @n_ltb N cb' hb' = false.
Proof.
  intros hb ph cb pc Hle. unfold get_smooth_coeffs.
  destruct (@n_ltb N ph (min_pct_k N) && @n_ltb N pc (min_pct_k N)).
  - apply leb_not_gt. exact Hle.
  - cbv zeta. rewrite Hle. cbn [andb].
    match goal with |- context [if @n_ltb N ?a ?b then _ else _] => destruct (@n_ltb N a b) eqn:E end.
    + apply ltb_irrefl.
    + exact E.
Qed.

End AnyNum.

Lemma Rltb_irrefl : forall x : R, Rltb x x = false.
Proof. intros x. apply Rltb_false. apply Rle_refl. Qed.
Lemma Rleb_not_gt : forall a b : R, Rleb a b = true -> Rltb b a = false.
Proof. intros a b H. apply Rleb_true in H. apply Rltb_false. exact H. Qed.

(* DailySubmodelParameters.temperature_constraints is a JSON object (Dict[str, float]); _predict_submodel reads its four
   entries by key.  Reading by key from a duplicate-free association list is invariant under any permutation of the
   list, hence so are the constraints record and the three prediction columns, for every numeric instance. *)

Section ByKey.
Variable A : Type.

Fixpoint lookup (k : string) (l : list (string * A)) : option A :=
  match l with
  | [] => None
  | (k', v) :: rest => if String.eqb k k' then Some v else lookup k rest
  end.

Lemma lookup_not_in : forall k l, ~ In k (map fst l) -> lookup k l = None.
Proof.
  intros k l. induction l as [|[k' v] l IH]; intros H; [reflexivity|]. cbn in *.
  destruct (String.eqb k k') eqn:E.
  - apply String.eqb_eq in E. exfalso. apply H. left. symmetry. exact E.
  - apply IH. intros Hin. apply H. right. exact Hin.
Qed.

Lemma lookup_permutation : forall (l l' : list (string * A)), Permutation l l' -> NoDup (map fst l) ->
  forall k, lookup k l = lookup k l'.
Proof.
  intros l l' P. induction P as [|[k0 v0] l l' P IH|[k1 v1] [k2 v2] l|l1 l2 l3 P1 IH1 P2 IH2]; intros ND k.
  - reflexivity.
  - cbn. cbn in ND. inversion ND as [|? ? Hn ND']; subst. rewrite (IH ND' k). reflexivity.
  - cbn. cbn in ND. inversion ND as [|? ? Hn ND']; subst.
    destruct (String.eqb k k2) eqn:E2; destruct (String.eqb k k1) eqn:E1; try reflexivity.
    apply String.eqb_eq in E1, E2. subst. exfalso. apply Hn. left. reflexivity.
  - rewrite (IH1 ND k). apply IH2.
    apply (Permutation_NoDup (Permutation_map fst P1) ND).
Qed.
End ByKey.

Section ConstraintsByKey.
Variable N : num.

Definition tconstr_of_assoc (l : list (string * N)) : option (tconstr N) :=
  match lookup N "T_min" l, lookup N "T_max" l, lookup N "T_min_seg" l, lookup N "T_max_seg" l with
  | Some a, Some b, Some c, Some d => Some (Build_tconstr N a b c d)
  | _, _, _, _ => None
  end.

Definition predict_submodel_doc (c : coeffs N) (tcdoc : list (string * N)) (Ti : N) : option (N * N * N) :=
  match tconstr_of_assoc tcdoc with
  | Some tc => predict_submodel N c tc Ti
  | None => None
  end.

Lemma tconstr_of_assoc_permutation : forall l l', Permutation l l' -> NoDup (map fst l) ->
  tconstr_of_assoc l = tconstr_of_assoc l'.
Proof.
  intros l l' P ND. unfold tconstr_of_assoc.
  rewrite !(lookup_permutation N l l' P ND). reflexivity.
Qed.

End ConstraintsByKey.
