(* Model/Repro.v (C03): what an operation returns after a history of the process.  Two ingredients throughout: what the
   operation reads of the state (step_seeded_pure, step_fitobj, step_fitdb), and that no earlier operation can change
   that part (run_invariant and its instances: step_frame for the process-wide fields, step_objs / step_dbs with
   step_keeps_seeded_obj / step_keeps_db for the model objects). *)
From Coq Require Import ZArith List Bool Lia.
From V Require Import Model.Repro Proofs.ListFacts.
Import ListNotations.
Open Scope Z_scope.

Lemma run_cons : forall s o h,
  run s (o :: h) = (fst (run (fst (step s o)) h), snd (step s o) :: snd (run (fst (step s o)) h)).
Proof. intros s o h. cbn [run]. destruct (step s o) as [s1 r]. cbn [fst snd]. destruct (run s1 h). reflexivity. Qed.

Lemma run_app : forall h1 h2 s,
  run s (h1 ++ h2) =
  (fst (run (fst (run s h1)) h2), snd (run s h1) ++ snd (run (fst (run s h1)) h2)).
Proof.
  induction h1 as [|o h1 IH]; intros h2 s.
  - cbn [app run fst snd]. destruct (run s h2); reflexivity.
  - cbn [app]. rewrite !run_cons, IH. reflexivity.
Qed.

Lemma run_snoc : forall s h o,
  run s (h ++ [o]) = (fst (step (fst (run s h)) o), snd (run s h) ++ [snd (step (fst (run s h)) o)]).
Proof. intros s h o. rewrite run_app, run_cons. reflexivity. Qed.

Lemma out_snoc : forall s h o, out (run s (h ++ [o])) = snd (step (fst (run s h)) o).
Proof. intros s h o. unfold out. rewrite run_snoc. apply last_last. Qed.

Lemma out_cons_snoc : forall s o h o', out (run s (o :: h ++ [o'])) = out (run (fst (step s o)) (h ++ [o'])).
Proof. intros s o h o'. rewrite app_comm_cons, !out_snoc, run_cons. reflexivity. Qed.

Lemma run_invariant_if : forall (ok : op -> bool) (I : gstate -> Prop),
  (forall s o, ok o = true -> I s -> I (fst (step s o))) ->
  forall h s, forallb ok h = true -> I s -> I (fst (run s h)).
Proof.
  intros ok I Hstep. induction h as [|o h IH]; intros s Hok Hs; [exact Hs|].
  cbn [forallb] in Hok. apply andb_prop in Hok. destruct Hok as [Ho Hh].
  rewrite run_cons. cbn [fst]. apply IH; [exact Hh|]. apply Hstep; assumption.
Qed.

Lemma run_invariant : forall I : gstate -> Prop,
  (forall s o, I s -> I (fst (step s o))) -> forall h s, I s -> I (fst (run s h)).
Proof.
  intros I Hstep h s. apply (run_invariant_if (fun _ => true)).
  - intros s' o _. apply Hstep.
  - apply forallb_forall. reflexivity.
Qed.

Lemma run_preserves : forall (A : Type) (f : gstate -> A),
  (forall s o, f (fst (step s o)) = f s) -> forall h s, f (fst (run s h)) = f s.
Proof.
  intros A f Hstep h s. apply (run_invariant (fun s' => f s' = f s)); [|reflexivity].
  intros s' o Hs'. rewrite Hstep. exact Hs'.
Qed.

(* [step] is a match on the operation whose leaves sit under further matches (the object looked up, its fitted flag, the
   pair returned by revalidate / new_obj); this opens all of them, so that every goal is about one leaf *)
Ltac step_leaves :=
  cbn [step]; repeat match goal with |- context [match ?x with _ => _ end] => destruct x end.

(* the frame of a step, i.e. what no operation can change: every leaf is a with_result of s, possibly under with_objs /
   with_dbs, and these copy g_threads, g_salt and g_ct_default and append the result to g_models *)
Lemma step_frame : forall s o,
  g_threads (fst (step s o)) = g_threads s /\ g_salt (fst (step s o)) = g_salt s /\
  g_ct_default (fst (step s o)) = g_ct_default s /\ g_models (fst (step s o)) = g_models s ++ [snd (step s o)].
Proof. intros s o. destruct o; step_leaves; repeat split. Qed.

Lemma step_threads : forall s o, g_threads (fst (step s o)) = g_threads s.
Proof. intros s o. apply (step_frame s o). Qed.

Lemma run_threads : forall h s, g_threads (fst (run s h)) = g_threads s.
Proof. exact (run_preserves _ g_threads step_threads). Qed.

Lemma step_salt : forall s o, g_salt (fst (step s o)) = g_salt s.
Proof. intros s o. apply (step_frame s o). Qed.

(* ct_env, the part of the process environment the CalTRACK model consults, is the pool size: the same two facts read
   through it *)
Lemma step_env : forall s o, ct_env (fst (step s o)) = ct_env s.
Proof. exact step_threads. Qed.

Lemma run_env : forall h s, ct_env (fst (run s h)) = ct_env s.
Proof. exact run_threads. Qed.

Lemma step_ct_default : forall s o, g_ct_default (fst (step s o)) = g_ct_default s.
Proof. intros s o. apply (step_frame s o). Qed.

Lemma step_models : forall s o, g_models (fst (step s o)) = g_models s ++ [snd (step s o)].
Proof. intros s o. apply (step_frame s o). Qed.

Lemma run_models : forall h s, g_models (fst (run s h)) = g_models s ++ snd (run s h).
Proof.
  induction h as [|o h IH]; intros s.
  - symmetry. apply app_nil_r.
  - rewrite run_cons. cbn [fst snd]. rewrite IH, step_models, <- app_assoc. reflexivity.
Qed.

Lemma run_length : forall h s, length (snd (run s h)) = length h.
Proof.
  induction h as [|o h IH]; intros s; [reflexivity|].
  rewrite run_cons. cbn [snd length]. rewrite IH. reflexivity.
Qed.

Lemma seeded_cases : forall o, seeded o = true ->
  (exists d cfg, o = FitDaily d cfg) \/ (exists d cfg, o = FitBilling d cfg) \/
  (exists d c z, o = FitHourly d c (Some z)) \/ exists d, o = FitCalTrack d.
Proof.
  intros o H. destruct o as [d cfg|d cfg|d c [z|]|d| | | | | | | | | | ]; try discriminate H.
  - left. exists d, cfg. reflexivity.
  - right. left. exists d, cfg. reflexivity.
  - right. right. left. exists d, c, z. reflexivity.
  - right. right. right. exists d. reflexivity.
Qed.

Lemma step_seeded_pure : forall s o, seeded o = true -> snd (step s o) = pure_out (ct_env s) o.
Proof.
  intros s o H. destruct (seeded_cases o H) as [(d & cfg & ->)|[(d & cfg & ->)|[(d & c & z & ->)|(d & ->)]]]; reflexivity.
Qed.

Lemma pure_out_fit : forall env o, seeded o = true -> exists f d cfg t cs, pure_out env o = RFit f d cfg t cs.
Proof.
  intros env o H. destruct (seeded_cases o H) as [(d & cfg & ->)|[(d & cfg & ->)|[(d & c & z & ->)|(d & ->)]]];
    cbn [pure_out]; do 5 eexists; reflexivity.
Qed.

(* only the CalTRACK branch of pure_out mentions the pool size *)
Lemma pure_out_threads : forall o t1 t2, thread_sensitive o = false -> pure_out t1 o = pure_out t2 o.
Proof. intros o t1 t2 H. destruct o; try reflexivity. discriminate H. Qed.

Lemma out_seeded_fit : forall s h o, seeded o = true -> out (run s (h ++ [o])) = pure_out (ct_env s) o.
Proof. intros s h o Hs. rewrite out_snoc, step_seeded_pure, run_env by exact Hs. reflexivity. Qed.

Lemma history_independent : forall o s1 s2 h1 h2, seeded o = true -> thread_sensitive o = false ->
  out (run s1 (h1 ++ [o])) = out (run s2 (h2 ++ [o])).
Proof.
  intros o s1 s2 h1 h2 Hs Ht. rewrite !out_seeded_fit by exact Hs. apply pure_out_threads. exact Ht.
Qed.

Lemma batch_pure : forall h s, forallb seeded h = true -> snd (run s h) = map (pure_out (ct_env s)) h.
Proof.
  induction h as [|o h IH]; intros s H; [reflexivity|].
  cbn [forallb] in H. apply andb_prop in H. destruct H as [Ho Hh].
  rewrite run_cons. cbn [snd map]. rewrite (IH _ Hh), step_env, (step_seeded_pure _ _ Ho). reflexivity.
Qed.

(* prediction with the model of a seeded fit, which is result number length (g_models s) + length h of the process *)
Lemma predict_after_history : forall o s h, seeded o = true ->
  out (run s (h ++ [o; Predict (length (g_models s) + length h)])) = RPredict (pure_out (ct_env s) o).
Proof.
  intros o s h Hs. set (k := (length (g_models s) + length h)%nat).
  change (h ++ [o; Predict k]) with (h ++ [o] ++ [Predict k]). rewrite app_assoc, out_snoc.
  assert (Hm : nth_error (g_models (fst (run s (h ++ [o])))) k = Some (pure_out (ct_env s) o)).
  { rewrite run_snoc. cbn [fst]. rewrite step_models, run_models, step_seeded_pure, run_env by exact Hs.
    replace k with (length (g_models s ++ snd (run s h))) by (rewrite app_length, run_length; reflexivity).
    apply nth_error_middle. }
  (* Predict answers RPredict only when the stored result is an RFit; that of a seeded fit is one *)
  destruct (pure_out_fit (ct_env s) o Hs) as (f & d & cfg & t & cs & E).
  cbn [step with_result snd]. rewrite Hm, E. reflexivity.
Qed.

Definition consumer_rs (c : consumer) : option (sd * Z) :=
  match c with CElasticNet r => r | CKMeans r => r end.

Lemma kmeans_rs : forall n b i,
  map consumer_rs (kmeans_consumers b i n) = map (fun k => Some (b, i + Z.of_nat k)) (seq 0 n).
Proof.
  induction n as [|n IH]; intros b i; [reflexivity|].
  cbn [kmeans_consumers map seq]. rewrite IH. f_equal.
  - cbn. rewrite Z.add_0_r. reflexivity.
  - rewrite <- seq_shift. rewrite map_map. apply map_ext. intros k. f_equal. f_equal. lia.
Qed.

Lemma hourly_consumers_rs : forall c b,
  map consumer_rs (hourly_consumers c b) =
  Some (b, 0) :: map (fun k => Some (b, Z.of_nat k)) (seq 0 (h_recluster c)).
Proof. intros c b. unfold hourly_consumers. cbn [map consumer_rs]. rewrite kmeans_rs. reflexivity. Qed.

Lemma hourly_consumers_length : forall c b, length (hourly_consumers c b) = S (h_recluster c).
Proof.
  intros c b. rewrite <- (map_length consumer_rs), hourly_consumers_rs. cbn [length].
  rewrite map_length, seq_length. reflexivity.
Qed.

Lemma hourly_consumers_in : forall c b x, In x (hourly_consumers c b) ->
  exists i, 0 <= i < Z.max 1 (Z.of_nat (h_recluster c)) /\ consumer_rs x = Some (b, i).
Proof.
  intros c b x Hx. apply (in_map consumer_rs) in Hx. rewrite hourly_consumers_rs in Hx. destruct Hx as [Hx|Hx].
  - exists 0. split; [lia|]. symmetry. exact Hx.
  - apply in_map_iff in Hx. destruct Hx as [k [Hk Hin]]. apply in_seq in Hin.
    exists (Z.of_nat k). split; [lia|]. symmetry. exact Hk.
Qed.

Lemma norm_kmeans : forall tbl n b i,
  map (norm_consumer tbl) (kmeans_consumers b i n) = kmeans_consumers (norm_sd tbl b) i n.
Proof.
  induction n as [|n IH]; intros b i; [reflexivity|].
  cbn [kmeans_consumers map]. rewrite IH. reflexivity.
Qed.

Lemma norm_hourly_consumers : forall tbl c b,
  map (norm_consumer tbl) (hourly_consumers c b) = hourly_consumers c (norm_sd tbl b).
Proof. intros tbl c b. unfold hourly_consumers. cbn [map]. rewrite norm_kmeans. reflexivity. Qed.

Lemma set_nth_other : forall (A : Type) (l : list A) j k (x : A), j <> k -> nth_error (set_nth j x l) k = nth_error l k.
Proof.
  induction l as [|a l IH]; intros j k x H; [destruct j; reflexivity|].
  destruct j, k; cbn; try reflexivity; try congruence. apply IH. congruence.
Qed.

Lemma set_nth_same : forall (A : Type) (l : list A) k (x y : A), nth_error l k = Some y -> nth_error (set_nth k x l) k = Some x.
Proof.
  induction l as [|a l IH]; intros k x y H; [destruct k; discriminate|].
  destruct k; cbn in *; [reflexivity|]. eapply IH. exact H.
Qed.

Lemma set_nth_length : forall (A : Type) (l : list A) j (x : A), length (set_nth j x l) = length l.
Proof. induction l as [|a l IH]; intros j x; [destruct j; reflexivity|]. destruct j; cbn; [reflexivity|]. rewrite IH. reflexivity. Qed.

Lemma step_fitobj : forall s k d,
  snd (step s (FitObj k d)) =
  match nth_error (g_objs s) k with
  | Some ob => RFit Hourly d (h_id (ob_cfg ob)) 0 (obj_consumers ob)
  | None => RNothing
  end.
Proof.
  intros s k d. cbn [step]. destruct (nth_error (g_objs s) k) as [ob|]; [|reflexivity].
  destruct (revalidate (g_rng s) (mark_fitted ob)). reflexivity.
Qed.

(* what an operation does to the list of hourly objects: it appends a new one, or rewrites the one it names *)
Lemma step_objs : forall s o,
  g_objs (fst (step s o)) =
  match o with
  | NewHourly c seed => g_objs s ++ [snd (new_obj (g_rng s) c seed)]
  | FitObj k _ =>
      match nth_error (g_objs s) k with
      | Some ob => set_nth k (snd (revalidate (g_rng s) (mark_fitted ob))) (g_objs s)
      | None => g_objs s
      end
  | ToJson k =>
      match nth_error (g_objs s) k with
      | Some ob => if ob_fitted ob then set_nth k (snd (revalidate (g_rng s) ob)) (g_objs s) else g_objs s
      | None => g_objs s
      end
  | FromJson k =>
      match nth_error (g_objs s) k with
      | Some ob =>
          if ob_fitted ob
          then set_nth k (snd (revalidate (g_rng s) ob)) (g_objs s) ++
               [snd (new_obj (fst (revalidate (g_rng s) ob)) (ob_cfg ob) (ob_seed ob))]
          else g_objs s
      | None => g_objs s
      end
  | _ => g_objs s
  end.
Proof.
  intros s o. destruct o as [ | | | | | | | | | | |k| | ]; try (step_leaves; reflexivity).
  cbn [step]. destruct (nth_error (g_objs s) k) as [ob|]; [|reflexivity]. destruct (ob_fitted ob); [|reflexivity].
  destruct (revalidate (g_rng s) ob) as [r ob']. cbn [fst snd]. destruct (new_obj r (ob_cfg ob) (ob_seed ob)). reflexivity.
Qed.

(* an operation that does not use object k leaves it exactly as it was (constructing, fitting, serialising, loading
   OTHER models, whatever their seeds) *)
Lemma step_untouched_object : forall s o k ob, touches o k = false -> nth_error (g_objs s) k = Some ob ->
  nth_error (g_objs (fst (step s o))) k = Some ob.
Proof.
  intros s o k ob Ht Hk. rewrite step_objs.
  assert (Hset : forall j x, Nat.eqb j k = false -> nth_error (set_nth j x (g_objs s)) k = Some ob).
  { intros j x Hj. rewrite set_nth_other by (apply Nat.eqb_neq; exact Hj). exact Hk. }
  destruct o as [ | | | | | | | |c seed|j d|j|j| | ]; cbn [touches] in Ht; try exact Hk.
  - apply nth_error_app_some. exact Hk.
  - destruct (nth_error (g_objs s) j); [apply Hset; exact Ht|exact Hk].
  - destruct (nth_error (g_objs s) j) as [o1|]; [|exact Hk]. destruct (ob_fitted o1); [apply Hset; exact Ht|exact Hk].
  - destruct (nth_error (g_objs s) j) as [o1|]; [|exact Hk]. destruct (ob_fitted o1); [|exact Hk].
    apply nth_error_app_some. apply Hset. exact Ht.
Qed.

Lemma revalidate_seeded : forall r o z, ob_seed o = Some z -> revalidate r o = (r, o).
Proof. intros r o z H. unfold revalidate. rewrite H. reflexivity. Qed.

(* two objects that differ at most in ob_fitted: a fit cannot tell them apart (step_fitobj reads ob_cfg, ob_en, ob_eff) *)
Definition same_settings (a b : hobj) : Prop := mark_fitted a = mark_fitted b.

Lemma same_settings_fit : forall a b, same_settings a b ->
  ob_cfg a = ob_cfg b /\ obj_consumers a = obj_consumers b /\ ob_seed a = ob_seed b.
Proof.
  intros a b H. split; [exact (f_equal ob_cfg H)|]. split; [exact (f_equal obj_consumers H)|exact (f_equal ob_seed H)].
Qed.

(* an object whose ElasticNet seed and stored _seed are both b hands its consumers what a one-shot fit with seed b hands them *)
Lemma obj_consumers_fresh : forall ob b, ob_en ob = b -> ob_eff ob = b -> obj_consumers ob = hourly_consumers (ob_cfg ob) b.
Proof. intros ob b Hen Heff. unfold obj_consumers, hourly_consumers. rewrite Hen, Heff. reflexivity. Qed.

Definition holds_obj (k : nat) (ob0 : hobj) (s : gstate) : Prop :=
  exists ob, nth_error (g_objs s) k = Some ob /\ same_settings ob ob0.

(* whatever is done in the process -- including fitting, serialising and reloading THIS object -- position k keeps a seeded
   object up to ob_fitted: with a seed in the settings revalidate changes nothing, and the only field ever written is ob_fitted *)
Lemma step_keeps_seeded_obj : forall k ob0 z s o, ob_seed ob0 = Some z ->
  holds_obj k ob0 s -> holds_obj k ob0 (fst (step s o)).
Proof.
  intros k ob0 z s o Hz0 [ob [Hk C]]. destruct (touches o k) eqn:Ht.
  2:{ exists ob. split; [apply step_untouched_object; assumption|exact C]. }
  assert (Hz : ob_seed ob = Some z) by (destruct (same_settings_fit _ _ C) as (_ & _ & ->); exact Hz0).
  assert (Hsame : forall x, nth_error (set_nth k x (g_objs s)) k = Some x) by (intros x; eapply set_nth_same; exact Hk).
  unfold holds_obj. rewrite step_objs.
  destruct o; try discriminate Ht; cbn [touches] in Ht; apply Nat.eqb_eq in Ht; subst; rewrite Hk.
  - rewrite (revalidate_seeded _ (mark_fitted ob) z Hz). exists (mark_fitted ob). split; [apply Hsame|exact C].
  - destruct (ob_fitted ob); [rewrite (revalidate_seeded _ ob z Hz)|]; exists ob.
    + split; [apply Hsame|exact C].
    + split; [exact Hk|exact C].
  - destruct (ob_fitted ob); [rewrite (revalidate_seeded _ ob z Hz)|]; exists ob.
    + split; [apply nth_error_app_some, Hsame|exact C].
    + split; [exact Hk|exact C].
Qed.

(* so a seeded object, however it came about (constructed, or loaded with from_json), is fitted to the same result after
   any history *)
Lemma fitobj_after_history : forall s h k d ob0 z, ob_seed ob0 = Some z -> holds_obj k ob0 s ->
  out (run s (h ++ [FitObj k d])) = RFit Hourly d (h_id (ob_cfg ob0)) 0 (obj_consumers ob0).
Proof.
  intros s h k d ob0 z Hz H. rewrite out_snoc.
  destruct (run_invariant (holds_obj k ob0) (fun s' o => step_keeps_seeded_obj k ob0 z s' o Hz) h s H) as [ob [Hk C]].
  rewrite step_fitobj, Hk. destruct (same_settings_fit _ _ C) as (-> & -> & _). reflexivity.
Qed.

(* construct a seeded model, then ANYTHING (fits of this very object on other data or the same data included), then fit:
   the result of a fresh object fitted at once *)
Lemma refit_equals_fresh : forall s h c z d,
  out (run s (NewHourly c (Some z) :: h ++ [FitObj (length (g_objs s)) d])) =
  RFit Hourly d (h_id c) 0 (hourly_consumers c (SdLit z)).
Proof.
  intros s h c z d. set (ob0 := snd (new_obj (g_rng s) c (Some z))). rewrite out_cons_snoc.
  rewrite (fitobj_after_history _ h _ d ob0 z); [|reflexivity|].
  - rewrite (obj_consumers_fresh ob0 (SdLit z)) by reflexivity. reflexivity.
  - exists ob0. split; [rewrite step_objs; apply nth_error_middle|reflexivity].
Qed.

Definition holds_db (k : nat) (f : family) (cfg : Z) (s : gstate) : Prop :=
  exists ob, nth_error (g_dbs s) k = Some ob /\ db_fam ob = f /\ db_cfg ob = cfg.

Lemma step_dbs : forall s o,
  g_dbs (fst (step s o)) =
  match o with
  | NewDB f cfg => g_dbs s ++ [{| db_fam := f; db_cfg := cfg; db_last := None |}]
  | FitDB k d =>
      match nth_error (g_dbs s) k with
      | Some ob => set_nth k {| db_fam := db_fam ob; db_cfg := db_cfg ob; db_last := Some d |} (g_dbs s)
      | None => g_dbs s
      end
  | _ => g_dbs s
  end.
Proof. intros s o. destruct o; step_leaves; reflexivity. Qed.

(* daily / billing objects: db_fam and db_cfg are never written, whatever is done in the process *)
Lemma step_keeps_db : forall k f cfg s o, holds_db k f cfg s -> holds_db k f cfg (fst (step s o)).
Proof.
  intros k f cfg s o [ob [Hk Hfc]]. unfold holds_db. rewrite step_dbs.
  destruct o as [ | | | | | | | | | | | |f0 cfg0|j d]; try (exists ob; split; assumption).
  - exists ob. split; [apply nth_error_app_some; exact Hk|exact Hfc].
  - destruct (nth_error (g_dbs s) j) as [o1|] eqn:Ej; [|exists ob; split; assumption].
    destruct (Nat.eq_dec j k) as [->|Hne].
    + rewrite Hk in Ej. injection Ej as <-. eexists. split; [eapply set_nth_same; exact Hk|exact Hfc].
    + exists ob. split; [rewrite set_nth_other by exact Hne; exact Hk|exact Hfc].
Qed.

(* the outcome of fitting daily / billing object k depends on its family and settings alone: db_last is not read *)
Lemma step_fitdb : forall s k d,
  snd (step s (FitDB k d)) =
  match nth_error (g_dbs s) k with
  | Some ob => RFit (db_fam ob) d (db_cfg ob) (thread_class (db_fam ob) (ct_env s)) []
  | None => RNothing
  end.
Proof. intros s k d. cbn [step]. destruct (nth_error (g_dbs s) k); reflexivity. Qed.

Lemma fitdb_after_history : forall s h k d f cfg, holds_db k f cfg s ->
  out (run s (h ++ [FitDB k d])) = RFit f d cfg (thread_class f (ct_env s)) [].
Proof.
  intros s h k d f cfg H. rewrite out_snoc.
  destruct (run_invariant (holds_db k f cfg) (step_keeps_db k f cfg) h s H) as [ob [Hk [<- <-]]].
  rewrite step_fitdb, Hk, run_env. reflexivity.
Qed.

(* fit(A) ... fit(B) on ONE daily/billing object: the last fit is the fit of a fresh object *)
Lemma refit_db_equals_fresh : forall s h f cfg d,
  out (run s (NewDB f cfg :: h ++ [FitDB (length (g_dbs s)) d])) = RFit f d cfg (thread_class f (ct_env s)) [].
Proof.
  intros s h f cfg d. rewrite out_cons_snoc, <- (step_env s (NewDB f cfg)). apply fitdb_after_history.
  eexists. split; [apply nth_error_middle|split; reflexivity].
Qed.
