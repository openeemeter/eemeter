(* Lemmas for C15 (Model/Recovery.v at the real-number instance): l2 geometry over lists (triangle inequality,
   the certificate bound, the noise bound); the statement's NRMSE test against RMSE; the generating building
   as a stored document; order statistics of the insertion sort and the optimiser's box; stored parameters close to
   the generating ones give curves close at every temperature of a range; the final fit's box from the initial fit.
   [NR] is [RNum], which is [RNumOf lo hi] at the package's two constants by definition: `apply` sees through it, a `rewrite` with a
   lemma of Proofs/DailyCurveProofs.v (stated at [RNumOf lo hi]) needs `unfold RNum` first.  [lo], [hi], [Hlo], [Hhi] below are those
   constants and their signs (in DailyCurveProofs.v the same names are section variables). *)
From Coq Require Import Reals Lra Psatz List Bool Arith Lia NArith Sorted Permutation.
From V Require Import Model.Num Model.NumR Model.DailyCurve Model.Recovery Proofs.ListFacts Proofs.DailyCurveProofs.
Import ListNotations.
Local Open Scope R_scope.

Notation NR := RNum.

Lemma sq_nonneg : forall x : R, 0 <= x * x.
Proof. intros. nra. Qed.

Lemma sq_le_of_abs : forall a b : R, Rabs a <= b -> a * a <= b * b.
Proof.
  intros a b H. pose proof (Rabs_pos a). change (Rsqr a <= Rsqr b).
  rewrite (Rsqr_abs a). apply Rsqr_incr_1; lra.
Qed.

Lemma inv_INR_nonneg : forall n : nat, 0 <= / INR n.
Proof.
  intros [|n]; [cbn; rewrite Rinv_0; lra|]. left. apply Rinv_0_lt_compat, lt_0_INR. lia.
Qed.

Lemma sse_cons : forall (a b : R) (f g : list R), (sse NR (a :: f) (b :: g) = (a - b) * (a - b) + sse NR f g :> R).
Proof. reflexivity. Qed.

Lemma sse_nil_l : forall g : list R, (sse NR [] g = 0 :> R).
Proof. reflexivity. Qed.

Lemma sse_nil_r : forall f : list R, (sse NR f [] = 0 :> R).
Proof. destruct f; reflexivity. Qed.

Lemma sse_nonneg : forall f g : list R, 0 <= sse NR f g.
Proof.
  induction f as [|a f IH]; intros g.
  - rewrite sse_nil_l. lra.
  - destruct g as [|b g]; [rewrite sse_nil_r; lra|]. rewrite sse_cons. specialize (IH g). pose proof (sq_nonneg (a - b)). lra.
Qed.

Lemma sse_sym : forall f g : list R, (sse NR f g = sse NR g f :> R).
Proof.
  induction f as [|a f IH]; intros g.
  - destruct g; reflexivity.
  - destruct g as [|b g]; [reflexivity|]. rewrite !sse_cons, IH. ring.
Qed.

Lemma sumsq_cons : forall (a : R) (l : list R), (sumsq NR (a :: l) = a * a + sumsq NR l :> R).
Proof. reflexivity. Qed.

Lemma sumsq_nonneg : forall l : list R, 0 <= sumsq NR l.
Proof. induction l as [|a l IH]; [cbn; lra|]. rewrite sumsq_cons. pose proof (sq_nonneg a). lra. Qed.

Lemma nsum_cons : forall (a : R) (l : list R), (nsum NR (a :: l) = a + nsum NR l :> R).
Proof. reflexivity. Qed.

Lemma of_nat_INR : forall n, (of_nat NR n = INR n :> R).
Proof.
  induction n as [|n IH]; [reflexivity|].
  rewrite S_INR. cbn [of_nat]. rewrite IH. reflexivity.
Qed.

Lemma sqrt_le_sum : forall a b, 0 <= a -> 0 <= b -> sqrt (a + b) <= sqrt a + sqrt b.
Proof.
  intros a b Ha Hb.
  pose proof (sqrt_pos a) as Pa. pose proof (sqrt_pos b) as Pb.
  rewrite <- (sqrt_square (sqrt a + sqrt b)) by lra.
  apply sqrt_le_1_alt.
  pose proof (sqrt_sqrt a Ha) as Sa. pose proof (sqrt_sqrt b Hb) as Sb. nra.
Qed.

Lemma sqrt_le_of_sq : forall u v, 0 <= v -> u <= v * v -> sqrt u <= v.
Proof.
  intros u v Hv H. rewrite <- (sqrt_square v) by exact Hv. apply sqrt_le_1_alt. exact H.
Qed.

(* Minkowski in the plane, from the library's Cauchy-Schwarz *)
Lemma minkowski2 : forall x y p q,
  sqrt ((x + y) * (x + y) + (p + q) * (p + q)) <= sqrt (x * x + p * p) + sqrt (y * y + q * q).
Proof.
  intros x y p q.
  pose proof (sq_nonneg x). pose proof (sq_nonneg y). pose proof (sq_nonneg p). pose proof (sq_nonneg q).
  pose proof (sqrt_cauchy x p y q) as CS. unfold Rsqr in CS.
  set (A := sqrt (x * x + p * p)) in *. set (B := sqrt (y * y + q * q)) in *.
  assert (HA : 0 <= A) by apply sqrt_pos. assert (HB : 0 <= B) by apply sqrt_pos.
  assert (SA : A * A = x * x + p * p) by (apply sqrt_sqrt; lra).
  assert (SB : B * B = y * y + q * q) by (apply sqrt_sqrt; lra).
  apply sqrt_le_of_sq; [lra|]. nra.
Qed.

Lemma dist_triangle : forall f y g : list R, length f = length y -> length y = length g ->
  sqrt (sse NR f g) <= sqrt (sse NR f y) + sqrt (sse NR y g).
Proof.
  induction f as [|a f IH]; intros y g L1 L2.
  - destruct y; [|discriminate]. destruct g; [|discriminate]. cbn. rewrite sqrt_0. lra.
  - destruct y as [|b y]; [discriminate|]. destruct g as [|c g]; [discriminate|].
    injection L1 as L1. injection L2 as L2. specialize (IH y g L1 L2).
    rewrite !sse_cons.
    pose proof (sse_nonneg f g) as N1. pose proof (sse_nonneg f y) as N2. pose proof (sse_nonneg y g) as N3.
    set (r := sqrt (sse NR f g)) in *. set (p := sqrt (sse NR f y)) in *. set (q := sqrt (sse NR y g)) in *.
    assert (Hr : 0 <= r) by apply sqrt_pos. assert (Hp : 0 <= p) by apply sqrt_pos.
    assert (Hq : 0 <= q) by apply sqrt_pos.
    assert (Sr : sse NR f g = r * r) by (symmetry; apply sqrt_sqrt; exact N1).
    assert (Sp : sse NR f y = p * p) by (symmetry; apply sqrt_sqrt; exact N2).
    assert (Sq : sse NR y g = q * q) by (symmetry; apply sqrt_sqrt; exact N3).
    rewrite Sr, Sp, Sq.
    apply Rle_trans with (sqrt (((a - b) + (b - c)) * ((a - b) + (b - c)) + (p + q) * (p + q))).
    + apply sqrt_le_1_alt. replace (a - c) with ((a - b) + (b - c)) by ring. nra.
    + apply minkowski2.
Qed.

(* the certificate bound, as distances *)
Lemma certificate_dist : forall (f y g : list R) (s : R),
  length f = length y -> length y = length g -> 0 <= s ->
  sse NR f y <= sse NR g y + s ->
  sqrt (sse NR f g) <= 2 * sqrt (sse NR y g) + sqrt s.
Proof.
  intros f y g s L1 L2 Hs Hc.
  pose proof (dist_triangle f y g L1 L2) as Tr.
  assert (H1 : sqrt (sse NR f y) <= sqrt (sse NR g y) + sqrt s).
  { apply Rle_trans with (sqrt (sse NR g y + s)).
    - apply sqrt_le_1_alt. exact Hc.
    - apply sqrt_le_sum; [apply sse_nonneg | exact Hs]. }
  rewrite (sse_sym g y) in H1. lra.
Qed.

Definition RMSE (f g : list R) : R := sqrt (sse NR f g / INR (length f)).
Definition RMS (g : list R) : R := sqrt (sumsq NR g / INR (length g)).

Lemma RMSE_split : forall f g : list R, (0 < length f)%nat ->
  RMSE f g = sqrt (sse NR f g) / sqrt (INR (length f)).
Proof. intros f g H. unfold RMSE. apply sqrt_div_alt. apply lt_0_INR. exact H. Qed.

Lemma certificate_rmse : forall (f y g : list R) (s : R),
  (0 < length f)%nat -> length f = length y -> length y = length g -> 0 <= s ->
  sse NR f y <= sse NR g y + s ->
  RMSE f g <= 2 * RMSE y g + sqrt (s / INR (length f)).
Proof.
  intros f y g s Hn L1 L2 Hs Hc.
  pose proof (certificate_dist f y g s L1 L2 Hs Hc) as D.
  assert (Hn' : 0 < INR (length f)) by (apply lt_0_INR; exact Hn).
  assert (Hq : 0 < sqrt (INR (length f))) by (apply sqrt_lt_R0; exact Hn').
  rewrite (RMSE_split f g Hn). rewrite (RMSE_split y g) by (rewrite <- L1; exact Hn).
  rewrite <- L1. rewrite (sqrt_div_alt s _ Hn'). unfold Rdiv.
  assert (0 < / sqrt (INR (length f))) by (apply Rinv_0_lt_compat; exact Hq). nra.
Qed.

(* noise: every observation within the fraction eps of the generating value *)
Lemma noise_sse : forall (eps : R) (y g : list R), 0 <= eps ->
  Forall2 (fun yi gi => Rabs (yi - gi) <= eps * gi) y g ->
  sse NR y g <= eps * eps * sumsq NR g.
Proof.
  intros eps y g He H. induction H as [|yi gi y g Hi _ IH].
  - cbn. lra.
  - rewrite sse_cons, sumsq_cons.
    pose proof (sq_le_of_abs _ _ Hi). nra.
Qed.

Lemma noise_rmse : forall (eps : R) (y g : list R), 0 <= eps ->
  Forall2 (fun yi gi => Rabs (yi - gi) <= eps * gi) y g ->
  RMSE y g <= eps * RMS g.
Proof.
  intros eps y g He H.
  pose proof (noise_sse eps y g He H) as Hsse.
  assert (L : length y = length g) by (eapply Forall2_len; exact H).
  unfold RMSE, RMS. rewrite L.
  rewrite <- (sqrt_square eps) at 1 by exact He.
  rewrite <- sqrt_mult_alt by nra.
  apply sqrt_le_1_alt. unfold Rdiv.
  pose proof (inv_INR_nonneg (length g)). pose proof (sumsq_nonneg g). nra.
Qed.

(* the two together: distance of the fit from the generating curve, from the measured certificate s *)
Lemma rmse_from_certificate : forall (eps s : R) (f y g : list R),
  (0 < length f)%nat -> length f = length y -> 0 <= eps -> 0 <= s ->
  Forall2 (fun yi gi => Rabs (yi - gi) <= eps * gi) y g ->
  sse NR f y <= sse NR g y + s ->
  RMSE f g <= 2 * eps * RMS g + sqrt (s / INR (length f)).
Proof.
  intros eps s f y g Hn L1 He Hs Hnoise Hc.
  assert (L2 : length y = length g) by (eapply Forall2_len; exact Hnoise).
  pose proof (certificate_rmse f y g s Hn L1 L2 Hs Hc) as C.
  pose proof (noise_rmse eps y g He Hnoise) as Nz. lra.
Qed.

Lemma mse_R : forall f g : list R, (mse NR f g = sse NR f g / INR (length f) :> R).
Proof. intros. unfold mse. rewrite of_nat_INR. reflexivity. Qed.

Lemma nrmse_ok_spec : forall (lim m : R) (f g : list R), 0 <= lim -> 0 <= m ->
  nrmse_ok NR lim f g m = true <-> RMSE f g <= lim * m.
Proof.
  intros lim m f g Hl Hm. unfold nrmse_ok. rewrite mse_R.
  change (@n_leb NR) with Rleb. change (@n_mul NR) with Rmult. rewrite Rleb_true.
  assert (Hlm : 0 <= lim * m) by nra.
  unfold RMSE. split; intros H.
  - apply sqrt_le_of_sq; assumption.
  - assert (Hq : 0 <= sse NR f g / INR (length f))
      by (apply Rmult_le_pos; [apply sse_nonneg | apply inv_INR_nonneg]).
    rewrite <- (sqrt_sqrt _ Hq).
    pose proof (sqrt_pos (sse NR f g / INR (length f))). nra.
Qed.

Lemma five_pct_R : (five_pct NR = 5 / 100 :> R).
Proof. unfold five_pct, n_hundred, n_ten, n_two. cbn. field. Qed.

Lemma one_pct_R : (one_pct NR = 1 / 100 :> R).
Proof. unfold one_pct, n_hundred, n_ten, n_two. cbn. field. Qed.

(* the in-sample half of the statement, reduced to the measured certificate *)
Lemma in_sample_from_certificate : forall (s m : R) (f y g : list R),
  (0 < length f)%nat -> length f = length y -> 0 <= s -> 0 <= m ->
  Forall2 (fun yi gi => Rabs (yi - gi) <= one_pct NR * gi) y g ->
  sse NR f y <= sse NR g y + s ->
  2 * (1 / 100) * RMS g + sqrt (s / INR (length f)) <= 5 / 100 * m ->
  nrmse_ok NR (five_pct NR) f g m = true.
Proof.
  intros s m f y g Hn L1 Hs Hm Hnoise Hc Hb.
  apply nrmse_ok_spec; [rewrite five_pct_R; lra | exact Hm |].
  rewrite five_pct_R. rewrite one_pct_R in Hnoise.
  pose proof (rmse_from_certificate (1 / 100) s f y g Hn L1 ltac:(lra) Hs Hnoise Hc). lra.
Qed.

Notation lo := R_ln_min.
Notation hi := R_ln_max.
Definition Hlo : lo <= 0 := proj1 R_ln_bounds.
Definition Hhi : 0 <= hi := proj2 R_ln_bounds.

Lemma triple_eq : forall a b c a' b' c' : R, a = a' -> b = b' -> c = c' -> (a, b, c) = (a', b', c').
Proof. intros; subst; reflexivity. Qed.

Lemma npos_pos : forall a : R, npos NR a = pos a.
Proof.
  intros a. unfold npos, pos. change (@n_ltb NR a n_zero) with (Rltb a 0). unfold Rltb.
  destruct (Rlt_dec a 0); [rewrite Rmax_right by lra | rewrite Rmax_left by lra]; reflexivity.
Qed.

(* the model class of a generating building, from which of its slopes are zero *)
Lemma shape_of_both : forall p : building NR, b_hbeta p <> 0 -> b_cbeta p <> 0 -> shape_of NR p = HddTiddCdd.
Proof.
  intros p Hh Hc. unfold shape_of. change (@n_eqb NR) with Reqb. change (@n_zero NR) with 0.
  rewrite (proj2 (Reqb_false _ _) Hh), (proj2 (Reqb_false _ _) Hc). reflexivity.
Qed.

Lemma shape_of_heat : forall p : building NR, b_hbeta p <> 0 -> b_cbeta p = 0 -> shape_of NR p = HddTidd.
Proof.
  intros p Hh Hc. unfold shape_of. change (@n_eqb NR) with Reqb. change (@n_zero NR) with 0.
  rewrite (proj2 (Reqb_false _ _) Hh), (proj2 (Reqb_true _ _) Hc). reflexivity.
Qed.

Lemma shape_of_cool : forall p : building NR, b_hbeta p = 0 -> b_cbeta p <> 0 -> shape_of NR p = TiddCdd.
Proof.
  intros p Hh Hc. unfold shape_of. change (@n_eqb NR) with Reqb. change (@n_zero NR) with 0.
  rewrite (proj2 (Reqb_true _ _) Hh), (proj2 (Reqb_false _ _) Hc). reflexivity.
Qed.

Lemma shape_of_flat : forall p : building NR, b_hbeta p = 0 -> b_cbeta p = 0 -> shape_of NR p = Tidd.
Proof.
  intros p Hh Hc. unfold shape_of. change (@n_eqb NR) with Reqb. change (@n_zero NR) with 0.
  rewrite (proj2 (Reqb_true _ _) Hh), (proj2 (Reqb_true _ _) Hc). reflexivity.
Qed.

Lemma shape_cases : forall p : building NR,
  (b_hbeta p = 0 /\ b_cbeta p = 0 /\ shape_of NR p = Tidd) \/
  (b_hbeta p = 0 /\ b_cbeta p <> 0 /\ shape_of NR p = TiddCdd) \/
  (b_hbeta p <> 0 /\ b_cbeta p = 0 /\ shape_of NR p = HddTidd) \/
  (b_hbeta p <> 0 /\ b_cbeta p <> 0 /\ shape_of NR p = HddTiddCdd).
Proof.
  intros p. destruct (Req_EM_T (b_hbeta p) 0) as [Eh|Eh], (Req_EM_T (b_cbeta p) 0) as [Ec|Ec].
  - left. auto using shape_of_flat.
  - right; left. auto using shape_of_cool.
  - right; right; left. auto using shape_of_heat.
  - right; right; right. auto using shape_of_both.
Qed.

Definition inside (p : building NR) (tc : tconstr NR) : Prop :=
  bounds_ok lo hi tc /\ 0 <= b_hbeta p /\ 0 <= b_cbeta p /\
  match shape_of NR p with
  | HddTiddCdd => T_min tc < b_hbp p /\ T_min_seg tc <= b_hbp p /\ b_hbp p <= b_cbp p /\
                  b_cbp p <= T_max_seg tc /\ b_cbp p < T_max tc
  | HddTidd => T_min_seg tc <= b_hbp p <= T_max_seg tc /\ b_hbp p < T_max tc
  | TiddCdd => T_min_seg tc <= b_cbp p <= T_max_seg tc /\ b_cbp p < T_max tc
  | _ => True
  end.

Local Arguments fix_full_model_x : simpl never.
Local Arguments full_model1 : simpl never.
Local Arguments loads_of : simpl never.

(* the three columns of a document whose 7-vector is unsmoothed, ordered, sign-correct and off the corner *)
Lemma predict_unsmoothed : forall (c : coeffs NR) (tc : tconstr NR) (hbp hbeta cbp cbeta icpt T : R),
  effective_x NR c tc = Some (Build_fullx NR hbp hbeta 0 cbp cbeta 0 icpt) ->
  hbp <= cbp -> 0 <= hbeta -> 0 <= cbeta -> (hbp = cbp -> cbp < T_max tc) \/ (hbeta = 0 /\ cbeta = 0) ->
  predict_submodel NR c tc T
  = Some (icpt + hbeta * pos (hbp - T) + cbeta * pos (T - cbp), hbeta * pos (hbp - T), cbeta * pos (T - cbp)).
Proof.
  intros * Hx Hord Hh Hc Hoff. unfold predict_submodel. rewrite Hx. unfold RNum.
  rewrite (loads_of_closed lo hi Hlo Hhi).
  - unfold heat_part, cool_part. cbn [x_hdd_bp x_hdd_beta x_hdd_k x_cdd_bp x_cdd_beta x_cdd_k x_intercept].
    rewrite !branch_k0. reflexivity.
  - unfold good. cbn. lra.
  - exact Hoff.
Qed.

(* a temperature-independent document: prediction = intercept, no load, at every temperature and whatever the
   other stored fields and the temperature constraints are *)
Lemma predict_tidd : forall (c : coeffs NR) (tc : tconstr NR) (T : R), model_type c = Tidd ->
  predict_submodel NR c tc T = Some (intercept c, 0, 0).
Proof.
  intros c tc T E.
  rewrite (predict_unsmoothed c tc _ _ _ _ _ T (eff_tidd lo hi c tc E)); [| lra | lra | lra | right; split; reflexivity].
  apply f_equal. unfold RNum. apply triple_eq; ring.
Qed.

Fixpoint sorted (l : list R) : Prop :=
  match l with [] => True | x :: r => (forall y, In y r -> x <= y) /\ sorted r end.

(* Model/Recovery.v sorts by insertion with the instance's <=: the library's facts about such a sort (Proofs/ListFacts.v) *)
Lemma sort_perm : forall l : list R, Permutation (sort NR l) l.
Proof. exact (isort_by_perm R (@n_leb NR) (insert NR) (fun _ => eq_refl) (fun _ _ _ => eq_refl)). Qed.

Lemma sort_locally_sorted : forall l : list R, LocallySorted Rle (sort NR l).
Proof.
  apply (isort_by_sorted R (@n_leb NR) (insert NR) (fun _ => eq_refl) (fun _ _ _ => eq_refl) Rle).
  - intros x y H. apply Rleb_true. exact H.
  - intros x y H. apply Rleb_false in H. lra.
Qed.

Lemma sort_sorted : forall l : list R, sorted (sort NR l).
Proof.
  intros l. assert (S : StronglySorted Rle (sort NR l)).
  { apply Sorted_StronglySorted; [exact Rle_trans|]. apply Sorted_LocallySorted_iff. apply sort_locally_sorted. }
  induction S as [|x r _ IH Hx]; [exact I|]. split; [|exact IH]. apply Forall_forall. exact Hx.
Qed.

Lemma length_sort : forall l : list R, length (sort NR l) = length l.
Proof. intros l. apply Permutation_length, sort_perm. Qed.

Lemma count_cons : forall (f : R -> bool) (x : R) (r : list R),
  count NR f (x :: r) = if f x then S (count NR f r) else count NR f r.
Proof. intros. unfold count. cbn [filter]. destruct (f x); reflexivity. Qed.

Lemma count_perm : forall (f : R -> bool) (l l' : list R), Permutation l l' -> count NR f l = count NR f l'.
Proof.
  intros f l l' P. induction P as [|x l l' _ IH|x y l|l1 l2 l3 _ IH1 _ IH2].
  - reflexivity.
  - rewrite !count_cons, IH. reflexivity.
  - rewrite !count_cons. destruct (f x), (f y); reflexivity.
  - rewrite IH1. exact IH2.
Qed.

Lemma count_sort : forall (f : R -> bool) (l : list R), count NR f (sort NR l) = count NR f l.
Proof. intros f l. apply count_perm, sort_perm. Qed.

Lemma count_le_length : forall (f : R -> bool) (l : list R), (count NR f l <= length l)%nat.
Proof.
  intros f l. induction l as [|x r IH]; [cbn; lia|]. rewrite count_cons. cbn [length]. destruct (f x); lia.
Qed.

Lemma count_mono : forall (f g : R -> bool) (l : list R), (forall t, f t = true -> g t = true) ->
  (count NR f l <= count NR g l)%nat.
Proof.
  intros f g l H. induction l as [|x r IH]; [cbn; lia|]. rewrite !count_cons.
  destruct (f x) eqn:E; [rewrite (H x E); lia | destruct (g x); lia].
Qed.

Lemma count_zero : forall (f : R -> bool) (l : list R), (forall y, In y l -> f y = false) -> count NR f l = 0%nat.
Proof.
  intros f l H. induction l as [|x r IH]; [reflexivity|]. rewrite count_cons.
  rewrite (H x (or_introl eq_refl)). apply IH. intros y Hy. apply H. right. exact Hy.
Qed.

(* the k-th smallest is at most b as soon as more than k values are at most b *)
Lemma nth_le_of_count : forall (b : R) (l : list R) (k : nat), sorted l ->
  (k < count_le NR b l)%nat -> nth k l 0 <= b.
Proof.
  intros b l. induction l as [|x r IH]; intros k S Hc.
  - cbn in Hc. lia.
  - destruct S as [Hx Sr]. unfold count_le in *. rewrite count_cons in Hc.
    change (@n_leb NR x b) with (Rleb x b) in Hc. destruct k as [|k].
    + cbn [nth]. destruct (Rleb x b) eqn:E; [apply Rleb_true; exact E|].
      apply Rleb_false in E. rewrite count_zero in Hc; [lia|].
      intros y Hy. change (@n_leb NR y b) with (Rleb y b). apply Rleb_false. specialize (Hx y Hy). lra.
    + cbn [nth]. apply IH; [exact Sr|]. destruct (Rleb x b); lia.
Qed.

(* the k-th largest is at least b as soon as at least k values are at least b *)
Lemma nth_ge_of_count : forall (b : R) (l : list R) (k : nat), sorted l ->
  (1 <= k)%nat -> (k <= count_ge NR b l)%nat -> b <= nth (length l - k) l 0.
Proof.
  intros b l. induction l as [|x r IH]; intros k S H1 Hc.
  - cbn in Hc. lia.
  - destruct S as [Hx Sr]. unfold count_ge in *. rewrite count_cons in Hc.
    change (@n_leb NR b x) with (Rleb b x) in Hc.
    destruct (Rleb b x) eqn:E.
    + apply Rleb_true in E.
      assert (Hall : forall y, In y (x :: r) -> b <= y).
      { intros y [<-|Hy]; [exact E|]. specialize (Hx y Hy). lra. }
      apply Hall. apply nth_In. cbn [length]. lia.
    + assert (Hlen : (k <= length r)%nat) by (eapply Nat.le_trans; [exact Hc | apply count_le_length]).
      cbn [length]. replace (S (length r) - k)%nat with (S (length r - k)) by lia.
      cbn [nth]. apply IH; assumption.
Qed.

Lemma seg_bounds_R : forall (nmin : nat) (T : list R),
  seg_bounds NR nmin T = (nth nmin (sort NR T) 0, nth (length T - nmin) (sort NR T) 0).
Proof. reflexivity. Qed.

Lemma seg_lo_le : forall (b : R) (nmin : nat) (T : list R),
  (nmin < count_le NR b T)%nat -> fst (seg_bounds NR nmin T) <= b.
Proof.
  intros b nmin T H. rewrite seg_bounds_R. cbn [fst].
  apply nth_le_of_count; [apply sort_sorted|]. unfold count_le in *. rewrite count_sort. exact H.
Qed.

Lemma seg_hi_ge : forall (b : R) (nmin : nat) (T : list R),
  (1 <= nmin)%nat -> (nmin <= count_ge NR b T)%nat -> b <= snd (seg_bounds NR nmin T).
Proof.
  intros b nmin T H1 H. rewrite seg_bounds_R. cbn [snd]. rewrite <- (length_sort T).
  apply nth_ge_of_count; [apply sort_sorted | exact H1 |]. unfold count_ge in *. rewrite count_sort. exact H.
Qed.

Lemma sort_row_in : forall (r : R * R) (v : R), fst r <= v <= snd r ->
  fst (sort_row NR r) <= v <= snd (sort_row NR r).
Proof.
  intros [a b] v H. cbn [fst snd] in H. unfold sort_row. cbn [fst snd].
  change (@n_ltb NR b a) with (Rltb b a). unfold Rltb. destruct (Rlt_dec b a); cbn [fst snd]; split; lra.
Qed.

Lemma clip0_in : forall (r : R * R) (v : R), 0 <= v -> fst r <= v <= snd r ->
  fst (clip0 NR r) <= v <= snd (clip0 NR r).
Proof.
  intros [a b] v Hv H. cbn [fst snd] in H. unfold clip0. cbn [fst snd].
  change (@n_ltb NR a n_zero) with (Rltb a 0). change (@n_zero NR) with 0.
  unfold Rltb. destruct (Rlt_dec a 0); cbn [fst snd]; split; lra.
Qed.

Lemma in_box_cons : forall (r : R * R) (b : list (R * R)) (v : R) (x : list R),
  fst r <= v <= snd r -> in_box NR b x = true -> in_box NR (r :: b) (v :: x) = true.
Proof.
  intros [l h] b v x [H1 H2] Hb. cbn [fst snd] in *. cbn [in_box].
  change (@n_leb NR l v) with (Rleb l v). change (@n_leb NR v h) with (Rleb v h).
  rewrite (proj2 (Rleb_true l v) H1), (proj2 (Rleb_true v h) H2), Hb. reflexivity.
Qed.

Lemma quantile_singleton : forall (pct : nat) (x : R), (quantile_pct NR pct [x] = x :> R).
Proof.
  intros pct x. unfold quantile_pct, lerp.
  change (N.of_nat (length [x] - 1) * N.of_nat pct)%N with 0%N.
  change (N.to_nat (0 / 100)) with 0%nat. change (N.to_nat (0 mod 100)) with 0%nat.
  cbn [length Nat.sub Nat.min nth sort fold_right insert of_nat].
  change (@n_add NR) with Rplus. change (@n_sub NR) with Rminus. change (@n_mul NR) with Rmult.
  destruct (@n_ltb NR (n_div n_zero n_hundred) (half NR)); ring.
Qed.

(* enough days on both sides of each active balance point for the segment bounds of get_T_bnds *)
Definition days_ok (p : building NR) (nmin : nat) (T : list R) : Prop :=
  (b_hbeta p <> 0 -> (nmin < count_le NR (b_hbp p) T)%nat /\ (1 <= nmin <= count_ge NR (b_hbp p) T)%nat) /\
  (b_cbeta p <> 0 -> (nmin < count_le NR (b_cbp p) T)%nat /\ (1 <= nmin <= count_ge NR (b_cbp p) T)%nat).

(* the slope rows handed to the final fit (get_bnds_row: x0 -+ |x0| * scalar around the initial fit, -+ 10 * scalar around 0)
   contain the generating slopes *)
Definition slope_rows_ok (p : building NR) (incoming : list (R * R)) : Prop :=
  match shape_of NR p, incoming with
  | HddTiddCdd, [_; hb; _; cb; _] => fst hb <= b_hbeta p <= snd hb /\ fst cb <= b_cbeta p <= snd cb
  | HddTidd, [_; b; _] => fst b <= - b_hbeta p <= snd b
  | TiddCdd, [_; b; _] => fst b <= b_cbeta p <= snd b
  | Tidd, [_] => True
  | _, _ => False
  end.

(* the base load lies between the 1 % and 99 % quantiles of the observed usage *)
Definition icpt_ok (p : building NR) (obs : list R) : Prop :=
  quantile_pct NR 1 obs <= b_base p <= quantile_pct NR 99 obs.

Lemma bp_row_ok : forall (b : R) (nmin : nat) (T : list R),
  (nmin < count_le NR b T)%nat -> (1 <= nmin <= count_ge NR b T)%nat ->
  fst (sort_row NR (seg_bounds NR nmin T)) <= b <= snd (sort_row NR (seg_bounds NR nmin T)).
Proof.
  intros b nmin T H1 [H2 H3]. apply sort_row_in. split; [apply seg_lo_le | apply seg_hi_ge]; assumption.
Qed.

Lemma generator_in_box : forall (p : building NR) (nmin : nat) (T obs : list R) (incoming : list (R * R)),
  0 <= b_hbeta p -> 0 <= b_cbeta p ->
  days_ok p nmin T -> slope_rows_ok p incoming -> icpt_ok p obs ->
  exists box, final_box NR (key_of_shape (shape_of NR p)) nmin T obs incoming = Some box /\
              in_box NR box (raw_of NR p) = true.
Proof.
  intros p nmin T obs incoming Hh Hc [Dh Dc] Hs Hi.
  pose proof (sort_row_in (icpt_bounds NR obs) (b_base p) Hi) as Ri.
  unfold slope_rows_ok, raw_of, doc_of in *.
  destruct (shape_cases p) as [(Eh & Ec & Es)|[(Eh & Ec & Es)|[(Eh & Ec & Es)|(Eh & Ec & Es)]]];
    rewrite Es in *; destruct p as [base bh bph bc bpc]; cbn [b_base b_hbeta b_hbp b_cbeta b_cbp] in *.
  - (* flat *)
    destruct incoming as [|r0 [|r1 rest]]; try contradiction.
    eexists. split; [reflexivity|]. cbn [to_np_array model_type opt_list intercept].
    apply in_box_cons; [exact Ri | reflexivity].
  - (* cooling only *)
    destruct (Dc Ec) as [C1 C2].
    destruct incoming as [|r0 [|r1 [|r2 [|r3 rest]]]]; try contradiction.
    eexists. split; [reflexivity|]. cbn [to_np_array model_type opt_list intercept cdd_bp cdd_beta].
    apply in_box_cons; [apply bp_row_ok; assumption|].
    apply in_box_cons; [apply sort_row_in; exact Hs|].
    apply in_box_cons; [exact Ri | reflexivity].
  - (* heating only *)
    destruct (Dh Eh) as [H1 H2].
    destruct incoming as [|r0 [|r1 [|r2 [|r3 rest]]]]; try contradiction.
    eexists. split; [reflexivity|]. cbn [to_np_array model_type opt_list intercept hdd_bp hdd_beta].
    apply in_box_cons; [apply bp_row_ok; assumption|].
    apply in_box_cons; [apply sort_row_in; exact Hs|].
    apply in_box_cons; [exact Ri | reflexivity].
  - (* both *)
    destruct (Dh Eh) as [H1 H2]. destruct (Dc Ec) as [C1 C2].
    destruct incoming as [|r0 [|r1 [|r2 [|r3 [|r4 [|r5 rest]]]]]]; try contradiction.
    destruct Hs as [S1 S2].
    eexists. split; [reflexivity|].
    cbn [to_np_array model_type opt_list intercept hdd_bp hdd_beta cdd_bp cdd_beta].
    apply in_box_cons; [apply bp_row_ok; assumption|].
    apply in_box_cons; [apply clip0_in; [exact Hh | apply sort_row_in; exact S1]|].
    apply in_box_cons; [apply bp_row_ok; assumption|].
    apply in_box_cons; [apply clip0_in; [exact Hc | apply sort_row_in; exact S2]|].
    apply in_box_cons; [exact Ri | reflexivity].
Qed.

(* counting days: strictly cold (hot) days count among the days at or below (above) the balance point, and so do the
   days of the temperature-independent regime on the other side of an active balance point *)
Lemma count_lt_le : forall (b : R) (T : list R), (count_lt NR b T <= count_le NR b T)%nat.
Proof.
  intros b T. apply count_mono. intros t Ht. change (Rltb t b = true) in Ht. change (Rleb t b = true).
  apply Rltb_true in Ht. apply Rleb_true. lra.
Qed.

Lemma count_gt_ge : forall (b : R) (T : list R), (count_gt NR b T <= count_ge NR b T)%nat.
Proof.
  intros b T. apply count_mono. intros t Ht. change (Rltb b t = true) in Ht. change (Rleb b t = true).
  apply Rltb_true in Ht. apply Rleb_true. lra.
Qed.

Lemma flat_days_heating : forall (p : building NR) (T : list R), b_hbeta p <> 0 ->
  (flat_days NR p T <= count_ge NR (b_hbp p) T)%nat.
Proof.
  intros p T Hb. apply count_mono. intros t Ht. unfold in_flat in Ht.
  change (@n_eqb NR (b_hbeta p) n_zero) with (Reqb (b_hbeta p) 0) in Ht.
  rewrite (proj2 (Reqb_false _ _) Hb) in Ht. apply andb_true_iff in Ht. exact (proj1 Ht).
Qed.

Lemma flat_days_cooling : forall (p : building NR) (T : list R), b_cbeta p <> 0 ->
  (flat_days NR p T <= count_le NR (b_cbp p) T)%nat.
Proof.
  intros p T Hb. apply count_mono. intros t Ht. unfold in_flat in Ht.
  change (@n_eqb NR (b_cbeta p) n_zero) with (Reqb (b_cbeta p) 0) in Ht.
  rewrite (proj2 (Reqb_false _ _) Hb) in Ht. apply andb_true_iff in Ht. exact (proj2 Ht).
Qed.

Lemma pos_lipschitz : forall u v : R, Rabs (pos u - pos v) <= Rabs (u - v).
Proof.
  intros u v. unfold pos, Rmax. destruct (Rle_dec u 0), (Rle_dec v 0); unfold Rabs;
    repeat match goal with |- context [Rcase_abs ?x] => destruct (Rcase_abs x) end; lra.
Qed.

Lemma hinge_close : forall b b' u u' : R, 0 <= b' ->
  Rabs (b * pos u - b' * pos u') <= Rabs (b - b') * pos u + b' * Rabs (u - u').
Proof.
  intros b b' u u' Hb'.
  replace (b * pos u - b' * pos u') with ((b - b') * pos u + b' * (pos u - pos u')) by ring.
  eapply Rle_trans; [apply Rabs_triang|].
  rewrite !Rabs_mult, (Rabs_right (pos u)) by (apply Rle_ge, pos_nonneg).
  rewrite (Rabs_right b') by lra.
  pose proof (pos_lipschitz u u').
  assert (b' * Rabs (pos u - pos u') <= b' * Rabs (u - u')) by (apply Rmult_le_compat_l; assumption).
  lra.
Qed.

(* a smoothed side stays within beta k of the hinge through its asymptote's balance point *)
Lemma smooth_close : forall beta k d : R, 0 <= beta -> 0 <= k ->
  Rabs (branch lo beta k (pos d) - beta * pos (d - k)) <= beta * k.
Proof.
  intros beta k d Hb Hk. pose proof (pos_nonneg d) as Hd.
  pose proof (branch_nonneg lo Hlo beta k _ Hb Hk Hd) as B0.
  pose proof (branch_le_line lo Hlo beta k _ Hb Hk Hd) as B1.
  apply Rabs_le. destruct (Rle_dec (d - k) 0) as [H|H].
  - (* before the asymptote's balance point: 0 <= side <= beta d <= beta k *)
    rewrite (pos_of_nonpos (d - k)) by exact H.
    assert (pos d <= k) by (apply Rmax_lub; lra). nra.
  - rewrite (pos_of_nonneg (d - k)), (pos_of_nonneg d) in * by lra.
    pose proof (branch_above_asymptote lo Hlo beta k d Hb Hk Hd). lra.
Qed.

(* one side of a stored curve against the same side of a generating building with slope b, at the signed distances
   d and d' beyond their balance points *)
Lemma side_vs_generator : forall beta k b d d' : R, 0 <= beta -> 0 <= k ->
  Rabs (branch lo beta k (pos d) - b * pos d') <=
    Rabs (b - beta) * pos d' + beta * Rabs (d' - (d - k)) + beta * k.
Proof.
  intros beta k b d d' Hb Hk.
  replace (branch lo beta k (pos d) - b * pos d')
    with ((branch lo beta k (pos d) - beta * pos (d - k)) + - (b * pos d' - beta * pos (d - k))) by ring.
  eapply Rle_trans; [apply Rabs_triang|]. rewrite Rabs_Ropp.
  pose proof (smooth_close beta k d Hb Hk). pose proof (hinge_close b beta d' (d - k) Hb). lra.
Qed.

(* [side_gap_n] of Model/Recovery.v written with the operations of R ([side_gap_n_R]); it is the bound of [side_vs_generator] *)
Definition side_gap (beta k bp_ref b_beta b_bp dist : R) : R :=
  Rabs (b_beta - beta) * dist + beta * Rabs (b_bp - bp_ref) + beta * k.

(* distance of a stored curve (closed form of C11) from a generating building, at one temperature *)
Lemma curve_vs_generator : forall (hbp hbeta hk cbp cbeta ck icpt : R) (p : building NR) (T : R),
  0 <= hbeta -> 0 <= cbeta -> 0 <= hk -> 0 <= ck ->
  Rabs (curve lo hbp hbeta hk cbp cbeta ck icpt T - gen_curve NR p T) <=
    Rabs (icpt - b_base p)
    + side_gap hbeta hk (hbp - hk) (b_hbeta p) (b_hbp p) (pos (b_hbp p - T))
    + side_gap cbeta ck (cbp + ck) (b_cbeta p) (b_cbp p) (pos (T - b_cbp p)).
Proof.
  intros hbp hbeta hk cbp cbeta ck icpt [base bh bph bc bpc] T Hh Hc Hhk Hck.
  unfold curve, gen_curve, gen_heat, gen_cool, side_gap. cbn [b_base b_hbeta b_hbp b_cbeta b_cbp].
  rewrite !npos_pos.
  change (@n_add NR) with Rplus. change (@n_mul NR) with Rmult. change (@n_sub NR) with Rminus.
  set (H1 := branch lo hbeta hk (pos (hbp - T))). set (C1 := branch lo cbeta ck (pos (T - cbp))).
  replace (icpt + H1 + C1 - (base + bh * pos (bph - T) + bc * pos (T - bpc)))
    with ((icpt - base) + (H1 - bh * pos (bph - T)) + (C1 - bc * pos (T - bpc))) by ring.
  eapply Rle_trans; [apply Rabs_triang|]. apply Rplus_le_compat.
  - eapply Rle_trans; [apply Rabs_triang|]. apply Rplus_le_compat_l.
    pose proof (side_vs_generator hbeta hk bh (hbp - T) (bph - T) Hh Hhk) as S.
    replace (bph - T - (hbp - T - hk)) with (bph - (hbp - hk)) in S by ring. exact S.
  - pose proof (side_vs_generator cbeta ck bc (T - cbp) (T - bpc) Hc Hck) as S.
    replace (T - bpc - (T - cbp - ck)) with (- (bpc - (cbp + ck))) in S by ring. rewrite Rabs_Ropp in S. exact S.
Qed.

Lemma pos_mono : forall a b : R, a <= b -> pos a <= pos b.
Proof. intros a b H. unfold pos, Rmax. destruct (Rle_dec a 0), (Rle_dec b 0); lra. Qed.

Lemma side_gap_n_R : forall beta k bp_ref b_beta b_bp dist : R,
  side_gap_n NR beta k bp_ref b_beta b_bp dist = side_gap beta k bp_ref b_beta b_bp dist.
Proof. reflexivity. Qed.

Lemma side_gap_mono : forall beta k bp_ref b_beta b_bp d1 d2 : R, d1 <= d2 ->
  side_gap beta k bp_ref b_beta b_bp d1 <= side_gap beta k bp_ref b_beta b_bp d2.
Proof.
  intros. unfold side_gap. pose proof (Rabs_pos (b_beta - beta)).
  assert (Rabs (b_beta - beta) * d1 <= Rabs (b_beta - beta) * d2) by (apply Rmult_le_compat_l; assumption). lra.
Qed.

Lemma side_gap_nonneg : forall beta k bp_ref b_beta b_bp dist : R, 0 <= beta -> 0 <= k -> 0 <= dist ->
  0 <= side_gap beta k bp_ref b_beta b_bp dist.
Proof.
  intros. unfold side_gap. pose proof (Rabs_pos (b_beta - beta)). pose proof (Rabs_pos (b_bp - bp_ref)).
  repeat apply Rplus_le_le_0_compat; apply Rmult_le_pos; assumption.
Qed.

Lemma param_gap_R : forall (x : fullx NR) (p : building NR) (Tlo Thi : R),
  param_gap NR x p Tlo Thi =
    Rabs (x_intercept x - b_base p)
    + side_gap (x_hdd_beta x) (x_hdd_k x) (x_hdd_bp x - x_hdd_k x) (b_hbeta p) (b_hbp p) (pos (b_hbp p - Tlo))
    + side_gap (x_cdd_beta x) (x_cdd_k x) (x_cdd_bp x + x_cdd_k x) (b_cbeta p) (b_cbp p) (pos (Thi - b_cbp p)).
Proof. intros. unfold param_gap. rewrite !npos_pos. reflexivity. Qed.

Lemma param_gap_nonneg : forall (x : fullx NR) (p : building NR) (Tlo Thi : R),
  good lo hi x -> 0 <= param_gap NR x p Tlo Thi.
Proof.
  intros x p Tlo Thi (G1 & G2 & G3 & G4 & G5). rewrite param_gap_R.
  apply Rplus_le_le_0_compat; [apply Rplus_le_le_0_compat; [apply Rabs_pos|]|];
    apply side_gap_nonneg; try assumption; apply pos_nonneg.
Qed.

(* uniform over a temperature range *)
Lemma uniform_gap : forall (x : fullx NR) (p : building NR) (Tlo Thi T : R),
  good lo hi x -> Tlo <= T <= Thi ->
  Rabs (curve lo (x_hdd_bp x) (x_hdd_beta x) (x_hdd_k x) (x_cdd_bp x) (x_cdd_beta x) (x_cdd_k x) (x_intercept x) T
        - gen_curve NR p T) <= param_gap NR x p Tlo Thi.
Proof.
  intros x p Tlo Thi T (G1 & G2 & G3 & G4 & G5) [H1 H2].
  eapply Rle_trans; [apply curve_vs_generator; assumption|].
  rewrite param_gap_R. apply Rplus_le_compat; [apply Rplus_le_compat_l|].
  - apply side_gap_mono. apply pos_mono. lra.
  - apply side_gap_mono. apply pos_mono. lra.
Qed.

Lemma free_bp_same_curve : forall (p : building NR) (x : fullx NR) (T : R),
  (gen_curve NR (free_bp NR p x) T = gen_curve NR p T :> R).
Proof.
  intros [base bh bph bc bpc] x T. unfold free_bp, gen_curve, gen_heat, gen_cool.
  cbn [b_base b_hbeta b_hbp b_cbeta b_cbp].
  change (@n_eqb NR bh n_zero) with (Reqb bh 0). change (@n_eqb NR bc n_zero) with (Reqb bc 0).
  change (@n_add NR) with Rplus. change (@n_mul NR) with Rmult.
  destruct (Reqb bh 0) eqn:Eh; destruct (Reqb bc 0) eqn:Ec;
    try (apply Reqb_true in Eh; subst bh); try (apply Reqb_true in Ec; subst bc); ring.
Qed.

Lemma sse_pointwise : forall (D : R) (f g : list R), 0 <= D ->
  Forall2 (fun a b => Rabs (a - b) <= D) f g -> sse NR f g <= INR (length f) * (D * D).
Proof.
  intros D f g HD H. induction H as [|a b f g Hab _ IH].
  - cbn. lra.
  - rewrite sse_cons. cbn [length]. rewrite S_INR.
    pose proof (sq_le_of_abs _ _ Hab). lra.
Qed.

Lemma rmse_pointwise : forall (D : R) (f g : list R), 0 <= D ->
  Forall2 (fun a b => Rabs (a - b) <= D) f g -> RMSE f g <= D.
Proof.
  intros D f g HD H. pose proof (sse_pointwise D f g HD H) as S0. unfold RMSE.
  apply sqrt_le_of_sq; [exact HD|].
  destruct (length f) as [|n] eqn:En.
  - unfold Rdiv. cbn [INR]. rewrite Rinv_0, Rmult_0_r. pose proof (sq_nonneg D). lra.
  - assert (Hn : 0 < INR (S n)) by (apply lt_0_INR; lia).
    apply Rmult_le_reg_r with (INR (S n)); [exact Hn|].
    unfold Rdiv. rewrite Rmult_assoc, Rinv_l by lra. lra.
Qed.

Lemma n_ten_R : (@n_ten NR = 10 :> R).
Proof. unfold n_ten, n_two. cbn. ring. Qed.

Lemma get_bnds_row_R : forall s x : R,
  get_bnds_row NR s x = if Req_EM_T x 0 then (- (10 * s), 10 * s) else (x - Rabs x * s, x + Rabs x * s).
Proof.
  intros s x. unfold get_bnds_row. change (@n_eqb NR x n_zero) with (Reqb x 0). unfold Reqb.
  destruct (Req_EM_T x 0); [|reflexivity].
  change (@n_opp NR) with Ropp. change (@n_mul NR) with Rmult. rewrite n_ten_R. reflexivity.
Qed.

(* v is within the relative distance s of x0 (within 10 s of a zero x0) *)
Definition near (s x0 v : R) : Prop :=
  (x0 = 0 -> Rabs v <= 10 * s) /\ (x0 <> 0 -> Rabs (v - x0) <= Rabs x0 * s).

Lemma get_bnds_row_in : forall s x0 v : R, near s x0 v ->
  fst (get_bnds_row NR s x0) <= v <= snd (get_bnds_row NR s x0).
Proof.
  intros s x0 v [H0 H1]. rewrite get_bnds_row_R. destruct (Req_EM_T x0 0) as [E|E]; cbn [fst snd].
  - specialize (H0 E). unfold Rabs in H0. destruct (Rcase_abs v); split; lra.
  - specialize (H1 E). revert H1. generalize (Rabs x0 * s). intros d H1.
    unfold Rabs in H1. destruct (Rcase_abs (v - x0)); split; lra.
Qed.

(* the initial fit's reduced vector has the generator's model class and slopes near the generating ones *)
Definition initial_near (p : building NR) (s : R) (x0 : list R) : Prop :=
  match shape_of NR p, x0 with
  | HddTiddCdd, [_; hb0; _; cb0; _] => near s hb0 (b_hbeta p) /\ near s cb0 (b_cbeta p)
  | HddTidd, [_; b0; _] => near s b0 (- b_hbeta p)
  | TiddCdd, [_; b0; _] => near s b0 (b_cbeta p)
  | Tidd, [_] => True
  | _, _ => False
  end.

Lemma slope_rows_from_initial : forall (p : building NR) (s : R) (x0 : list R),
  initial_near p s x0 -> slope_rows_ok p (map (get_bnds_row NR s) x0).
Proof.
  intros p s x0 H. unfold initial_near, slope_rows_ok in *.
  destruct (shape_of NR p); try contradiction.
  - (* hdd_tidd_cdd *)
    destruct x0 as [|a0 [|a1 [|a2 [|a3 [|a4 [|a5 r]]]]]]; try contradiction. cbn [map].
    destruct H as [H1 H2]. split; apply get_bnds_row_in; assumption.
  - (* hdd_tidd *)
    destruct x0 as [|a0 [|a1 [|a2 [|a3 r]]]]; try contradiction. cbn [map]. apply get_bnds_row_in; exact H.
  - (* tidd_cdd *)
    destruct x0 as [|a0 [|a1 [|a2 [|a3 r]]]]; try contradiction. cbn [map]. apply get_bnds_row_in; exact H.
  - (* tidd *)
    destruct x0 as [|a0 [|a1 r]]; try contradiction. cbn [map]. exact I.
Qed.
