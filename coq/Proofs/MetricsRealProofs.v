(* What the square-free model of Model/Metrics.v means over the reals: [Root neg s] denotes
   (-1)^neg * sqrt s.  The comparisons, quotients and inequalities the model performs on squares are
   the ones of the actual roots.  (Reals: the standard-library axioms appear under Print Assumptions.) *)
From Coq Require Import ZArith QArith Qabs Qreals Reals Lra Bool List.
From V Require Import Model.Metrics Proofs.MetricsProofs.
Import ListNotations.
Local Open Scope R_scope.

Definition root_R (neg : bool) (s : Q) : R := (if neg then -1 else 1) * sqrt (Q2R s).

Definition val_R (v : val) : option R :=
  match v with
  | Num q => Some (Q2R q)
  | Root neg s => Some (root_R neg s)
  | Undef | NaN | Inf _ => None
  end.

Lemma Q2R_sqr : forall t, Q2R (sqr t) = Q2R t * Q2R t.
Proof. intros t. unfold sqr. apply Q2R_mult. Qed.

Lemma Qltb_true_Rlt : forall a b, Qltb a b = true <-> Q2R a < Q2R b.
Proof.
  intros a b. rewrite Qltb_true_iff. split; [apply Qlt_Rlt|apply Rlt_Qlt].
Qed.

Lemma Qltb_false_Rle : forall a b, Qltb a b = false <-> Q2R b <= Q2R a.
Proof.
  intros a b. rewrite Qltb_false_iff. split; [apply Qle_Rle|apply Rle_Qle].
Qed.

Lemma Q2R_0 : Q2R 0 = 0.
Proof. unfold Q2R. cbn. lra. Qed.
Lemma Q2R_1 : Q2R 1 = 1.
Proof. unfold Q2R. cbn. lra. Qed.

Lemma Q2R_abs : forall q, Q2R (Qabs q) = Rabs (Q2R q).
Proof.
  intros q. apply Qabs_case; intros H; apply Qle_Rle in H; rewrite Q2R_0 in H.
  - rewrite Rabs_right by lra. reflexivity.
  - rewrite Q2R_opp, Rabs_left1 by exact H. reflexivity.
Qed.

Lemma sqrt_lt_iff : forall s t, 0 <= s -> 0 < t -> (sqrt s < t <-> s < t * t).
Proof.
  intros s t Hs Ht. split; intros H.
  - pose proof (sqrt_pos s) as Hp. pose proof (sqrt_sqrt s Hs) as E.
    assert (sqrt s * sqrt s < t * t) by (apply Rmult_le_0_lt_compat; assumption). lra.
  - rewrite <- (sqrt_square t) by lra. apply sqrt_lt_1_alt. lra.
Qed.

Lemma sqrt_gt_iff : forall s t, 0 <= s -> 0 <= t -> (t < sqrt s <-> t * t < s).
Proof.
  intros s t Hs Ht. split; intros H.
  - pose proof (sqrt_sqrt s Hs) as E.
    assert (t * t < sqrt s * sqrt s) by (apply Rmult_le_0_lt_compat; assumption). lra.
  - rewrite <- (sqrt_square t) by lra. apply sqrt_lt_1_alt. pose proof (Rle_0_sqr t) as P. unfold Rsqr in P. lra.
Qed.

(* the model's "<" on a root kept as its square is "<" on the root *)
Theorem val_ltb_root_R : forall neg s t, (0 <= s)%Q ->
  (val_ltb (Root neg s) t = true <-> root_R neg s < Q2R t).
Proof.
  intros neg s t Hs. apply Qle_Rle in Hs. rewrite Q2R_0 in Hs.
  pose proof (sqrt_pos (Q2R s)) as Hp. cbn [val_ltb]. unfold root_R.
  destruct (Qltb 0 t) eqn:T.
  - (* 0 < t *)
    apply Qltb_true_Rlt in T. rewrite Q2R_0 in T. rewrite orb_true_iff, Qltb_true_Rlt, Q2R_sqr.
    destruct neg.
    + (* - sqrt s <= 0 < t *)
      split; [intros _; lra|intros _; left; reflexivity].
    + (* sqrt s < t iff s < t^2 *)
      rewrite Rmult_1_l. rewrite (sqrt_lt_iff _ _ Hs T). split; [intros [F|F]; [discriminate|exact F]|intros F; right; exact F].
  - (* t <= 0 *)
    apply Qltb_false_Rle in T. rewrite Q2R_0 in T. rewrite andb_true_iff, Qltb_true_Rlt, Q2R_sqr.
    destruct neg.
    + (* - sqrt s < t iff - t < sqrt s iff t^2 < s *)
      assert (E : -1 * sqrt (Q2R s) < Q2R t <-> - Q2R t < sqrt (Q2R s)) by (split; intros; lra).
      rewrite E. rewrite (sqrt_gt_iff (Q2R s) (- Q2R t)) by lra.
      replace (- Q2R t * - Q2R t) with (Q2R t * Q2R t) by ring. split; [intros [_ F]; exact F|intros F; split; [reflexivity|exact F]].
    + (* t <= 0 <= sqrt s *)
      split; [intros [F _]; discriminate|intros F; lra].
Qed.

Theorem val_gtb_root_R : forall neg s t, (0 <= s)%Q ->
  (val_gtb (Root neg s) t = true <-> Q2R t < root_R neg s).
Proof.
  intros neg s t Hs. rewrite val_gtb_root_opp, (val_ltb_root_R _ _ _ Hs), Q2R_opp. unfold root_R.
  destruct neg; cbn [negb]; split; intros; lra.
Qed.

(* a reported root ratio is the quotient of the root by the denominator *)
Theorem root_div_R : forall msq den neg s,
  root_div msq den = Root neg s -> root_R neg s = sqrt (Q2R msq) / Q2R den /\ Q2R den <> 0.
Proof.
  intros msq den neg s H. destruct (root_div_root_inv _ _ _ _ H) as [Z [E ->]].
  assert (Hd : Q2R den <> 0) by (intros F; apply Z; apply eqR_Qeq; rewrite F, Q2R_0; reflexivity).
  split; [|exact Hd].
  apply Qeq_eqR in E. rewrite !Q2R_mult in E.
  assert (Es : Q2R s = Q2R msq / Rsqr (Q2R den)) by (rewrite <- E; unfold Rsqr; field; exact Hd).
  (* sqrt (msq / den^2) = sqrt msq / |den|, and the sign bit is that of den *)
  unfold root_R. rewrite Es, (sqrt_div_alt _ _ (Rsqr_pos_lt _ Hd)), sqrt_Rsqr_abs.
  destruct (Qltb den 0) eqn:N.
  - apply Qltb_true_Rlt in N. rewrite Q2R_0 in N. rewrite Rabs_left by exact N. field. exact Hd.
  - apply Qltb_false_Rle in N. rewrite Q2R_0 in N. rewrite Rabs_right by lra. field. exact Hd.
Qed.

Lemma Q2R_le_sqrt : forall a b, (0 <= a)%Q -> (a * a <= b)%Q -> Q2R a <= sqrt (Q2R b).
Proof.
  intros a b Ha H. apply Qle_Rle in Ha. apply Qle_Rle in H. rewrite Q2R_0 in Ha. rewrite Q2R_mult in H.
  rewrite <- (sqrt_square (Q2R a)) by exact Ha. apply sqrt_le_1_alt. exact H.
Qed.
