(* Lemmas about Model/Sufficiency.v (C10); the property is stated in Properties/C10.v.
   First the definitions that the statements of C10.v use besides the model's: the off-cycle rule and the example frames.
   [criteria_eq] is the one place where [criteria] is unfolded. Each check has one characterisation under the published
   thresholds ([check_cond_spec]); [criteria_membership] puts them together for any family, period and reporting flag,
   and the verdict theorems of C10 (baseline, reporting, the two regressions) are its instances. Then the data classes
   ([dataclass] = [criteria] on [handed_frame]), the warnings, the binary64 threshold table ([threshold_exact], with the
   cheaper evaluator [threshold_table_split]), invariance under [same_shape], and the run-length expansion of the
   correspondence frames ([expand_seg_aux_simple]).
   Names: [x_spec] characterises a boolean test of the model by a proposition; [params_facts] / [exact_facts] are the
   boolean tests [params_ok] / [params_exact] read as records of propositions (fields pf_ / ef_). *)
From Coq Require Import ZArith QArith List Bool Lia PrimFloat.
From V Require Import Model.Sufficiency Model.SufficiencyRun Proofs.ListFacts Proofs.ArithFacts.
Import ListNotations.
Open Scope Z_scope.

(* billing: off-cycle reads are reported as a disqualification *)
Definition offcycle_dq (p : params) (f : family) (cx : ctx) : bool := is_billing f && x_offcycle cx && p_offcycle_dq p.

(* row i of a daily frame from the epoch, in month 1 *)
Definition ex_row (i : nat) (o : option Q) (t : bool) : row :=
  mkrow (86400 * Z.of_nat i) 1 o t (Some (if t then (1, 0) else (0, 1))) false true.
(* n such rows, usage and temperature present *)
Definition ex_full (n : nat) : list row := map (fun i => ex_row i (Some (5 # 1)%Q) true) (seq 0 n).
(* temperature missing on rows a .. a+k-1 *)
Definition ex_temp_gap (n a k : nat) (o : option Q) : list row :=
  map (fun i => ex_row i o (negb (Nat.leb a i && Nat.ltb i (a + k)))) (seq 0 n).
(* no usage value on any row *)
Definition ex_no_usage (n : nat) : list row := map (fun i => ex_row i None true) (seq 0 n).
Definition cx0 : ctx := mkctx false false false.
Definition cx_off : ctx := mkctx false false true.

(* daily reporting data, usage on the first 100 of 300 days, temperature missing on 31 days: the criteria say
   "under 90 % of days with valid temperature" (268 of 300); a record with p_span_ignores_usage = false measures against
   the 100 days with usage *)
Definition ex_rep_partial : frame :=
  mkframe true false
    (map (fun i => ex_row i (if Nat.ltb i 100 then Some (5 # 1)%Q else None) (negb (Nat.leb 150 i && Nat.ltb i 181))) (seq 0 300)).

(* negative usage on one day, an extreme value on another *)
Definition ex_negative : list row :=
  map (fun i => ex_row i (Some (if Nat.eqb i 7 then (-3 # 1) else if Nat.eqb i 9 then (1000 # 1) else (5 # 1))%Q) true) (seq 0 340).

Lemma dq_eqb_eq : forall a b, dq_eqb a b = true <-> a = b.
Proof.
  intros a b; split.
  - destruct a, b; intro H; try reflexivity; discriminate H.
  - intros ->; destruct b; reflexivity.
Qed.

Lemma w_eqb_eq : forall a b, w_eqb a b = true <-> a = b.
Proof.
  intros a b; split.
  - destruct a, b; intro H; try reflexivity; discriminate H.
  - intros ->; destruct b; reflexivity.
Qed.

Lemma check_eqb_eq : forall a b, check_eqb a b = true <-> a = b.
Proof.
  intros a b; split.
  - destruct a, b; intro H; try reflexivity; discriminate H.
  - intros ->; destruct b; reflexivity.
Qed.

Lemma existsb_eqb_in : forall (A : Type) (eqb : A -> A -> bool), (forall a b, eqb a b = true <-> a = b) ->
  forall x l, existsb (eqb x) l = true <-> In x l.
Proof.
  intros A eqb Heq x l. rewrite existsb_exists. split.
  - intros [y [Hy He]]. apply Heq in He. subst. exact Hy.
  - intro H. exists x. split; [exact H|]. apply Heq. reflexivity.
Qed.

Lemma in_all_dqnames : forall n, In n all_dqnames.
Proof. destruct n; simpl; tauto. Qed.

Lemma in_all_warnnames : forall n, In n all_warnnames.
Proof. destruct n; simpl; tauto. Qed.

Lemma in_all_families : forall f, In f all_families.
Proof. destruct f; simpl; tauto. Qed.

Lemma in_canon_dq : forall l n, In n (canon_dq l) <-> In n l.
Proof.
  intros l n. unfold canon_dq. rewrite filter_In, (existsb_eqb_in _ _ dq_eqb_eq).
  pose proof (in_all_dqnames n). tauto.
Qed.

Lemma in_canon_w : forall l n, In n (canon_w l) <-> In n l.
Proof.
  intros l n. unfold canon_w. rewrite filter_In, (existsb_eqb_in _ _ w_eqb_eq).
  pose proof (in_all_warnnames n). tauto.
Qed.

Lemma nodup_all_dqnames : NoDup all_dqnames.
Proof.
  unfold all_dqnames.
  repeat (constructor; [simpl; intuition discriminate|]). constructor.
Qed.

Lemma nodup_canon_dq : forall l, NoDup (canon_dq l).
Proof. intro l. unfold canon_dq. apply NoDup_filter. exact nodup_all_dqnames. Qed.

(* every check, the off-cycle rule and the context warnings contribute a list of this form *)
Lemma in_if_singleton : forall (A : Type) (b : bool) (a x : A), In x (if b then [a] else []) <-> b = true /\ x = a.
Proof.
  intros A b a x. destruct b; cbn [In].
  - split; [intros [H|[]]; auto | intros [_ ->]; left; reflexivity].
  - split; [intros [] | intros [H _]; discriminate H].
Qed.

Definition check_name (k : check) : option dqname :=
  match k with
  | CNoData => Some NoData | CNegative => Some NegativeMeterValues | CLength => Some IncorrectNumberOfTotalDays
  | CValidDays => Some TooManyDaysMissingData | CValidMeter => Some TooManyDaysMissingMeter
  | CValidTemp => Some TooManyDaysMissingTemperature | CMonthlyTemp => Some MissingMonthlyTemperature
  | CMonthlyMeter => Some MissingMonthlyMeter | CMonthlyGhi => Some MissingMonthlyGhi
  | CExtreme => None | CEstimated => None
  end.

Definition check_cond (p : params) (is_rep electric : bool) (fr : frame) (c : counts) (k : check) : bool :=
  let rows := f_rows fr in
  match k with
  | CNoData => negb (is_some (c_total c))
  | CNegative => negb is_rep && negb electric && has_negative rows
  | CLength => length_bad p is_rep (c_total c)
  | CValidDays => under p (c_valid c) (c_total c)
  | CValidMeter => negb is_rep && under p (c_meter c) (c_total c)
  | CValidTemp => under p (c_temp c) (c_total c)
  | CMonthlyTemp => monthly_bad p r_temp rows
  | CMonthlyMeter => negb is_rep && monthly_bad p valid_meter_row rows
  | CMonthlyGhi => f_has_ghi fr && monthly_bad p r_ghi rows
  | CExtreme => false
  | CEstimated => false
  end.

Definition check_of (n : dqname) : option check :=
  match n with
  | NoData => Some CNoData | NegativeMeterValues => Some CNegative | IncorrectNumberOfTotalDays => Some CLength
  | TooManyDaysMissingData => Some CValidDays | TooManyDaysMissingMeter => Some CValidMeter
  | TooManyDaysMissingTemperature => Some CValidTemp | MissingMonthlyTemperature => Some CMonthlyTemp
  | MissingMonthlyMeter => Some CMonthlyMeter | MissingMonthlyGhi => Some CMonthlyGhi
  | OffcycleReads => None
  end.

Lemma run_check_fst : forall p is_rep el fr c k,
  fst (run_check p is_rep el fr c k) =
  match check_name k with
  | Some n => if check_cond p is_rep el fr c k then [n] else []
  | None => []
  end.
Proof. intros. destruct k; reflexivity. Qed.

Lemma check_name_of : forall k n, check_name k = Some n <-> check_of n = Some k.
Proof.
  intros k n; split; intro H; destruct k, n; simpl in *; try discriminate H; reflexivity.
Qed.

Lemma in_run_sequence_dq : forall p is_rep el fr c seq n,
  In n (fst (run_sequence p is_rep el fr c seq)) <->
  match check_of n with
  | Some k => In k seq /\ check_cond p is_rep el fr c k = true
  | None => False
  end.
Proof.
  intros. unfold run_sequence. cbn [fst]. rewrite in_flat_map. split.
  - intros [k [Hk Hin]]. rewrite run_check_fst in Hin.
    destruct (check_name k) as [m|] eqn:En; [|contradiction].
    apply in_if_singleton in Hin. destruct Hin as [Hc ->].
    apply check_name_of in En. rewrite En. split; assumption.
  - destruct (check_of n) as [k|] eqn:Eo; [|contradiction]. intros [Hk Hc].
    exists k. split; [exact Hk|]. rewrite run_check_fst.
    apply check_name_of in Eo. rewrite Eo, Hc. left. reflexivity.
Qed.

Lemma in_run_sequence_w : forall p is_rep el fr c seq n,
  In n (snd (run_sequence p is_rep el fr c seq)) <->
  In CExtreme seq /\ is_rep = false /\ has_extreme (f_rows fr) = true /\ n = ExtremeValues.
Proof.
  intros. unfold run_sequence. cbn [snd]. rewrite in_flat_map. split.
  - intros [k [Hk Hin]]. destruct k; cbn [run_check snd] in Hin; try contradiction.
    apply in_if_singleton in Hin. rewrite andb_true_iff, negb_true_iff in Hin. tauto.
  - intros [Hk [Hr [He Hn]]]. exists CExtreme. split; [exact Hk|].
    cbn [run_check snd]. rewrite Hr, He. left. symmetry. exact Hn.
Qed.

Lemma same_checks_in : forall a b, same_checks a b = true -> forall k, In k a <-> In k b.
Proof.
  intros a b H k. unfold same_checks in H. apply andb_true_iff in H. destruct H as [H1 H2].
  rewrite forallb_forall in H1, H2.
  split; intro Hin; apply (existsb_eqb_in _ _ check_eqb_eq); [apply H1|apply H2]; exact Hin.
Qed.

Definition canonical (f : family) (w : period) : list check :=
  match w with Baseline => canonical_baseline f | Reporting => canonical_reporting f end.

Record params_facts (p : params) : Prop := {
  pf_max : p_max_len p = 365; pf_min : p_min_len p = 329;
  pf_cn : p_cov_num p = 9; pf_cd : p_cov_den p = 10; pf_tn : p_tcov_num p = 9; pf_td : p_tcov_den p = 10;
  pf_seq : forall f w k, In k (sequence_of p f w) <-> In k (canonical f w)
}.

Lemma params_ok_facts : forall p, params_ok p = true -> params_facts p.
Proof.
  intros p H. unfold params_ok in H. rewrite !andb_true_iff in H.
  destruct H as [[[[[[[H1 H2] H3] H4] H5] H6] H7] H8].
  apply Z.eqb_eq in H1, H2, H3, H4, H5, H6. rewrite forallb_forall in H7, H8.
  constructor; try assumption.
  intros f w k. destruct w; apply same_checks_in; [apply H7|apply H8]; apply in_all_families.
Qed.

Lemma in_canonical : forall f w k,
  In k (canonical f w) <->
  match w, k with
  | _, (CNoData | CValidDays | CValidTemp | CMonthlyTemp) => True
  | Baseline, (CNegative | CLength | CValidMeter | CExtreme) => True
  | Baseline, CMonthlyMeter => f = Hourly
  | _, CMonthlyGhi => f = Hourly
  | Baseline, CEstimated => f = Billing
  | Reporting, _ => False
  end.
Proof. intros f w k. destruct f, w, k; simpl; intuition discriminate. Qed.

Lemma fold_max_ge : forall l t, t <= fold_left Z.max l t.
Proof. induction l as [|x l IH]; intro t; simpl; [lia|]. specialize (IH (Z.max t x)). lia. Qed.
Lemma fold_min_le : forall l t, fold_left Z.min l t <= t.
Proof. induction l as [|x l IH]; intro t; simpl; [lia|]. specialize (IH (Z.min t x)). lia. Qed.

Lemma span_of_pos : forall c rows d, span_of c rows = Some d -> 1 <= d.
Proof.
  intros c rows d H. unfold span_of in H. destruct (map r_ts (filter c rows)) as [|t l]; [discriminate|].
  injection H as <-. pose proof (fold_max_ge l t). pose proof (fold_min_le l t).
  unfold SECONDS_PER_DAY.
  assert (0 <= (fold_left Z.max l t - fold_left Z.min l t) / 86400) by (apply Z.div_pos; lia). lia.
Qed.

Lemma n_days_total_span : forall ign fr, n_days_total ign fr = span_of (complete ign fr) (f_rows fr).
Proof. reflexivity. Qed.

Lemma span_none_iff : forall c rows, span_of c rows = None <-> forall r, In r rows -> c r = false.
Proof.
  intros c rows. unfold span_of. split.
  - intros H r Hin. destruct (c r) eqn:E; [|reflexivity].
    assert (Hf : In r (filter c rows)) by (apply filter_In; tauto).
    destruct (filter c rows) as [|x l]; [contradiction|]. simpl in H. discriminate H.
  - intro H. rewrite (filter_none _ c rows H). reflexivity.
Qed.

Lemma span_ext : forall c c' rows, (forall r, In r rows -> c r = c' r) -> span_of c rows = span_of c' rows.
Proof.
  intros c c' rows H. unfold span_of. rewrite (filter_ext_in c c' rows H). reflexivity.
Qed.

Lemma under_spec : forall p n total, p_cov_num p = 9 -> p_cov_den p = 10 ->
  (forall d, total = Some d -> 1 <= d) -> (under p n total = true <-> under90 n total).
Proof.
  intros p n total Hn Hd Hpos. unfold under, under90. destruct total as [d|]; [|tauto].
  specialize (Hpos d eq_refl). rewrite Hn, Hd.
  destruct (0 <? d) eqn:E; [|apply Z.ltb_ge in E; lia].
  rewrite Z.ltb_lt. tauto.
Qed.

Lemma length_bad_spec : forall p is_rep total, p_max_len p = 365 -> p_min_len p = 329 ->
  (length_bad p is_rep total = true <->
   exists d, total = Some d /\ (d < 329 \/ if is_rep then False else 365 < d)).
Proof.
  intros p is_rep total Hmax Hmin. unfold length_bad. destruct total as [d|].
  - rewrite Hmax, Hmin, orb_true_iff, andb_true_iff, !Z.ltb_lt. split.
    + intro H. exists d. split; [reflexivity|]. destruct is_rep; cbn [negb] in H; intuition discriminate.
    + intros [d' [E H]]. injection E as <-. destruct is_rep; cbn [negb]; tauto.
  - split; [discriminate|]. intros [d [E _]]. discriminate E.
Qed.

Lemma has_negative_spec : forall rows,
  has_negative rows = true <-> exists r q, In r rows /\ r_obs r = Some q /\ (q < 0)%Q.
Proof.
  intro rows. unfold has_negative. rewrite existsb_exists. split.
  - intros [r [Hin H]]. destruct (r_obs r) as [q|] eqn:E; [|discriminate H].
    exists r, q. rewrite <- Qltb_true. tauto.
  - intros [r [q [Hin [E Hlt]]]]. exists r. rewrite E, Qltb_true. tauto.
Qed.

Lemma in_months12 : forall m, In m months12 <-> 1 <= m <= 12.
Proof. intro m. unfold months12. simpl. lia. Qed.

Lemma monthly_bad_spec : forall p present rows, p_cov_num p = 9 -> p_cov_den p = 10 ->
  (monthly_bad p present rows = true <-> some_month_under90 present rows).
Proof.
  intros p present rows Hn Hd. unfold monthly_bad, some_month_under90. rewrite existsb_exists.
  assert (E : forall m, month_under p present rows m = true <-> month_under90 present rows m).
  { intro m. unfold month_under. rewrite Hn, Hd. apply Z.ltb_lt. }
  split; intros [m [Hm H]]; exists m; (split; [apply in_months12; exact Hm|apply E; exact H]).
Qed.

Lemma valid_temp_row_eq : forall p r, p_tcov_num p = 9 -> p_tcov_den p = 10 -> valid_temp_row p r = temp_valid90 r.
Proof. intros p r Hn Hd. unfold valid_temp_row, temp_valid90. rewrite Hn, Hd. reflexivity. Qed.

Lemma valid_secs_ext : forall v v' rows, (forall r, v r = v' r) -> valid_secs v rows = valid_secs v' rows.
Proof. intros v v' rows H. unfold valid_secs. rewrite (map_ext v v' H). reflexivity. Qed.

Lemma baseline_only_iff : forall (is_rep b : bool) (P : Prop),
  (b = true <-> P) -> (negb is_rep && b = true <-> if is_rep then False else P).
Proof. intros [|] b P H; cbn [negb andb]; [split; [discriminate|contradiction]|exact H]. Qed.

(* what each check tests, with the published thresholds; a test that only baseline data undergoes reads
   [if is_rep then False else ...], so that it computes away once the flag is known *)
Definition check_holds (is_rep electric : bool) (fr : frame) (c : counts) (k : check) : Prop :=
  let rows := f_rows fr in
  match k with
  | CNoData => c_total c = None
  | CNegative => if is_rep then False else electric = false /\ exists r q, In r rows /\ r_obs r = Some q /\ (q < 0)%Q
  | CLength => exists d, c_total c = Some d /\ (d < 329 \/ if is_rep then False else 365 < d)
  | CValidDays => under90 (c_valid c) (c_total c)
  | CValidMeter => if is_rep then False else under90 (c_meter c) (c_total c)
  | CValidTemp => under90 (c_temp c) (c_total c)
  | CMonthlyTemp => some_month_under90 r_temp rows
  | CMonthlyMeter => if is_rep then False else some_month_under90 usage_present rows
  | CMonthlyGhi => f_has_ghi fr = true /\ some_month_under90 r_ghi rows
  | CExtreme | CEstimated => False
  end.

Lemma check_cond_spec : forall p is_rep el fr c k, params_facts p -> (forall d, c_total c = Some d -> 1 <= d) ->
  (check_cond p is_rep el fr c k = true <-> check_holds is_rep el fr c k).
Proof.
  intros p is_rep el fr c k F Hpos.
  pose proof (pf_max p F) as Hmax. pose proof (pf_min p F) as Hmin. pose proof (pf_cn p F) as Hn. pose proof (pf_cd p F) as Hd.
  destruct k; cbn [check_cond check_holds].
  - destruct (c_total c); split; discriminate || reflexivity.
  - rewrite <- andb_assoc. apply baseline_only_iff.
    rewrite andb_true_iff, negb_true_iff, has_negative_spec. reflexivity.
  - apply length_bad_spec; assumption.
  - apply under_spec; assumption.
  - apply baseline_only_iff. apply under_spec; assumption.
  - apply under_spec; assumption.
  - apply monthly_bad_spec; assumption.
  - apply baseline_only_iff. apply (monthly_bad_spec p valid_meter_row); assumption.
  - split; [discriminate|contradiction].
  - rewrite andb_true_iff, (monthly_bad_spec p _ _ Hn Hd). reflexivity.
  - split; [discriminate|contradiction].
Qed.

Lemma criteria_eq : forall p f w el cx fr,
  criteria p f w el cx fr =
  let is_rep := is_reporting_flag p f w in
  let res := run_sequence p is_rep (electric_flag f w el) fr (compute_counts p is_rep fr) (sequence_of p f w) in
  if negb is_rep && negb (f_has_obs fr) then Raised AttributeError else
  Accepted (canon_dq (fst res ++ (if offcycle_dq p f cx then [OffcycleReads] else [])))
           (canon_w (snd res ++ (if x_utc cx then [UtcIndex] else [])
                     ++ (if negb (is_hourly f) && x_unverifiable cx then [UnverifiableTemperature] else [])
                     ++ (if is_billing f && x_offcycle cx && negb (p_offcycle_dq p) then [OffcycleWarning] else []))).
Proof. intros. unfold criteria, dataclass_with_counts. destruct (run_sequence _ _ _ _ _ _). reflexivity. Qed.

Lemma dq_of_criteria : forall p f w el cx fr,
  dq_of (criteria p f w el cx fr) =
  if negb (is_reporting_flag p f w) && negb (f_has_obs fr) then [] else
  canon_dq (fst (run_sequence p (is_reporting_flag p f w) (electric_flag f w el) fr
                   (compute_counts p (is_reporting_flag p f w) fr) (sequence_of p f w))
            ++ (if offcycle_dq p f cx then [OffcycleReads] else [])).
Proof. intros. rewrite criteria_eq. cbv zeta. destruct (negb _ && negb _); reflexivity. Qed.

Lemma raises_false_iff : forall is_rep has_obs, negb is_rep && negb has_obs = false <-> is_rep = true \/ has_obs = true.
Proof. intros [|] [|]; simpl; intuition discriminate. Qed.

Lemma criteria_accepts : forall p f w el cx fr,
  is_reporting_flag p f w = true \/ f_has_obs fr = true ->
  exists dq ws, criteria p f w el cx fr = Accepted dq ws.
Proof.
  intros p f w el cx fr H. apply raises_false_iff in H. rewrite criteria_eq. cbv zeta. rewrite H.
  eexists. eexists. reflexivity.
Qed.

Lemma criteria_raises : forall p f w el cx fr e,
  criteria p f w el cx fr = Raised e <-> e = AttributeError /\ is_reporting_flag p f w = false /\ f_has_obs fr = false.
Proof.
  intros p f w el cx fr e. rewrite criteria_eq. cbv zeta.
  destruct (is_reporting_flag p f w); destruct (f_has_obs fr); cbn [negb andb];
    try (split; [discriminate|intros [_ [? ?]]; discriminate]).
  split; [intro H; injection H as <-; tauto|intros [-> _]; reflexivity].
Qed.

Lemma nodup_dq_of_criteria : forall p f w el cx fr, NoDup (dq_of (criteria p f w el cx fr)).
Proof.
  intros. rewrite dq_of_criteria. destruct (negb _ && negb _); [constructor|apply nodup_canon_dq].
Qed.

Lemma in_dq_of_criteria : forall p f w el cx fr n,
  is_reporting_flag p f w = true \/ f_has_obs fr = true ->
  (In n (dq_of (criteria p f w el cx fr)) <->
   match check_of n with
   | Some k => In k (sequence_of p f w) /\
               check_cond p (is_reporting_flag p f w) (electric_flag f w el) fr
                          (compute_counts p (is_reporting_flag p f w) fr) k = true
   | None => False
   end
   \/ (n = OffcycleReads /\ offcycle_dq p f cx = true)).
Proof.
  intros p f w el cx fr n H. apply raises_false_iff in H.
  rewrite dq_of_criteria, H, in_canon_dq, in_app_iff, in_run_sequence_dq, in_if_singleton.
  apply or_iff_compat_l. tauto.
Qed.

(* the counts with the published temperature threshold, over the rows that carry data *)
Definition published_counts (is_rep : bool) (data : row -> bool) (rows : list row) : counts :=
  {| c_total := span_of data rows;
     c_valid := whole_days (if is_rep then temp_valid90 else fun r => usage_present r && temp_valid90 r) rows;
     c_meter := if is_rep then 0 else whole_days usage_present rows;
     c_temp := whole_days temp_valid90 rows |}.

Lemma compute_counts_published : forall p is_rep fr, params_facts p ->
  compute_counts p is_rep fr = published_counts is_rep (complete (is_rep && p_span_ignores_usage p) fr) (f_rows fr).
Proof.
  intros p is_rep fr F. pose proof (pf_tn p F) as Hn. pose proof (pf_td p F) as Hd.
  unfold compute_counts, published_counts, whole_days.
  assert (Ev : forall r, valid_row p is_rep r = (if is_rep then temp_valid90 else fun r => usage_present r && temp_valid90 r) r).
  { intro r. unfold valid_row. rewrite (valid_temp_row_eq p r Hn Hd). destruct is_rep; reflexivity. }
  rewrite (valid_secs_ext _ _ _ Ev), (valid_secs_ext _ _ (f_rows fr) (fun r => valid_temp_row_eq p r Hn Hd)).
  reflexivity.
Qed.

(* For every family, period and reporting flag: the names reported under the published thresholds and sets of checks
   are those whose check is among the published ones and holds of the frame; [data] is any description of the rows
   that carry data. *)
Lemma criteria_membership : forall p f w el cx fr n is_rep data, params_ok p = true ->
  is_reporting_flag p f w = is_rep -> is_rep = true \/ f_has_obs fr = true ->
  (forall r, In r (f_rows fr) -> complete (is_rep && p_span_ignores_usage p) fr r = data r) ->
  (In n (dq_of (criteria p f w el cx fr)) <->
   match check_of n with
   | Some k => In k (canonical f w) /\
               check_holds is_rep (electric_flag f w el) fr (published_counts is_rep data (f_rows fr)) k
   | None => False
   end
   \/ (n = OffcycleReads /\ offcycle_dq p f cx = true)).
Proof.
  intros p f w el cx fr n is_rep data Hok <- Hacc Hdata. pose proof (params_ok_facts p Hok) as F.
  rewrite (in_dq_of_criteria p f w el cx fr n Hacc). apply or_iff_compat_r.
  destruct (check_of n) as [k|]; [|reflexivity].
  rewrite (pf_seq p F), (compute_counts_published p _ fr F).
  unfold published_counts. rewrite (span_ext _ data _ Hdata).
  rewrite check_cond_spec; [reflexivity|exact F|]. intro d. apply span_of_pos.
Qed.

Lemma complete_baseline : forall fr, f_has_obs fr = true ->
  forall r, complete false fr r = has_data_baseline fr r.
Proof. intros fr H r. unfold complete, has_data_baseline, usage_present. rewrite H. reflexivity. Qed.

Lemma complete_reporting : forall ign fr, ign = true \/ usage_irrelevant fr ->
  forall r, In r (f_rows fr) -> complete ign fr r = has_data_reporting fr r.
Proof.
  intros ign fr H r Hin. unfold complete, has_data_reporting. destruct H as [->|[H|H]].
  - reflexivity.
  - rewrite H. cbn [negb]. rewrite orb_true_r. reflexivity.
  - rewrite (H r Hin), orb_true_r. reflexivity.
Qed.

Lemma baseline_membership : forall p f el cx fr n,
  params_ok p = true -> f_has_obs fr = true ->
  (In n (dq_of (criteria p f Baseline el cx fr)) <->
   violates_baseline f el fr n \/ (n = OffcycleReads /\ offcycle_dq p f cx = true)).
Proof.
  intros p f el cx fr n Hok Hobs.
  rewrite (criteria_membership p f Baseline el cx fr n false (has_data_baseline fr) Hok eq_refl (or_intror Hobs)
             (fun r _ => complete_baseline fr Hobs r)).
  apply or_iff_compat_r. cbn [electric_flag]. unfold violates_baseline.
  (* name by name: its check, whether the published sequence runs it, what it tests; "no data" is an empty span *)
  destruct n; cbn [check_of]; rewrite ?in_canonical; cbn [check_holds published_counts c_total c_valid c_meter c_temp];
    rewrite <- ?span_none_iff; tauto.
Qed.

(* what [criteria_membership] says when the flag is set, name by name; [violates_reporting] and
   [violates_reporting_span_over_usage] are this table for two choices of the rows that carry data *)
Lemma reporting_table : forall f el fr data n,
  match check_of n with
  | Some k => In k (canonical f Reporting) /\
              check_holds true el fr (published_counts true data (f_rows fr)) k
  | None => False
  end <->
  match n with
  | NoData => forall r, In r (f_rows fr) -> data r = false
  | TooManyDaysMissingData | TooManyDaysMissingTemperature =>
      under90 (whole_days temp_valid90 (f_rows fr)) (span_of data (f_rows fr))
  | MissingMonthlyTemperature => some_month_under90 r_temp (f_rows fr)
  | MissingMonthlyGhi => f = Hourly /\ f_has_ghi fr = true /\ some_month_under90 r_ghi (f_rows fr)
  | _ => False
  end.
Proof.
  intros f el fr data n.
  destruct n; cbn [check_of]; rewrite ?in_canonical; cbn [check_holds published_counts c_total c_valid c_meter c_temp];
    rewrite <- ?span_none_iff; tauto.
Qed.

Lemma reporting_membership : forall p f el cx fr n,
  params_ok p = true -> p_reporting_flag p f = true -> p_span_ignores_usage p = true \/ usage_irrelevant fr ->
  (In n (dq_of (criteria p f Reporting el cx fr)) <->
   violates_reporting f fr n \/ (n = OffcycleReads /\ offcycle_dq p f cx = true)).
Proof.
  intros p f el cx fr n Hok Hflag Hus.
  rewrite (criteria_membership p f Reporting el cx fr n true (has_data_reporting fr) Hok Hflag (or_introl eq_refl)
             (complete_reporting _ fr Hus)).
  apply or_iff_compat_r. exact (reporting_table f (electric_flag f Reporting el) fr (has_data_reporting fr) n).
Qed.

Lemma reporting_membership_span_over_usage : forall p f el cx fr n,
  params_ok p = true -> p_reporting_flag p f = true -> p_span_ignores_usage p = false ->
  (In n (dq_of (criteria p f Reporting el cx fr)) <->
   violates_reporting_span_over_usage f fr n \/ (n = OffcycleReads /\ offcycle_dq p f cx = true)).
Proof.
  intros p f el cx fr n Hok Hflag Hspan.
  rewrite (criteria_membership p f Reporting el cx fr n true (complete false fr) Hok Hflag (or_introl eq_refl)).
  2: { intros r _. rewrite Hspan. reflexivity. }
  apply or_iff_compat_r. exact (reporting_table f (electric_flag f Reporting el) fr (complete false fr) n).
Qed.

Definition added_frame (fr : frame) : frame := mkframe true (f_has_ghi fr) (map clear_obs (f_rows fr)).

Lemma dataclass_reporting : forall p f el cx fr, dataclass p f Reporting el cx fr = criteria p f Reporting el cx fr.
Proof. reflexivity. Qed.

Lemma dataclass_baseline_obs : forall p f el cx fr, f_has_obs fr = true ->
  dataclass p f Baseline el cx fr = criteria p f Baseline el cx fr.
Proof. intros p f el cx fr H. unfold dataclass, handed_frame. rewrite H. reflexivity. Qed.

Lemma dataclass_baseline_added : forall p f el cx fr, f_has_obs fr = false -> p_baseline_adds_usage p f = true ->
  dataclass p f Baseline el cx fr = criteria p f Baseline el cx (added_frame fr).
Proof. intros p f el cx fr H Ha. unfold dataclass, handed_frame. rewrite H, Ha. reflexivity. Qed.

Lemma handed_has_obs : forall p f w fr,
  f_has_obs (handed_frame p f w fr) =
  f_has_obs fr || match w with Baseline => p_baseline_adds_usage p f | Reporting => false end.
Proof.
  intros p f w fr. destruct w; cbn [handed_frame]; [|symmetry; apply orb_false_r].
  destruct (f_has_obs fr) eqn:E; destruct (p_baseline_adds_usage p f); cbn [negb andb orb f_has_obs]; auto.
Qed.

Lemma added_rows_wf : forall fr, frame_wf fr -> f_has_obs fr = false -> map clear_obs (f_rows fr) = f_rows fr.
Proof.
  intros fr Hwf H. rewrite <- (map_id (f_rows fr)) at 2. apply map_ext_in. intros r Hin.
  specialize (Hwf H r Hin). destruct r as [t m o tp cv g a]. cbn [r_obs] in Hwf. subst o. reflexivity.
Qed.

Lemma violates_baseline_added : forall f el fr n, frame_wf fr -> f_has_obs fr = false ->
  (violates_baseline f el (added_frame fr) n <-> violates_baseline f el fr n).
Proof.
  intros f el fr n Hwf H. unfold violates_baseline, added_frame. cbn [f_rows].
  rewrite (added_rows_wf fr Hwf H). reflexivity.
Qed.

Lemma dataclass_baseline_membership : forall p f el cx fr n,
  params_ok p = true -> frame_wf fr -> f_has_obs fr = true \/ p_baseline_adds_usage p f = true ->
  (In n (dq_of (dataclass p f Baseline el cx fr)) <->
   violates_baseline f el fr n \/ (n = OffcycleReads /\ offcycle_dq p f cx = true)).
Proof.
  intros p f el cx fr n Hok Hwf H. destruct (f_has_obs fr) eqn:Eo.
  - rewrite (dataclass_baseline_obs p f el cx fr Eo). apply baseline_membership; assumption.
  - destruct H as [H|H]; [discriminate H|]. rewrite (dataclass_baseline_added p f el cx fr Eo H).
    rewrite (baseline_membership p f el cx (added_frame fr) n Hok eq_refl).
    rewrite (violates_baseline_added f el fr n Hwf Eo). reflexivity.
Qed.

Lemma accepted_dq_exact : forall (o : outcome) (V : dqname -> Prop),
  (exists dq ws, o = Accepted dq ws) -> NoDup (dq_of o) -> (forall n, In n (dq_of o) <-> V n) ->
  exists dq ws, o = Accepted dq ws /\ NoDup dq /\ forall n, In n dq <-> V n.
Proof. intros o V [dq [ws ->]] Hnd Hm. exists dq, ws. auto. Qed.

Lemma offcycle_dq_off : forall p f cx, p_offcycle_dq p = false -> offcycle_dq p f cx = false.
Proof. intros p f cx H. unfold offcycle_dq. rewrite H. apply andb_false_r. Qed.

Record exact_facts (p : params) : Prop := {
  ef_ok : params_ok p = true;
  ef_rep : forall f, p_reporting_flag p f = true;
  ef_off : p_offcycle_dq p = false;
  ef_span : p_span_ignores_usage p = true;
  ef_add : forall f, p_baseline_adds_usage p f = true
}.

Lemma params_exact_facts : forall p, params_exact p = true -> exact_facts p.
Proof.
  intros p H. unfold params_exact in H. rewrite !andb_true_iff in H.
  destruct H as [[[[H1 H2] H3] H4] H5]. rewrite forallb_forall in H2, H5. apply negb_true_iff in H3.
  constructor; try assumption.
  - intro f. apply H2. apply in_all_families.
  - intro f. apply H5. apply in_all_families.
Qed.

Lemma in_zrange : forall lo k z, In z (zrange lo k) <-> lo <= z < lo + Z.of_nat k.
Proof.
  intros lo k z. unfold zrange. rewrite in_map_iff. split.
  - intros [i [<- Hi]]. apply in_seq in Hi. lia.
  - intro H. exists (Z.to_nat (z - lo)). split; [lia|]. apply in_seq. lia.
Qed.

Lemma threshold_table_sound : forall bound thr, threshold_table bound thr = true ->
  forall n d, 0 <= n <= Z.of_nat bound -> 1 <= d <= Z.of_nat bound ->
  frac_lt thr n d = (10 * n <? 9 * d) /\ frac_gt thr n d = (9 * d <? 10 * n).
Proof.
  intros bound thr H n d Hn Hd. unfold threshold_table in H. rewrite forallb_forall in H.
  assert (Hin : forall z, 0 <= z <= Z.of_nat bound -> In (z, of_Z z) (map (fun z => (z, of_Z z)) (zrange 0 (S bound)))).
  { intros z Hz. apply in_map_iff. exists z. split; [reflexivity|]. apply in_zrange. lia. }
  specialize (H (d, of_Z d) (Hin d ltac:(lia))). cbn [fst snd] in H.
  apply orb_true_iff in H. destruct H as [H|H]; [apply Z.eqb_eq in H; lia|].
  rewrite forallb_forall in H. specialize (H (n, of_Z n) (Hin n Hn)). cbn [fst snd] in H.
  apply andb_true_iff in H. destruct H as [H1 H2]. apply eqb_prop in H1. apply eqb_prop in H2.
  unfold frac_lt, frac_gt. split; assumption.
Qed.

(* The table as it is evaluated.  Row d of [threshold_table] compares each of the quotients n/d with two integer tests; when
   the table is evaluated without the bytecode machine (as a re-check of the compiled file by coqchk does), the integer
   multiplications are nine tenths of the work.  Both tests are monotone in n: below k = ceil (9 d / 10) the first holds and
   the second fails, above k it is the other way round, and only at n = k can 10 n = 9 d.  [row_split] walks the row with k
   as a counter, so the one integer comparison of a row is made at n = k. *)
Definition quot_lt (thr fd : float) (nf : Z * float) : bool := fltb (fdiv (snd nf) fd) thr.
Definition quot_gt (thr fd : float) (nf : Z * float) : bool := fltb thr (fdiv (snd nf) fd).

Fixpoint row_split (thr : float) (d : Z) (fd : float) (k : nat) (ns : list (Z * float)) : bool :=
  match ns with
  | [] => true
  | nf :: r =>
      match k with
      | S k' => quot_lt thr fd nf && negb (quot_gt thr fd nf) && row_split thr d fd k' r
      | O => negb (quot_lt thr fd nf) && Bool.eqb (quot_gt thr fd nf) (9 * d <? 10 * fst nf)
             && forallb (fun x => negb (quot_lt thr fd x) && quot_gt thr fd x) r
      end
  end.

Definition threshold_table_split (bound : nat) (thr : float) : bool :=
  let ns := map (fun z => (z, of_Z z)) (zrange 0 (S bound)) in
  forallb (fun df : Z * float =>
    (fst df =? 0) || row_split thr (fst df) (snd df) (Z.to_nat ((9 * fst df + 9) / 10)) ns) ns.

Lemma zrange_S : forall lo k, zrange lo (S k) = lo :: zrange (lo + 1) k.
Proof.
  intros lo k. unfold zrange. cbn [seq map]. rewrite Z.add_0_r. f_equal.
  rewrite <- seq_shift, map_map. apply map_ext. intros i. lia.
Qed.

Lemma row_split_sound : forall thr d fd m lo k,
  10 * (lo + Z.of_nat k - 1) < 9 * d <= 10 * (lo + Z.of_nat k) ->
  row_split thr d fd k (map (fun z => (z, of_Z z)) (zrange lo m)) = true ->
  forallb (fun nf : Z * float =>
       Bool.eqb (fltb (fdiv (snd nf) fd) thr) (10 * fst nf <? 9 * d)
       && Bool.eqb (fltb thr (fdiv (snd nf) fd)) (9 * d <? 10 * fst nf))
    (map (fun z => (z, of_Z z)) (zrange lo m)) = true.
Proof.
  intros thr d fd. induction m as [|m IH]; intros lo k Hk H; [reflexivity|].
  rewrite zrange_S in *. cbn [map row_split forallb fst snd] in *. destruct k as [|k].
  - (* n = lo is the first numerator with 9 d <= 10 n; every later one is strictly above *)
    apply andb_true_iff in H. destruct H as [H Hr]. apply andb_true_iff in H. destruct H as [Hl Hg].
    apply negb_true_iff in Hl. unfold quot_lt, quot_gt in *. cbn [snd fst] in *. rewrite Hl. apply eqb_prop in Hg. rewrite Hg.
    replace (10 * lo <? 9 * d) with false by (symmetry; apply Z.ltb_ge; lia). rewrite !eqb_reflx. cbn [andb].
    apply forallb_forall. intros x Hx. rewrite forallb_forall in Hr. specialize (Hr x Hx).
    apply andb_true_iff in Hr. destruct Hr as [Hxl Hxg]. apply negb_true_iff in Hxl. rewrite Hxl, Hxg.
    apply in_map_iff in Hx. destruct Hx as [z [<- Hz]]. apply in_zrange in Hz. cbn [fst].
    replace (10 * z <? 9 * d) with false by (symmetry; apply Z.ltb_ge; lia).
    replace (9 * d <? 10 * z) with true by (symmetry; apply Z.ltb_lt; lia). reflexivity.
  - apply andb_true_iff in H. destruct H as [H Hr]. apply andb_true_iff in H. destruct H as [Hl Hg].
    apply negb_true_iff in Hg. unfold quot_lt, quot_gt in *. cbn [snd fst] in *. rewrite Hl, Hg.
    replace (10 * lo <? 9 * d) with true by (symmetry; apply Z.ltb_lt; lia).
    replace (9 * d <? 10 * lo) with false by (symmetry; apply Z.ltb_ge; lia). cbn [Bool.eqb andb].
    apply (IH (lo + 1) k); [lia|exact Hr].
Qed.

Lemma threshold_table_split_sound : forall bound thr,
  threshold_table_split bound thr = true -> threshold_table bound thr = true.
Proof.
  intros bound thr H. unfold threshold_table, threshold_table_split in *. rewrite forallb_forall in *.
  intros df Hdf. specialize (H df Hdf). apply orb_true_iff in H. apply orb_true_iff. destruct H as [H|H]; [left; exact H|right].
  apply in_map_iff in Hdf. destruct Hdf as [d [<- Hd]]. apply in_zrange in Hd. cbn [fst snd] in *.
  apply row_split_sound with (k := Z.to_nat ((9 * d + 9) / 10)); [|exact H].
  rewrite Z2Nat.id by (apply Z.div_pos; lia).
  pose proof (Z.div_mod (9 * d + 9) 10 ltac:(lia)). pose proof (Z.mod_pos_bound (9 * d + 9) 10 ltac:(lia)). lia.
Qed.

Lemma threshold_bound_value : Z.of_nat THRESHOLD_BOUND = 1000.
Proof. vm_compute. reflexivity. Qed.

(* for any binary64 constant that passes the table (the regenerated ones are checked in Properties/C10.v): up to 1000 the
   binary64 comparisons of the code are the integer comparisons of the model *)
Lemma threshold_exact : forall thr, threshold_table THRESHOLD_BOUND thr = true ->
  forall n d, 0 <= n <= 1000 -> 1 <= d <= 1000 ->
  frac_lt thr n d = (10 * n <? 9 * d) /\ frac_gt thr n d = (9 * d <? 10 * n).
Proof.
  intros thr H n d Hn Hd. rewrite <- threshold_bound_value in Hn, Hd.
  exact (threshold_table_sound THRESHOLD_BOUND thr H n d Hn Hd).
Qed.

(* the integer comparison of the model is the binary64 comparison of the code *)
Lemma under_is_float : forall p thr, p_cov_num p = 9 -> p_cov_den p = 10 ->
  threshold_table THRESHOLD_BOUND thr = true ->
  forall n d, 0 <= n <= 1000 -> 1 <= d <= 1000 -> under p n (Some d) = frac_lt thr n d.
Proof.
  intros p thr Hn9 Hd10 Ht n d Hn Hd. destruct (threshold_exact thr Ht n d Hn Hd) as [E _]. rewrite E.
  unfold under. rewrite Hn9, Hd10.
  destruct (0 <? d) eqn:Ed; [reflexivity|apply Z.ltb_ge in Ed; lia].
Qed.

Lemma temp_valid_is_float_l : forall thr, threshold_table THRESHOLD_BOUND thr = true ->
  forall r a b, r_cov r = Some (a, b) -> 0 <= a -> 0 <= b -> 1 <= a + b <= 1000 ->
  temp_valid90 r = frac_gt thr a (a + b).
Proof.
  intros thr Ht r a b Hr Ha Hb Hab. destruct (threshold_exact thr Ht a (a + b) ltac:(lia) Hab) as [_ E].
  rewrite E. unfold temp_valid90. rewrite Hr. reflexivity.
Qed.

(* rows that differ only in the magnitude of their usage values are indistinguishable to everything the verdict is
   computed from: the list operations first, then each ingredient of [compute_counts] and [check_cond] *)
Lemma shape_map : forall (B : Type) (v : row -> B) rows rows', (forall r r', same_shape r r' -> v r = v r') ->
  Forall2 same_shape rows rows' -> map v rows = map v rows'.
Proof.
  intros B v rows rows' Hv H. induction H as [|r r' l l' Hr Hl IH]; [reflexivity|].
  cbn [map]. rewrite (Hv r r' Hr), IH. reflexivity.
Qed.

Lemma shape_filter : forall (g g' : row -> bool) rows rows', (forall r r', same_shape r r' -> g r = g' r') ->
  Forall2 same_shape rows rows' -> Forall2 same_shape (filter g rows) (filter g' rows').
Proof.
  intros g g' rows rows' Hg H. induction H as [|r r' l l' Hr Hl IH]; [constructor|].
  cbn [filter]. rewrite <- (Hg r r' Hr). destruct (g r); [constructor|]; assumption.
Qed.

Lemma shape_existsb : forall (v : row -> bool) rows rows', (forall r r', same_shape r r' -> v r = v r') ->
  Forall2 same_shape rows rows' -> existsb v rows = existsb v rows'.
Proof.
  intros v rows rows' Hv H. induction H as [|r r' l l' Hr Hl IH]; [reflexivity|].
  cbn [existsb]. rewrite (Hv r r' Hr), IH. reflexivity.
Qed.

Lemma shape_count_if : forall (v : row -> bool) rows rows', (forall r r', same_shape r r' -> v r = v r') ->
  Forall2 same_shape rows rows' -> count_if v rows = count_if v rows'.
Proof.
  intros v rows rows' Hv H. unfold count_if. rewrite (Forall2_len _ _ _ _ _ (shape_filter v v rows rows' Hv H)). reflexivity.
Qed.

Lemma shape_day_counts : forall rows rows', Forall2 same_shape rows rows' -> day_counts rows = day_counts rows'.
Proof.
  intros rows rows' H. induction H as [|r r' l l' Hr Hl IH]; [reflexivity|].
  cbn [day_counts]. destruct Hl as [|r2 r2' l2 l2' Hr2 Hl2]; [reflexivity|].
  rewrite IH. destruct Hr as [E1 _]. destruct Hr2 as [E2 _]. rewrite E1, E2. reflexivity.
Qed.

Lemma shape_valid_secs : forall v rows rows', (forall r r', same_shape r r' -> v r = v r') ->
  Forall2 same_shape rows rows' -> valid_secs v rows = valid_secs v rows'.
Proof.
  intros v rows rows' Hv H. unfold valid_secs. rewrite (shape_map bool v rows rows' Hv H), (shape_day_counts rows rows' H).
  reflexivity.
Qed.

Lemma shape_usage_present : forall r r', same_shape r r' -> is_some (r_obs r) = is_some (r_obs r').
Proof.
  intros r r' H. destruct H as [_ [_ [_ [_ [_ [_ H]]]]]].
  destruct (r_obs r), (r_obs r'); try contradiction; reflexivity.
Qed.

Lemma shape_monthly_bad : forall p v rows rows', (forall r r', same_shape r r' -> v r = v r') ->
  Forall2 same_shape rows rows' -> monthly_bad p v rows = monthly_bad p v rows'.
Proof.
  intros p v rows rows' Hv H. unfold monthly_bad. apply existsb_ext. intro m. unfold month_under.
  assert (Hg : Forall2 same_shape (filter (fun r => r_month r =? m) rows) (filter (fun r => r_month r =? m) rows')).
  { apply shape_filter; [|exact H]. intros r r' [_ [E _]]. rewrite E. reflexivity. }
  rewrite (shape_count_if v _ _ Hv Hg), (Forall2_len _ _ _ _ _ Hg). reflexivity.
Qed.

Lemma shape_has_negative : forall rows rows', Forall2 same_shape rows rows' -> has_negative rows = has_negative rows'.
Proof.
  intros rows rows' H. unfold has_negative. apply shape_existsb; [|exact H].
  intros r r' [_ [_ [_ [_ [_ [_ Hr]]]]]].
  destruct (r_obs r) as [q|], (r_obs r') as [q'|]; try contradiction; [|reflexivity].
  apply eq_true_iff_eq. rewrite !Qltb_true. exact Hr.
Qed.

Lemma shape_complete : forall ign fr fr' r r', f_has_obs fr = f_has_obs fr' -> f_has_ghi fr = f_has_ghi fr' ->
  same_shape r r' -> complete ign fr r = complete ign fr' r'.
Proof.
  intros ign fr fr' r r' Ho Hg Hr. unfold complete. rewrite Ho, Hg, (shape_usage_present r r' Hr).
  destruct Hr as [_ [_ [E3 [E4 [E5 [E6 _]]]]]]. rewrite E3, E4, E5, E6. reflexivity.
Qed.

Lemma shape_complete_ts : forall ign o g rows rows', Forall2 same_shape rows rows' ->
  complete_ts ign (mkframe o g rows) = complete_ts ign (mkframe o g rows').
Proof.
  intros ign o g rows rows' H. unfold complete_ts. cbn [f_rows]. apply shape_map; [intros r r' [E _]; exact E|].
  apply shape_filter; [|exact H]. intros r r'. apply shape_complete; reflexivity.
Qed.

Lemma shape_counts : forall p is_rep o g rows rows', Forall2 same_shape rows rows' ->
  compute_counts p is_rep (mkframe o g rows) = compute_counts p is_rep (mkframe o g rows').
Proof.
  intros p is_rep o g rows rows' H. unfold compute_counts, n_days_total. cbn [f_rows].
  rewrite (shape_complete_ts (is_rep && p_span_ignores_usage p) o g rows rows' H).
  assert (Ht : forall r r', same_shape r r' -> valid_temp_row p r = valid_temp_row p r').
  { intros r r' [_ [_ [_ [E _]]]]. unfold valid_temp_row. rewrite E. reflexivity. }
  assert (Hm : forall r r', same_shape r r' -> valid_meter_row r = valid_meter_row r') by exact shape_usage_present.
  assert (Hv : forall r r', same_shape r r' -> valid_row p is_rep r = valid_row p is_rep r').
  { intros r r' Hr. unfold valid_row. rewrite (Ht r r' Hr), (Hm r r' Hr). reflexivity. }
  rewrite (shape_valid_secs _ rows rows' Hv H), (shape_valid_secs _ rows rows' Hm H), (shape_valid_secs _ rows rows' Ht H).
  reflexivity.
Qed.

Lemma shape_check_cond : forall p is_rep el o g c k rows rows', Forall2 same_shape rows rows' ->
  check_cond p is_rep el (mkframe o g rows) c k = check_cond p is_rep el (mkframe o g rows') c k.
Proof.
  intros p is_rep el o g c k rows rows' H. destruct k; cbn [check_cond f_rows f_has_ghi]; try reflexivity.
  - rewrite (shape_has_negative rows rows' H). reflexivity.
  - apply shape_monthly_bad; [|exact H]. intros r r' [_ [_ [E _]]]. exact E.
  - rewrite (shape_monthly_bad p valid_meter_row rows rows' shape_usage_present H). reflexivity.
  - rewrite (shape_monthly_bad p r_ghi rows rows'); [reflexivity| |exact H]. intros r r' [_ [_ [_ [_ [E _]]]]]. exact E.
Qed.

Lemma criteria_usage_magnitude_never_changes_verdict : forall p f w el cx o g rows rows',
  Forall2 same_shape rows rows' ->
  dq_of (criteria p f w el cx (mkframe o g rows)) = dq_of (criteria p f w el cx (mkframe o g rows')).
Proof.
  intros p f w el cx o g rows rows' H. rewrite !dq_of_criteria. cbn [f_has_obs].
  rewrite (shape_counts p (is_reporting_flag p f w) o g rows rows' H).
  assert (E : forall c seq, fst (run_sequence p (is_reporting_flag p f w) (electric_flag f w el) (mkframe o g rows) c seq)
                          = fst (run_sequence p (is_reporting_flag p f w) (electric_flag f w el) (mkframe o g rows') c seq)).
  { intros c seq. unfold run_sequence. cbn [fst]. apply flat_map_ext. intro k.
    rewrite !run_check_fst, (shape_check_cond p _ _ o g c k rows rows' H). reflexivity. }
  rewrite E. reflexivity.
Qed.

Lemma shape_clear_obs : forall rows rows', Forall2 same_shape rows rows' ->
  Forall2 same_shape (map clear_obs rows) (map clear_obs rows').
Proof.
  intros rows rows' H. induction H as [|r r' l l' Hr Hl IH]; [constructor|]. cbn [map]. constructor; [|exact IH].
  destruct Hr as [E1 [E2 [E3 [E4 [E5 [E6 _]]]]]]. unfold same_shape, clear_obs.
  cbn [r_ts r_month r_temp r_cov r_ghi r_aux r_obs]. tauto.
Qed.

Lemma ex_rep_partial_facts :
  span_of (complete false ex_rep_partial) (f_rows ex_rep_partial) = Some 100 /\
  span_of (has_data_reporting ex_rep_partial) (f_rows ex_rep_partial) = Some 300 /\
  whole_days temp_valid90 (f_rows ex_rep_partial) = 268.
Proof. vm_compute. repeat split. Qed.

(* whenever the days with valid temperature reach 90 % of the span of the rows with usage but not of the whole span *)
Lemma reporting_partial_usage : forall p f el cx fr d_usage d_all, params_ok p = true -> p_reporting_flag p f = true ->
  p_span_ignores_usage p = false ->
  span_of (complete false fr) (f_rows fr) = Some d_usage -> span_of (has_data_reporting fr) (f_rows fr) = Some d_all ->
  9 * d_usage <= 10 * whole_days temp_valid90 (f_rows fr) -> 10 * whole_days temp_valid90 (f_rows fr) < 9 * d_all ->
  ~ In TooManyDaysMissingTemperature (dq_of (dataclass p f Reporting el cx fr)) /\
  violates_reporting f fr TooManyDaysMissingTemperature.
Proof.
  intros p f el cx fr d_usage d_all Hok Hflag Hspan Eusage Eall H1 H2. rewrite dataclass_reporting. split.
  - intro H. apply (reporting_membership_span_over_usage p f el cx fr _ Hok Hflag Hspan) in H.
    destruct H as [H|[H _]]; [|discriminate H].
    unfold violates_reporting_span_over_usage in H. rewrite Eusage in H. unfold under90 in H. lia.
  - unfold violates_reporting. rewrite Eall. unfold under90. exact H2.
Qed.

(* the frame a data class hands over has the flags of the caller's frame or an added usage column, and rows of the
   same shape for frames of the same shape *)
Lemma shape_handed_frame : forall p f w o g rows rows', Forall2 same_shape rows rows' ->
  exists o' l l', handed_frame p f w (mkframe o g rows) = mkframe o' g l /\
                  handed_frame p f w (mkframe o g rows') = mkframe o' g l' /\ Forall2 same_shape l l'.
Proof.
  intros p f w o g rows rows' H. unfold handed_frame. cbn [f_has_obs f_has_ghi f_rows]. destruct w.
  - destruct (negb o && p_baseline_adds_usage p f).
    + exists true, (map clear_obs rows), (map clear_obs rows'). split; [reflexivity|]. split; [reflexivity|].
      apply shape_clear_obs. exact H.
    + exists o, rows, rows'. split; [reflexivity|]. split; [reflexivity|]. exact H.
  - exists o, rows, rows'. split; [reflexivity|]. split; [reflexivity|]. exact H.
Qed.

(* the expansion of a run-length segment caches the civil month per local day; it is the plain definition *)
Lemma expand_seg_aux_simple : forall k t step off dend m obs tp cov g a,
  dend mod 86400 = 0 -> m = month_of_days (dend / 86400 - 1) ->
  expand_seg_aux k t step off dend m obs tp cov g a = expand_seg_simple k t step off obs tp cov g a.
Proof.
  induction k as [|k IH]; intros t step off dend m obs tp cov g a Hd Hm; [reflexivity|].
  cbn [expand_seg_aux expand_seg_simple]. cbv zeta.
  destruct ((dend - 86400 <=? t + off) && (t + off <? dend)) eqn:E.
  - apply andb_true_iff in E. destruct E as [E1 E2]. apply Z.leb_le in E1. apply Z.ltb_lt in E2.
    assert (Hq : (t + off) / 86400 = dend / 86400 - 1).
    { pose proof (Z.div_mod dend 86400 ltac:(lia)) as D. rewrite Hd in D.
      symmetry. apply (Z.div_unique (t + off) 86400 (dend / 86400 - 1) (t + off - 86400 * (dend / 86400 - 1))); lia. }
    f_equal; [unfold month_of_local; rewrite Hq, Hm; reflexivity|]. apply IH; assumption.
  - f_equal. apply IH.
    + apply Z.mod_mul. lia.
    + rewrite Z.div_mul by lia. f_equal. lia.
Qed.
