(* C19 — the tables read from the source (Generated/BillingAggGen.v) against the model (Model/BillingAgg.v).
   Two kinds of lemma:
     * for all inputs: interpreting the MODEL's tables gives exactly parse_arg / aggregate / predict_agg;
     * closed by computation on the regenerated file: the SOURCE's tables are the model's tables.
   A source edit that changes which test is made on `aggregation`, which rule a branch selects, which column is reduced
   by which function, or the guard on `observed` changes the generated file and one of the [source_*] lemmas below
   stops checking. *)
From Coq Require Import ZArith QArith List Bool String.
From V Require Import Model.BillingAgg Proofs.BillingAggProofs Generated.BillingAggGen.
Import ListNotations.

Lemma parse_arg_by_model : forall a, parse_arg_by model_arg_chain ValueErr a = Some (parse_arg a).
Proof.
  intros [|s|]; [reflexivity| |reflexivity].
  cbn [model_arg_chain parse_arg_by eval_test parse_arg].
  destruct (String.eqb (lower s) "none"); [reflexivity|].
  destruct (String.eqb s "monthly"); [reflexivity|].
  destruct (String.eqb s "bimonthly"); reflexivity.
Qed.

Lemma sequence_map_some : forall (B C : Type) (f : B -> option C) (h : B -> C) l,
  (forall x, f x = Some (h x)) -> sequence (map f l) = Some (map h l).
Proof.
  intros B C f h l H. induction l as [|x l IH]; [reflexivity|].
  cbn [map sequence]. rewrite H, IH. reflexivity.
Qed.

Lemma aggregate_by_model : forall k rows, aggregate_by model_agg_table k rows = Some (aggregate k rows).
Proof.
  intros k rows. unfold aggregate_by, aggregate.
  destruct (min_month rows) as [m0|]; [|reflexivity]. destruct (max_month rows) as [m1|]; [|reflexivity].
  apply sequence_map_some. intros j. reflexivity.
Qed.

Lemma table_obs_mode_model : table_obs_mode model_agg_table = ObsOptional.
Proof. reflexivity. Qed.

Lemma predict_agg_by_model : forall has_obs a rows,
  predict_agg_by model_arg_chain ValueErr model_agg_table has_obs a rows = Some (predict_agg ObsOptional has_obs a rows).
Proof.
  intros has_obs a rows. unfold predict_agg_by, predict_agg. rewrite parse_arg_by_model, table_obs_mode_model.
  destruct (parse_arg a) as [| k | e]; [reflexivity| |reflexivity].
  rewrite aggregate_by_model. destruct has_obs; reflexivity.
Qed.

(* what a wrong table does: a reducer outside the model is refused, never silently read as a sum *)
Lemma other_reducer_refused : forall t k m0 j g, table_fn t "observed" = Some FOther -> agg_row_by t k m0 j g = None.
Proof.
  intros t k m0 j g H. unfold agg_row_by. destruct (col_num t "temperature" (map d_temp g)); [|reflexivity].
  cbn [obind]. unfold col_num at 1. rewrite H. reflexivity.
Qed.

Lemma source_arg_chain_billing : gen_arg_chain_billing = model_arg_chain /\ gen_arg_else_billing = ValueErr.
Proof. split; reflexivity. Qed.
Lemma source_arg_chain_weighted : gen_arg_chain_weighted = model_arg_chain /\ gen_arg_else_weighted = ValueErr.
Proof. split; reflexivity. Qed.
Lemma source_agg_table_billing : gen_agg_table_billing = model_agg_table.
Proof. reflexivity. Qed.
Lemma source_agg_table_weighted : gen_agg_table_weighted = model_agg_table.
Proof. reflexivity. Qed.
