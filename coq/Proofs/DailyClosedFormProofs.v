(* C01, last sentence: "for daily and billing models the prediction is exactly what the documented
   piecewise heating/cooling formula gives when evaluated from the JSON parameters alone".
   The documented smoothed hinge, and the model text of Model/DailyCurve.v (real instance) in that form.
   Builds on Proofs/DailyCurveProofs.v (C11). *)
From Coq Require Import Reals Lra List Bool.
From V Require Import Model.Num Model.NumR Model.DailyCurve Proofs.DailyCurveProofs.
Import ListNotations.
Local Open Scope R_scope.

Section Hinge.
Variable lo : R.

(* S(d, 0) = max d 0;  S(d, k) = k (u + e^(-u) - 1) with u = max d 0 / k
   (the exponent is clipped below at [lo], as every exp argument of the package is) *)
Definition hinge (d k : R) : R :=
  if Req_EM_T k 0 then Rmax d 0
  else k * (Rmax d 0 / k + exp (Rmax (- (Rmax d 0 / k)) lo) - 1).

Lemma branch_hinge : forall beta k d, branch lo beta k (pos d) = beta * hinge d k.
Proof.
  intros beta k d. unfold hinge, pos. destruct (Req_EM_T k 0) as [E|E].
  - subst k. rewrite branch_k0. reflexivity.
  - unfold branch, sm. field. exact E.
Qed.

Lemma hinge_unclipped : forall d k, k <> 0 -> lo <= - (Rmax d 0 / k) ->
  hinge d k = k * (Rmax d 0 / k + exp (- (Rmax d 0 / k)) - 1).
Proof.
  intros d k Hk Hc. unfold hinge. destruct (Req_EM_T k 0); [contradiction|].
  rewrite (Rmax_left (- (Rmax d 0 / k)) lo) by exact Hc. reflexivity.
Qed.

Lemma hinge_inactive : forall d k, d <= 0 -> lo <= 0 -> hinge d k = 0.
Proof.
  intros d k Hd Hlo. rewrite <- (Rmult_1_l (hinge d k)), <- branch_hinge.
  apply branch_inactive; assumption.
Qed.
End Hinge.

Section ClosedForm.
Variables lo hi : R.
Hypothesis Hlo : lo <= 0.
Hypothesis Hhi : 0 <= hi.
Notation N := (RNumOf lo hi).

(* heating and cooling terms evaluated from the vector the stored parameters determine *)
Definition H_term (x : fullx N) (T : R) : R := x_hdd_beta x * hinge lo (x_hdd_bp x - T) (x_hdd_k x).
Definition C_term (x : fullx N) (T : R) : R := x_cdd_beta x * hinge lo (T - x_cdd_bp x) (x_cdd_k x).

Lemma daily_closed_form_l : forall c tc, admissible lo hi c tc -> off_corner lo hi c tc -> forall T : R,
  predict_submodel N c tc T =
    Some (intercept c + H_term (eff lo hi c tc) T + C_term (eff lo hi c tc) T,
          H_term (eff lo hi c tc) T, C_term (eff lo hi c tc) T).
Proof.
  intros c tc Ha Ho T. rewrite (predict_closed lo hi Hlo Hhi c tc Ha Ho T).
  unfold heat_part, cool_part, H_term, C_term. rewrite !branch_hinge. reflexivity.
Qed.
End ClosedForm.
