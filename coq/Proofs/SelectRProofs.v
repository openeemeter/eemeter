(* The criterion rebuilt from the source text (Model/SelectShape.v: [tables_criterion]) at the real-number
   instance of Proofs/SelCritProofs.v.  Properties/C13.v states with it that the monotonicity theorems hold
   for the criterion as written in the source (C13_coded_criterion_increasing_in_loss / _in_coefficients);
   [R_tables_criterion_reference] turns it into [R_selection_criteria].  Over the axiomatic reals, like SelCritProofs.v. *)
From Coq Require Import Reals List Bool String.
From V Require Import Model.Num Model.NumR Model.SelCrit Model.SelectShape Proofs.SelCritProofs Proofs.SelectProofs.
Local Open Scope R_scope.

Definition R_tables_criterion (t : sel_tables) : crit_type -> R -> R -> R -> R -> R -> R -> ext R :=
  tables_criterion RNum ln sqrt Rpow R_two_pi R_tiny R_absorb t.

(* for tables equal to the reference it is the real-number criterion of Proofs/SelCritProofs.v *)
Lemma R_tables_criterion_reference : forall t, t = reference_tables -> forall ty c0 d0 loss tss n k,
  R_tables_criterion t ty c0 d0 loss tss n k = R_selection_criteria ty c0 d0 loss tss n k.
Proof. intros t E. exact (reference_criterion_is_model RNum ln sqrt Rpow R_two_pi R_tiny R_absorb t E). Qed.
