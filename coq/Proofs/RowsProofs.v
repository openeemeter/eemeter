(* Lemmas about Model/Rows.v (C07); Proofs/CounterfactualProofs.v (C05) builds on the row accounting.
   The rows of the result are of two kinds ([predict_rows_In]): a complete input row with its prediction, a dropped row carried
   over.  [both_or_neither_iff] reads the row-wise statement off the dropped rows; [input_guard_sufficient] /
   [input_guard_necessary] restate its right-hand side on the incomplete INPUT rows (necessity needs a duplicate-free index,
   under which an incomplete row is a dropped one: [label_in_kept_is_complete]).  [predict_rows_cases] is the form in which
   [predict_rows_In] is used to prove something of every row of the result. *)
From Coq Require Import ZArith QArith List Bool Lia Permutation Sorted.
From V Require Import Model.Rows Proofs.ListFacts.
Import ListNotations.
Open Scope Z_scope.

Section SortFacts.
  Variable B : Type.
  Variable key : B -> Z.

  (* Rows.insert_by satisfies the two equations of ListFacts' insertion sort by computation: the three facts below are its *)
  Lemma sort_by_perm : forall l, Permutation (sort_by key l) l.
  Proof. exact (isort_perm B key (insert_by key) (fun _ => eq_refl) (fun _ _ _ => eq_refl)). Qed.

  Lemma sort_by_In : forall l x, In x (sort_by key l) <-> In x l.
  Proof. exact (isort_In B key (insert_by key) (fun _ => eq_refl) (fun _ _ _ => eq_refl)). Qed.

  Definition key_le (a b : B) : Prop := key a <= key b.

  Lemma sort_by_sorted : forall l, LocallySorted key_le (sort_by key l).
  Proof. exact (isort_sorted B key (insert_by key) (fun _ => eq_refl) (fun _ _ _ => eq_refl)). Qed.
End SortFacts.
Arguments key_le {B} key a b.

Section RowFacts.
  Variable A : Type.
  Variable f : Z -> A -> A.
  Notation row := (row A).
  Notation orow := (orow A).

  Definition kept_of (has_obs : bool) (rows : list row) := fst (initialize_data has_obs rows).
  Definition dropped_of (has_obs : bool) (rows : list row) := snd (initialize_data has_obs rows).

  Lemma kept_In : forall has_obs rows r,
    In r (kept_of has_obs rows) <-> In r rows /\ complete has_obs r = true.
  Proof.
    intros. unfold kept_of, initialize_data. cbn [fst]. rewrite filter_In, sort_by_In. tauto.
  Qed.

  Lemma dropped_In : forall has_obs rows r,
    In r (dropped_of has_obs rows) <->
    In r rows /\ label_in (kept_of has_obs rows) (ts r) = false.
  Proof.
    intros. unfold dropped_of, kept_of, initialize_data. cbn [fst snd].
    rewrite filter_In, sort_by_In, negb_true_iff. tauto.
  Qed.

  (* the label of a complete row is among the kept labels; with a duplicate-free index that is the only way in *)
  Lemma complete_label_in_kept : forall has_obs rows r, In r rows -> complete has_obs r = true ->
    label_in (kept_of has_obs rows) (ts r) = true.
  Proof.
    intros has_obs rows r Hin Hc. apply existsb_exists. exists r. split; [apply kept_In; tauto | apply Z.eqb_refl].
  Qed.

  Lemma label_in_kept_is_complete : forall has_obs rows r, NoDup (map (@ts A) rows) -> In r rows ->
    label_in (kept_of has_obs rows) (ts r) = complete has_obs r.
  Proof.
    intros has_obs rows r Hnd Hin. destruct (complete has_obs r) eqn:Hc; [apply complete_label_in_kept; assumption|].
    apply not_true_is_false. intros E. apply existsb_exists in E. destruct E as [k [Hk Ek]].
    apply Z.eqb_eq in Ek. apply kept_In in Hk. destruct Hk as [Hk1 Hk2].
    assert (k = r) by (eapply NoDup_map_In_inj; eauto). subst k. congruence.
  Qed.

  Lemma dropped_incomplete : forall has_obs rows r,
    In r (dropped_of has_obs rows) -> complete has_obs r = false.
  Proof.
    intros has_obs rows r H. apply dropped_In in H. destruct H as [Hin Hl].
    apply not_true_is_false. intros Hc. rewrite (complete_label_in_kept has_obs rows r Hin Hc) in Hl. discriminate.
  Qed.

  Lemma dropped_is_filter : forall has_obs rows, NoDup (map (@ts A) rows) ->
    dropped_of has_obs rows = filter (fun r => negb (complete has_obs r)) (sort_by (@ts A) rows).
  Proof.
    intros has_obs rows Hnd. unfold dropped_of, initialize_data. cbn [snd].
    apply filter_ext_in. intros r Hr. apply sort_by_In in Hr. f_equal. exact (label_in_kept_is_complete has_obs rows r Hnd Hr).
  Qed.

  Lemma predict_rows_eq : forall pol has_obs rows,
    predict_rows f pol has_obs rows =
    sort_by (@o_ts A) (map (predict_kept f has_obs) (kept_of has_obs rows)
                       ++ map (carry_dropped pol has_obs) (dropped_of has_obs rows)).
  Proof.
    intros pol has_obs rows. unfold predict_rows, kept_of, dropped_of.
    destruct (initialize_data has_obs rows) as [kept dropped]. reflexivity.
  Qed.

  Lemma predict_rows_In : forall pol has_obs rows o,
    In o (predict_rows f pol has_obs rows) <->
    (exists r, In r rows /\ complete has_obs r = true /\ o = predict_kept f has_obs r) \/
    (exists r, In r (dropped_of has_obs rows) /\ o = carry_dropped pol has_obs r).
  Proof.
    intros pol has_obs rows o. rewrite predict_rows_eq, sort_by_In, in_app_iff, !in_map_iff.
    split; (intros [[r H]|[r H]]; [left|right]; exists r).
    - destruct H as [E Hk]. apply kept_In in Hk. destruct Hk as [Hin Hc]. auto.
    - destruct H as [E Hd]. auto.
    - destruct H as [Hin [Hc E]]. split; [auto | apply kept_In; auto].
    - destruct H as [Hd E]. auto.
  Qed.

  (* what holds of the prediction of every complete input row and of every dropped row carried over holds of every row of
     the result *)
  Lemma predict_rows_cases : forall pol has_obs rows (P : orow -> Prop),
    (forall r, In r rows -> complete has_obs r = true -> P (predict_kept f has_obs r)) ->
    (forall r, In r (dropped_of has_obs rows) -> P (carry_dropped pol has_obs r)) ->
    forall o, In o (predict_rows f pol has_obs rows) -> P o.
  Proof.
    intros pol has_obs rows P Hk Hd o Ho. apply predict_rows_In in Ho.
    destruct Ho as [[r [Hr [Hc E]]]|[r [Hr E]]]; subst o; [apply Hk; assumption | apply Hd; exact Hr].
  Qed.

  Lemma complete_temp : forall has_obs (r : row), complete has_obs r = true -> exists t, temp r = V t.
  Proof.
    intros has_obs r H. unfold complete in H. apply andb_true_iff in H. destruct H as [H _].
    destruct (temp r) as [t| | |]; try discriminate. exists t. reflexivity.
  Qed.

  Lemma kept_observed : forall (r : row), complete true r = true ->
    finite (o_obs (predict_kept f true r)) = true.
  Proof.
    intros r H. unfold complete in H. apply andb_true_iff in H. destruct H as [_ H].
    cbn [negb orb] in H. cbn [predict_kept o_obs out_obs]. exact H.
  Qed.

  Lemma finite_notna : forall c : cell A, finite c = true -> notna c = true.
  Proof. intros [a| | |]; cbn; congruence. Qed.

  Lemma kept_row_test : forall r : row, complete true r = true -> row_both_or_neither (predict_kept f true r) = true.
  Proof.
    intros r Hc. unfold row_both_or_neither.
    rewrite (finite_notna _ (kept_observed r Hc)).
    destruct (complete_temp _ _ Hc) as [t Ht]. cbn [predict_kept o_pred]. rewrite Ht. reflexivity.
  Qed.

  Lemma dropped_row_test : forall pol (r : row),
    row_both_or_neither (carry_dropped pol true r) = negb (notna (mask_obs pol r)).
  Proof.
    intros pol r. unfold row_both_or_neither. cbn [carry_dropped o_obs o_pred out_obs notna].
    destruct (notna (mask_obs pol r)); reflexivity.
  Qed.

  Lemma both_or_neither_iff : forall pol rows,
    both_or_neither (predict_rows f pol true rows) <->
    (forall r, In r (dropped_of true rows) -> notna (mask_obs pol r) = false).
  Proof.
    intros pol rows. unfold both_or_neither. rewrite Forall_forall. split.
    - intros H r Hr. apply negb_true_iff. rewrite <- dropped_row_test. apply H.
      apply predict_rows_In. right. exists r. split; [exact Hr | reflexivity].
    - intros H. apply predict_rows_cases.
      + intros r _ Hc. apply kept_row_test. exact Hc.
      + intros r Hr. rewrite dropped_row_test, (H r Hr). reflexivity.
  Qed.

  Lemma input_guard_sufficient : forall pol rows,
    (forall r, In r rows -> complete true r = false -> notna (mask_obs pol r) = false) ->
    both_or_neither (predict_rows f pol true rows).
  Proof.
    intros pol rows H. apply both_or_neither_iff. intros r Hr.
    apply H; [apply dropped_In in Hr; tauto | eapply dropped_incomplete; exact Hr].
  Qed.

  Lemma input_guard_necessary : forall pol rows, NoDup (map (@ts A) rows) ->
    both_or_neither (predict_rows f pol true rows) ->
    forall r, In r rows -> complete true r = false -> notna (mask_obs pol r) = false.
  Proof.
    intros pol rows Hnd H r Hin Hc. rewrite both_or_neither_iff in H.
    apply (H r). apply dropped_In. split; [exact Hin|]. rewrite (label_in_kept_is_complete true rows r Hnd Hin). exact Hc.
  Qed.

  Lemma predicted_is_complete : forall pol has_obs rows o,
    In o (predict_rows f pol has_obs rows) -> notna (o_pred o) = true ->
    exists r, In r rows /\ complete has_obs r = true /\ o = predict_kept f has_obs r.
  Proof.
    intros pol has_obs rows. refine (predict_rows_cases pol has_obs rows _ _ _).
    - intros r Hin Hc _. exists r. auto.
    - intros r _ Hn. discriminate Hn.
  Qed.
End RowFacts.
(* the payload type is implicit in every lemma of the section; the curve [f] is explicit where the lemma mentions it *)
Arguments kept_In {A}.
Arguments dropped_In {A}.
Arguments complete_label_in_kept {A}.
Arguments label_in_kept_is_complete {A}.
Arguments dropped_incomplete {A}.
Arguments dropped_is_filter {A}.
Arguments predict_rows_eq {A}.
Arguments predict_rows_In {A}.
Arguments predict_rows_cases {A}.
Arguments complete_temp {A}.
Arguments kept_observed {A}.
Arguments finite_notna {A}.
Arguments kept_row_test {A}.
Arguments dropped_row_test {A}.
Arguments both_or_neither_iff {A}.
Arguments input_guard_sufficient {A}.
Arguments input_guard_necessary {A}.
Arguments predicted_is_complete {A}.

Open Scope Q_scope.

Definition row_no_inf (o : orow Q) : bool := no_inf (o_obs o) && no_inf (o_pred o).

(* "summing the two columns separately equals summing row-wise savings" whenever the two columns
   are present on the same rows *)
Lemma sums_agree : forall out : list (orow Q),
  both_or_neither out -> Forall (fun o => row_no_inf o = true) out ->
  nansum (map (@o_pred Q) out) - nansum (map (@o_obs Q) out) == nansum (map savings out).
Proof.
  induction out as [|o out IH]; intros Hb Hi.
  - cbn. reflexivity.
  - inversion Hb as [|? ? Hb1 Hb2]; subst. inversion Hi as [|? ? Hi1 Hi2]; subst.
    specialize (IH Hb2 Hi2). cbn [map nansum fold_right].
    fold (nansum (map (@o_pred Q) out)). fold (nansum (map (@o_obs Q) out)). fold (nansum (map savings out)).
    rewrite <- IH. unfold row_both_or_neither in Hb1. unfold row_no_inf in Hi1. unfold savings.
    destruct (o_pred o) as [p| | |], (o_obs o) as [b| | |]; cbn in Hb1, Hi1; try discriminate; cbn [cval]; ring.
Qed.

(* on the frame _predict returns the row-wise statement leaves no +-inf behind: a prediction never is one, a kept row has
   a finite usage value, and a dropped row that passes the row test has lost its usage value — so, whatever the masking
   policy, the equality of the sums follows from the row-wise statement alone *)
Lemma sums_agree_predict_rows : forall (f : Z -> Q -> Q) pol rows,
  let out := predict_rows f pol true rows in
  both_or_neither out ->
  nansum (map (@o_pred Q) out) - nansum (map (@o_obs Q) out) == nansum (map savings out).
Proof.
  intros f pol rows out H. apply sums_agree; [exact H|].
  unfold both_or_neither in H. rewrite Forall_forall in *. intros o Ho.
  specialize (H o Ho). revert o Ho H. unfold row_both_or_neither, row_no_inf. refine (predict_rows_cases f pol true rows _ _ _).
  - intros r _ Hc _. pose proof (kept_observed f r Hc) as H1. destruct (complete_temp _ _ Hc) as [t Ht].
    cbn [predict_kept o_obs o_pred out_obs] in *. rewrite Ht.
    destruct (obs r); cbn in *; congruence.
  - intros r _ H. cbn [carry_dropped o_obs o_pred out_obs] in *. destruct (mask_obs pol r); cbn in *; congruence.
Qed.
