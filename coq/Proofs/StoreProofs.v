(* Lemmas about Model/Store.v (C02): which locations an operation can change.  [step] / [run] are Store.step / Store.run;
   cells are addressed through [nth_error (cells s) l], [content s l] is its value part (the form C02.v states). *)
From Coq Require Import ZArith List Bool Arith Lia.
From V Require Import Model.Gate Model.Store Proofs.GateProofs.
Import ListNotations.
Close Scope Z_scope.

(* ---- lists ---- *)

Lemma nth_error_update : forall (A : Type) (l : list A) n m x,
  nth_error (update l n x) m = if Nat.eqb n m then option_map (fun _ => x) (nth_error l m) else nth_error l m.
Proof.
  intros A l. induction l as [|a l IH]; intros [|n] [|m] x; cbn; try reflexivity; [|apply IH].
  destruct (Nat.eqb n m); reflexivity.
Qed.

Lemma update_length : forall (A : Type) (l : list A) n x, length (update l n x) = length l.
Proof. intros A l. induction l as [|a l IH]; intros [|n] x; cbn; auto. Qed.

(* the shape of [in_place] and [created]: a test, then a read of one cell *)
Lemma if_map_some : forall (A B : Type) (c : bool) (f : A -> B) (o : option A) y,
  (if c then option_map f o else None) = Some y -> c = true /\ exists x, o = Some x /\ y = f x.
Proof.
  intros A B [] f [x|] y H; try discriminate. injection H as <-. split; [reflexivity|]. exists x. split; reflexivity.
Qed.

(* ---- set_val ---- *)

Lemma cell_set_val : forall s l f m,
  nth_error (cells (set_val s l f)) m =
  option_map (fun c => if Nat.eqb l m then {| own := own c; val := f |} else c) (nth_error (cells s) m).
Proof.
  intros s l f m. unfold set_val. destruct (Nat.eqb l m) eqn:Q.
  - apply Nat.eqb_eq in Q. subst m. destruct (nth_error (cells s) l) as [c|] eqn:E; cbn [cells].
    + rewrite nth_error_update, Nat.eqb_refl, E. reflexivity.
    + rewrite E. reflexivity.
  - destruct (nth_error (cells s) l) as [c|]; cbn [cells]; [rewrite nth_error_update, Q|];
      destruct (nth_error (cells s) m); reflexivity.
Qed.

Lemma length_set_val : forall s l f, length (cells (set_val s l f)) = length (cells s).
Proof. intros. unfold set_val. destruct (nth_error (cells s) l); [cbn [cells]; apply update_length | reflexivity]. Qed.

Lemma held_set_val : forall s l f, held (set_val s l f) = held s.
Proof. intros. unfold set_val. destruct (nth_error (cells s) l); reflexivity. Qed.

(* ---- one step: the cells that were there, the cell that is new, the references the caller holds ---- *)

(* the store after the operation's in-place write, before anything is allocated *)
Definition written (g : cfg) (s : store) (o : sop) : store :=
  match in_place g s o with Some (l, f) => set_val s l f | None => s end.

Lemma written_shape : forall g s o,
  held (written g s o) = held s /\ length (cells (written g s o)) = length (cells s).
Proof.
  intros g s o. unfold written.
  destruct (in_place g s o) as [[l f]|]; [split; [apply held_set_val | apply length_set_val] | split; reflexivity].
Qed.

Lemma step_cells : forall g s o,
  cells (step g s o) =
  cells (written g s o) ++ match created g s o with Some (w, f, _) => [{| own := w; val := f |}] | None => [] end.
Proof.
  intros g s o. unfold step, written.
  destruct (leaked g s o), (created g s o) as [[[w f] h]|]; cbn [cells alloc]; rewrite ?app_nil_r; reflexivity.
Qed.

Lemma step_held : forall g s o,
  held (step g s o) =
  held s ++ match created g s o with Some (_, _, true) => [length (cells s)] | _ => [] end
         ++ match leaked g s o with Some l => [l] | None => [] end.
Proof.
  intros g s o. destruct (written_shape g s o) as [Eh El]. unfold step. fold (written g s o).
  destruct (leaked g s o), (created g s o) as [[[w f] [|]]|]; cbn [held alloc];
    rewrite ?Eh, ?El, ?app_nil_r, <- ?app_assoc; reflexivity.
Qed.

Lemma step_old_cell : forall g s o l, l < length (cells s) ->
  nth_error (cells (step g s o)) l =
  option_map (fun c => match in_place g s o with
                       | Some (l', f) => if Nat.eqb l' l then {| own := own c; val := f |} else c
                       | None => c
                       end) (nth_error (cells s) l).
Proof.
  intros g s o l Hl. rewrite step_cells, nth_error_app1 by (rewrite (proj2 (written_shape g s o)); exact Hl).
  unfold written. destruct (in_place g s o) as [[l' f]|]; [apply cell_set_val|].
  destruct (nth_error (cells s) l); reflexivity.
Qed.

Lemma step_known_cell : forall g s o l x, nth_error (cells s) l = Some x ->
  nth_error (cells (step g s o)) l =
  Some (match in_place g s o with
        | Some (l', f) => if Nat.eqb l' l then {| own := own x; val := f |} else x
        | None => x
        end).
Proof.
  intros g s o l x Hx. rewrite step_old_cell, Hx by (apply nth_error_Some; congruence). reflexivity.
Qed.

Lemma step_new_cell : forall g s o w f h, created g s o = Some (w, f, h) ->
  nth_error (cells (step g s o)) (length (cells s)) = Some {| own := w; val := f |}.
Proof.
  intros g s o w f h H. destruct (written_shape g s o) as [_ El]. rewrite step_cells, H.
  rewrite nth_error_app2 by (rewrite El; apply le_n). rewrite El, Nat.sub_diag. reflexivity.
Qed.

Lemma step_length : forall g s o, length (cells s) <= length (cells (step g s o)).
Proof.
  intros g s o. rewrite step_cells, app_length, (proj2 (written_shape g s o)). apply Nat.le_add_r.
Qed.

Lemma step_content : forall g s o l, l < length (cells s) ->
  content (step g s o) l = match in_place g s o with
                           | Some (l', f) => if Nat.eqb l' l then Some f else content s l
                           | None => content s l
                           end.
Proof.
  intros g s o l Hl. unfold content. rewrite step_old_cell by exact Hl.
  destruct (nth_error (cells s) l) eqn:E; [|apply nth_error_None in E; lia].
  destruct (in_place g s o) as [[l' f]|]; [destruct (Nat.eqb l' l)|]; reflexivity.
Qed.

(* ---- an in-place write goes to a location the caller holds and the operation names ---- *)

Definition targets (g : cfg) (o : sop) (l : nat) : Prop :=
  match o with
  | SInit c _ src => src = l /\ init_writes_arg (g c) = true
  | SSeries c _ (Some m) _ => m = l /\ series_writes_arg (g c) = true
  | SMutate l' _ => l' = l
  | _ => False
  end.

Lemma in_place_some : forall g s o l f, in_place g s o = Some (l, f) -> holds s l = true /\ targets g o l.
Proof.
  intros g s o l f H.
  destruct o as [f0|c e src|c e [m|] t|a o|o|o|l0 v]; cbn [in_place] in H; try discriminate; cbn [targets];
    apply if_map_some in H; destruct H as (Hc & x & _ & [= <- _]).
  - apply andb_prop in Hc. destruct Hc as [Hh Hw]. auto.
  - apply andb_prop in Hc. destruct Hc as [Hc Hw]. apply andb_prop in Hc. destruct Hc as [Hh _]. auto.
  - auto.
Qed.

Lemma step_unwritten : forall g s o l x, nth_error (cells s) l = Some x ->
  ~ (holds s l = true /\ targets g o l) -> nth_error (cells (step g s o)) l = Some x.
Proof.
  intros g s o l x Hx N. rewrite (step_known_cell g s o l x Hx).
  destruct (in_place g s o) as [[l' f]|] eqn:E; [|reflexivity].
  destruct (Nat.eqb l' l) eqn:Q; [|reflexivity]. apply Nat.eqb_eq in Q. subst l'.
  exfalso. apply N. eapply in_place_some, E.
Qed.

(* ---- caller-owned frames: unchanged unless the caller itself writes into them ---- *)

Lemma step_untargeted : forall g s o l f, content s l = Some f -> ~ targets g o l -> content (step g s o) l = Some f.
Proof.
  intros g s o l f H N. unfold content in *. destruct (nth_error (cells s) l) as [x|] eqn:E; [|discriminate].
  rewrite (step_unwritten g s o l x E); tauto.
Qed.

Lemma run_cons : forall g s o ops, run g s (o :: ops) = run g (step g s o) ops.
Proof. reflexivity. Qed.
Lemma run_one : forall g s o, run g s [o] = step g s o.
Proof. reflexivity. Qed.

Lemma run_untargeted : forall g ops s l f, content s l = Some f ->
  (forall o, In o ops -> ~ targets g o l) -> content (run g s ops) l = Some f.
Proof.
  intros g ops s l f H N. unfold run. apply fold_left_invariant with (P := fun s' => content s' l = Some f); [|exact H].
  intros o Ho s' Hs'. apply step_untargeted; [exact Hs' | exact (N o Ho)].
Qed.

(* no constructor writes into its argument.  One that does normalises the caller's frame in place, and on [zf] with
   electricity data that shows ([normalise_zf]): what the converse in C02.v is refuted with *)
Definition ctors_copy (g : cfg) : Prop := forall c, init_writes_arg (g c) = false /\ series_writes_arg (g c) = false.

Definition zf : frame := {| has_obs := true; zeros := true; dtcol := false; ver := 0%Z |}.
Definition empty : store := {| cells := []; held := [] |}.

Lemma normalise_zf : forall c, normalise c true zf <> zf.
Proof. intros c H. apply (f_equal zeros) in H. cbn in H. discriminate. Qed.

(* ---- data objects: their private frames never change, whatever the caller does with what it was handed ---- *)

(* the caller holds no reference to a private frame *)
Definition wf (s : store) : Prop :=
  forall l, In l (held s) -> exists x, nth_error (cells s) l = Some x /\ is_obj (own x) = false.

Definition df_copies (g : cfg) : Prop := forall c a, handout_copies (g c) a = true.

Lemma holds_in : forall s l, holds s l = true -> In l (held s).
Proof.
  intros s l H. unfold holds in H. apply existsb_exists in H. destruct H as [x [H1 H2]].
  apply Nat.eqb_eq in H2. subst. assumption.
Qed.

Lemma leaked_none : forall g s o, df_copies g -> leaked g s o = None.
Proof.
  intros g s o Hg. destruct o; cbn; try reflexivity.
  destruct (nth_error (cells s) o); [|reflexivity]. destruct (own c); try reflexivity. rewrite Hg. reflexivity.
Qed.

Lemma created_held_not_obj : forall g s o w f, created g s o = Some (w, f, true) -> is_obj w = false.
Proof.
  intros g s o w f H. destruct o as [f0|c e src|c e m t|a o|o|o|l0 v]; cbn [created] in H; try discriminate.
  - inversion H; reflexivity.
  - (* a constructor creates an object, but hands the caller no reference to it *)
    apply if_map_some in H. destruct H as (_ & x & _ & [= _ _ Q]).
  - apply if_map_some in H. destruct H as (_ & x & _ & [= _ _ Q]).
  - destruct (nth_error (cells s) o); [|discriminate]. destruct (own c); try discriminate.
    destruct (handout_copies (g c0) a); inversion H; reflexivity.
  - destruct (nth_error (cells s) o); [|discriminate]. destruct (is_obj (own c)); inversion H; reflexivity.
Qed.

Lemma step_wf : forall g s o, df_copies g -> wf s -> wf (step g s o).
Proof.
  intros g s o Hg W l Hl. rewrite step_held, (leaked_none g s o Hg), app_nil_r in Hl.
  apply in_app_or in Hl. destruct Hl as [Hl|Hl].
  - destruct (W l Hl) as [x [Hx Ho]].
    rewrite (step_known_cell g s o l x Hx).
    eexists. split; [reflexivity|].
    destruct (in_place g s o) as [[l' f]|]; [destruct (Nat.eqb l' l)|]; exact Ho.
  - destruct (created g s o) as [[[w f] [|]]|] eqn:C; try contradiction. destruct Hl as [<-|[]].
    rewrite (step_new_cell g s o w f true C). eexists. split; [reflexivity|]. eapply created_held_not_obj, C.
Qed.

Lemma step_keeps_object : forall g s o l x, wf s -> nth_error (cells s) l = Some x -> is_obj (own x) = true ->
  nth_error (cells (step g s o)) l = Some x.
Proof.
  intros g s o l x W Hx Ho. apply step_unwritten; [exact Hx|]. intros [Hh _].
  destruct (W l (holds_in s l Hh)) as [y [Hy Hn]]. congruence.
Qed.

(* the whole cell of a data object, and the caller's lack of a reference to it, survive any history *)
Lemma run_keeps_object : forall g ops s l x,
  df_copies g -> wf s -> nth_error (cells s) l = Some x -> is_obj (own x) = true ->
  wf (run g s ops) /\ nth_error (cells (run g s ops)) l = Some x.
Proof.
  intros g ops s l x Hg W Hx Ho. unfold run.
  apply fold_left_invariant with (P := fun s' => wf s' /\ nth_error (cells s') l = Some x); [|split; assumption].
  intros o _ s' [W' Hx']. split; [apply step_wf; assumption | apply step_keeps_object; assumption].
Qed.

(* where the refutations of C02.v start: one caller frame and a data object built from it *)
Definition plain : frame := {| has_obs := true; zeros := false; dtcol := false; ver := 0%Z |}.
Definition with_object (g : cfg) (c : dclass) : store := run g empty [SNew plain; SInit c false 0].

(* ---- fit(): the lists ---- *)

Lemma fit_lists_model : forall copies poor data,
  l_model (fit_lists copies poor data) = data ++ (if poor then [POOR_FIT] else []).
Proof. intros [] poor data; reflexivity. Qed.
